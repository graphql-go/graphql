(* The specification of a syntax-error location, made executable.

   C18: "for a syntax error [the location] falls within the first token (or
   malformed lexeme) at which the text stops being the beginning of any valid
   document".  For a token t reported after the tokens u this is two facts:

     (1) no valid document has a token stream beginning with u ++ [t]
         -- proved for whatever the model reports (Proofs/SynErrViable.v,
         parse_err_position: no_extension u t);
     (2) some valid document has a token stream beginning with u.

   (2) is established per input by a witness: [complete] searches greedily for
   tokens that close what u leaves open and returns them only if the proved-correct
   recogniser accepts u followed by them.  A returned witness is a proof of (2)
   (Proofs/SynErrViable.v, complete_sound); a failed search proves nothing and is
   treated as "unknown". *)
From Coq Require Import String List NArith Bool.
From GQL Require Import Base.Bytes Syntax.Lexer Syntax.Parser SynErr.LexErr SynErr.ParseErr.
Import ListNotations.
Open Scope N_scope.

Definition wtok (k : tkind) (v : string) : token := mktok k 0 0 (of_string v).
Definition weof : token := wtok EOF "".

(* closing tokens first, so that the search closes what is open before it opens more *)
Definition candidates : list token :=
  [ wtok BRACE_R ""; wtok PAREN_R ""; wtok BRACKET_R ""; wtok COLON ""; wtok NAME "x"; wtok INT "1";
    wtok BRACE_L ""; wtok NAME "on"; wtok NAME "type"; wtok NAME "query"; wtok EQUALS ""; wtok AT "";
    wtok DOLLAR "" ].

(* the recogniser gets past every token of u when u is followed by the end of input *)
Definition gets_past (u : list token) : bool :=
  match parse_tokensE (u ++ [weof]) with
  | OkE _ => true
  | ErrE r => Nat.leb (List.length r) 1
  | FuelE => false
  end.

Definition accepts (u : list token) : bool :=
  match parse_tokensE (u ++ [weof]) with OkE [] => true | _ => false end.

Fixpoint complete (n : nat) (u : list token) : option (list token) :=
  if accepts u then Some []
  else
    match n with
    | O => None
    | S n' =>
      match find (fun c => gets_past (u ++ [c])) candidates with
      | Some c => match complete n' (u ++ [c]) with Some w => Some (c :: w) | None => None end
      | None => None
      end
    end.

(* tokens that followed by the end of input make u a document, if the search finds them *)
Definition viable_witness (u : list token) : option (list token) := complete 40 u.

(* ---- what the model reports, with the tokens the parser had consumed ---- *)
Record report := mkreport {
  r_off : N;                 (* reported byte offset *)
  r_lo : N; r_hi : N;        (* extent of the offending token / malformed lexeme, inclusive *)
  r_before : list token;     (* the tokens before it *)
  r_lexical : bool           (* reported by the lexer *)
}.

Definition before (tokens r : list token) : list token :=
  firstn (Nat.sub (List.length tokens) (List.length r)) tokens.

Definition parse_report (src : bytes) : option report :=
  match lexE src with
  | (ts, LDone) =>
    match parse_tokensE ts with
    | ErrE (t :: r) => let '(o, l, h) := tok_ext t in Some (mkreport o l h (before ts (t :: r)) false)
    | ErrE [] => let '(o, l, h) := tok_ext (last ts (end_marker (nlen src))) in Some (mkreport o l h (removelast ts) false)
    | _ => None
    end
  | (ts, LBad s e) =>
    match parse_tokensE (ts ++ [end_marker s]) with
    | ErrE (t :: t2 :: r) =>
      let '(o, l, h) := tok_ext t in Some (mkreport o l h (before (ts ++ [end_marker s]) (t :: t2 :: r)) false)
    | _ => Some (mkreport e s e ts true)
    end
  | (_, LFuel) => None
  end.

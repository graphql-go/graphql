(* Property C20 -- resolvers are invoked once per selected field with accurate parameters.
   The statements: instances of the results of Proofs/ExecSerial.v, ExecPaths.v, ExecCoverage.v,
   ExecSource.v, ExecArgs.v (over Proofs/ExecInv.v) and Proofs/CollectProofs.v; C20_call_record is
   proved here from exec_field_unfold (Proofs/ExecField.v) and field_rest_ext (Proofs/ExecSerial.v). *)
From Coq Require Import List String Bool NArith.
From GQL Require Import Exec.Syntax Exec.Coerce Exec.Exec Exec.Request
     Proofs.ExecField Proofs.ExecInv Proofs.ExecSerial Proofs.CollectProofs.
Import ListNotations.
Open Scope string_scope.
Open Scope list_scope.

(* What a resolver is told: executing the field with response key k of an object value src of
   runtime type obj at path p records, first, exactly one invocation whose path is p ++ [k],
   parent type obj, source src, field name and coerced arguments of the field, and all the
   occurrences merged under k; every further invocation it causes lies strictly below. *)
Theorem C20_call_record : forall fuel cmp dth E obj src k occs p s fd args,
  String.eqb (match occs with o :: _ => oc_name o | [] => "" end) "__typename" = false ->
  find_field (match occs with o :: _ => oc_name o | [] => "" end) (object_fields (en_S E) obj) = Some fd ->
  get_argument_values fuel (en_S E) (f_args fd) (match occs with o :: _ => oc_args o | [] => [] end)
                      (Some (en_vars E)) = Some args ->
  (forall t nodes occs0 fpath p0 v s0, inv1 p0 s0 (cmp t nodes occs0 fpath p0 v s0)) ->
  (forall q s0 p0, thunks_ok p0 q -> invD p0 s0 (dth q s0)) ->
  match exec_field fuel cmp dth E obj src k occs p s with
  | XOk _ s' | XRaise _ s' =>
    exists cs, st_calls s' = st_calls s ++
      {| c_path := p ++ [PKey k]; c_parent := obj;
         c_field := match occs with o :: _ => oc_name o | [] => "" end;
         c_source := src; c_args := args; c_nodes := map oc_id occs |} :: cs
      /\ Forall (fun c => prefix (p ++ [PKey k]) (c_path c)) cs
  | XFuel => True
  end.
Proof.
  intros fuel cmp dth E obj src k occs p s fd args Htn Hfd Hargs IHc IHd.
  rewrite exec_field_unfold. cbv zeta. unfold name in *. rewrite Htn, Hfd, Hargs.
  match goal with |- match field_rest _ _ ?ser ?t ?nodes _ ?fp ?ot ?s2 with _ => _ end =>
    pose proof (field_rest_ext cmp dth ser t nodes occs fp ot s2 (fun v => IHc _ _ _ _ _ v _) (fun q s0 => IHd q s0 fp)) as H;
    destruct (field_rest cmp dth ser t nodes occs fp ot s2) as [y s'|e s'|]; auto;
    destruct H as [[cs [Hcs Hf]] _]; exists cs; (split; [|exact Hf]); rewrite Hcs
  end.
  all: destruct (en_or E (p ++ [PKey k])); cbn; rewrite <- app_assoc; reflexivity.
Qed.
Print Assumptions C20_call_record.

(* All invocations made for one response key lie under that key's path, segment by segment in
   collection order; response keys of one object value are distinct, so no two segments share a path. *)
Theorem C20_calls_segmented : forall fuel E obj src g p s,
  match exec_groups fuel E obj src g p s with
  | XOk _ s' | XRaise _ s' =>
    exists cs, st_calls s' = st_calls s ++ cs /\ Seg p (map fst g) (map c_path cs)
  | XFuel => True
  end.
Proof. exact groups_seg. Qed.
Print Assumptions C20_calls_segmented.

Theorem C20_keys_unique : forall fuel S D vars obj sels g' v',
  collect fuel S D vars obj sels [] [] = Some (g', v') -> NoDup (map fst g').
Proof. intros. eapply collect_keys_nodup; [eassumption|constructor]. Qed.
Print Assumptions C20_keys_unique.

(* A request that is rejected (operation not found, variables that do not coerce) runs no resolver:
   RReject carries no trace; and a completed request's trace starts empty. *)
Theorem C20_no_calls_before : st_calls st0 = [].
Proof. reflexivity. Qed.
Print Assumptions C20_no_calls_before.

(* Every selected field of every object value is resolved at most once: in a completed request
   (whatever the resolvers return -- values, errors, panics, deferred values at any depth -- and
   whether or not the data was nulled) no two resolver invocations have the same response path.
   Together with C20_call_record (the invocation for key k of the object at p has path p ++ [k]),
   this is "once per response key per object value". *)
From GQL Require Import Proofs.ExecPaths.
Theorem C20_resolved_at_most_once : forall fuel S D opn inputs root or tor data s,
  request fuel S D opn inputs root or tor = RDone data s -> NoDup (map c_path (st_calls s)).
Proof. exact request_calls_nodup. Qed.
Print Assumptions C20_resolved_at_most_once.

(* "... and exactly once unless an earlier failure already nulled the enclosing object": in a
   completed request every object value that survives in the response data (the root object, and
   recursively every object under a field or a list item that was not replaced by null) has had,
   for each of its response keys that names a field of its runtime type, an invocation with that
   key's path, the runtime type as parent, the object's source -- the root value at the top
   level --, the field's name, the coerced arguments and all the merged occurrences, and no other
   invocation has that path (PCallG ... (called_once s)); keys selecting __typename hold the
   runtime type's name and keys naming no field are absent.  d is exactly that covered tree. *)
From GQL Require Import Exec.Conform Proofs.ExecCoverage Proofs.ExecSource.
Theorem C20_resolved_exactly_once : forall fuel S D opn inputs root or tor d s,
  request fuel S D opn inputs root or tor = RDone (Some d) s ->
  exists op rt vars g fs,
    get_operation D opn = Some op /\ root_type S op = Some rt /\
    get_variable_values fuel S (o_vars op) inputs = Some (inl vars) /\
    (exists v, collect fuel S D vars rt (o_sel op) [] [] = Some (g, v)) /\
    let E := {| en_S := S; en_D := D; en_vars := vars; en_or := or; en_tor := tor;
                en_serial := match o_kind op with OpMutation => true | _ => false end |} in
    PCallG E (called_once s) rt root [] g fs /\ d = to_resp (QObj fs).
Proof. exact request_calls_exactly_once. Qed.
Print Assumptions C20_resolved_exactly_once.

(* "its source is the value its parent resolved to (the individual element under a list, the
   request's root value at the top level)": for EVERY invocation of a request, also inside
   subtrees nulled later and whether or not data itself was nulled, the path is p ++ [k] and the
   source is the root value when p = [], and otherwise the value reached from the forced outcome
   of the resolver of the enclosing field (q ++ [k']) by descending through the list indices
   between that field and p. *)
Theorem C20_sources_accurate : forall fuel S D opn inputs root or tor data s,
  request fuel S D opn inputs root or tor = RDone data s ->
  exists op vars,
    get_operation D opn = Some op /\
    get_variable_values fuel S (o_vars op) inputs = Some (inl vars) /\
    let E := {| en_S := S; en_D := D; en_vars := vars; en_or := or; en_tor := tor;
                en_serial := match o_kind op with OpMutation => true | _ => false end |} in
    Forall (src_ok E root) (st_calls s).
Proof.
  intros fuel S D opn inputs root or tor data s H.
  destruct (request_told _ _ _ _ _ _ _ _ _ _ H) as [op [vars [H1 [H2 H3]]]]. exists op, vars.
  split; [exact H1|]. split; [exact H2|]. eapply Forall_impl; [|exact H3]. intros c Hc. apply Hc.
Qed.
Print Assumptions C20_sources_accurate.

Theorem C20_top_level_source_is_root : forall E root src, obj_at E root [] src -> src = root.
Proof. exact obj_at_root. Qed.
Print Assumptions C20_top_level_source_is_root.

(* not vacuous: the request of Proofs/ExecPaths.v (a deferred list of two objects, an aliased
   second occurrence, one deferred failing field) completes with data; its five invocations have
   the root, the first and the second list element as sources. *)
Example C20_nonvacuous :
  exists d s,
    request 10 ex_schema ex_doc None [] (RObj 0%N "Q") ex_oracle (fun _ => Some "Q") = RDone (Some d) s /\
    map (fun c => (c_path c, c_source c)) (st_calls s) =
      [([PKey "l"], RObj 0%N "Q");
       ([PKey "l"; PIdx 0%N; PKey "x"], RObj 1%N "Q"); ([PKey "l"; PIdx 0%N; PKey "a"], RObj 1%N "Q");
       ([PKey "l"; PIdx 1%N; PKey "x"], RObj 2%N "Q"); ([PKey "l"; PIdx 1%N; PKey "a"], RObj 2%N "Q")] /\
    descend (RList [RObj 1%N "Q"; RObj 2%N "Q"]) [1%N] = Some (RObj 2%N "Q").
Proof. eexists. eexists. split; [vm_compute; reflexivity|split; reflexivity]. Qed.

(* "its arguments are the coerced arguments of that field, and its info names ... the field's
   occurrences in the document": for EVERY invocation of a request -- also inside subtrees
   nulled later and whether or not data itself was nulled -- the occurrences it is told about
   (c_nodes) are field nodes of the document (of an operation, of a fragment, or below such a
   node), the field name is the first occurrence's, and the argument map is what input coercion
   (get_argument_values, characterised by C05_arguments_with_variables) yields from the first
   occurrence's argument literals against the argument definitions of the schema field
   (parent type, field name) under the request's coerced variable values. *)
From GQL Require Import Proofs.ExecArgs.
Theorem C20_arguments_accurate : forall fuel S D opn inputs root or tor data s,
  request fuel S D opn inputs root or tor = RDone data s ->
  exists op vars,
    get_operation D opn = Some op /\
    get_variable_values fuel S (o_vars op) inputs = Some (inl vars) /\
    let E := {| en_S := S; en_D := D; en_vars := vars; en_or := or; en_tor := tor;
                en_serial := match o_kind op with OpMutation => true | _ => false end |} in
    Forall (args_ok E) (st_calls s).
Proof.
  intros fuel S D opn inputs root or tor data s H.
  destruct (request_told _ _ _ _ _ _ _ _ _ _ H) as [op [vars [H1 [H2 H3]]]]. exists op, vars.
  split; [exact H1|]. split; [exact H2|]. eapply Forall_impl; [|exact H3]. intros c Hc. apply Hc.
Qed.
Print Assumptions C20_arguments_accurate.

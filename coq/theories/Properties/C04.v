(* Property C04 -- responses are well-formed for schema and query whatever resolvers return.
   The statements, each derived from the general results of Proofs/ConformProofs.v,
   Proofs/ExecInv.v, Proofs/ExecIsolation.v, Proofs/ExecErrors.v and Proofs/ExecPaths.v.
   The theorems quantify over every oracle of resolver outcomes (values of the wrong kind, nil,
   typed nil, NaN, errors, value+error, panics, thunks) and every runtime-type oracle
   (nil, non-possible types): nothing is assumed about them. *)
From Coq Require Import List String Bool NArith ZArith.
From GQL Require Import Exec.Syntax Exec.Coerce Exec.Exec Exec.Conform Exec.Request
     Proofs.ExecInv Proofs.ConformProofs.
Import ListNotations.
Open Scope string_scope.
Open Scope list_scope.

(* The data of every completed request conforms to schema and query (Exec/Conform.v): it is an
   object holding exactly the collected response keys that name a field, every value conforms to
   its own field's type -- a non-null position is never null, list positions hold lists or null,
   leaves are legal serialisations (Int within 32 bits, enum value names, ...), objects
   recursively for the runtime type -- and nothing deferred is left in it. *)
Theorem C04_conforms : forall fuel S D opn inputs root or tor d s,
  request fuel S D opn inputs root or tor = RDone (Some d) s ->
  exists op rt vars g fs,
    get_operation D opn = Some op /\ root_type S op = Some rt /\
    get_variable_values fuel S (o_vars op) inputs = Some (inl vars) /\
    (exists v, collect fuel S D vars rt (o_sel op) [] [] = Some (g, v)) /\
    let E := {| en_S := S; en_D := D; en_vars := vars; en_or := or; en_tor := tor;
                en_serial := match o_kind op with OpMutation => true | _ => false end |} in
    PConfG E rt g fs /\ thunks (QObj fs) = [] /\ d = to_resp (QObj fs).
Proof.
  intros fuel S D opn inputs root or tor d s H.
  destruct (request_run _ _ _ _ _ _ _ _ _ _ H) as [op [rt [vars [g [v [Hop [Hrt [Hv [Hc Hfin]]]]]]]]].
  destruct (finished_conforms _ _ _ _ _ _ Hfin) as [fs Hfs].
  exists op, rt, vars, g, fs. repeat (split; [assumption|]). split; [exists v; exact Hc|exact Hfs].
Qed.
Print Assumptions C04_conforms.

(* The same at every depth: whatever value is completed against whatever type, the result conforms. *)
Theorem C04_complete_conforms : forall E fuel t nodes occs fpath p v s q s',
  complete fuel E t nodes occs fpath p v s = XOk q s' -> PConf E t occs q.
Proof.
  intros E fuel t nodes occs fpath p v s q s' H.
  pose proof (proj1 (run_sound E fuel) t nodes occs fpath p v s) as Hc. rewrite H in Hc.
  exact (proj1 (run_conf E _ (Hc ltac:(discriminate)))).
Qed.
Print Assumptions C04_complete_conforms.

(* A failure becomes null exactly at the nearest nullable position, together with its error;
   at a non-null position it moves on to the enclosing position. *)
Theorem C04_failure_nulls_nearest_nullable : forall t e s,
  (is_nonnull t = false -> catch_at t (XRaise e s) = XOk QNull (add_err e s)) /\
  (is_nonnull t = true -> catch_at t (XRaise e s) = XRaise e s).
Proof. intros t e s. unfold catch_at. split; intros ->; reflexivity. Qed.
Print Assumptions C04_failure_nulls_nearest_nullable.

(* Errors recorded for other fields are kept: executing any selection set only ever appends to the
   error list, and every error it appends (or raises) carries a path below the selection set's own. *)
Theorem C04_errors_kept : forall fuel E obj src g p s,
  match exec_groups fuel E obj src g p s with
  | XOk _ s' => exists es, st_errs s' = st_errs s ++ es /\ Forall (fun e => prefix p (e_path e)) es
  | XRaise e s' => (exists es, st_errs s' = st_errs s ++ es /\ Forall (fun e => prefix p (e_path e)) es)
                   /\ prefix p (e_path e)
  | XFuel => True
  end.
Proof.
  intros fuel E obj src g p s.
  pose proof (proj1 (proj2 (proj2 (exec_inv fuel))) E obj src g p s) as H.
  destruct (exec_groups fuel E obj src g p s) as [fs s'|e s'|]; cbn in H; auto.
  - destruct H as [[_ He] _]. exact He.
  - destruct H as [[_ He] Hp]. split; assumption.
Qed.
Print Assumptions C04_errors_kept.

(* ---- non-vacuity: adversarial outcomes (an out-of-range Int, a value returned together with an
        error, a non-iterable for a list, a failing non-null child) give a conforming response ---- *)
Definition S4 : schema := {|
  s_types := [("Int", TScalar SInt); ("String", TScalar SString);
              ("O", TObject [{| f_name := "n"; f_args := []; f_type := TNonNull (TNamed "Int") |}] []);
              ("Q", TObject [{| f_name := "i"; f_args := []; f_type := TNamed "Int" |};
                             {| f_name := "s"; f_args := []; f_type := TNamed "String" |};
                             {| f_name := "l"; f_args := []; f_type := TList (TNamed "Int") |};
                             {| f_name := "o"; f_args := []; f_type := TNamed "O" |}] [])];
  s_query := "Q"; s_mutation := None |}.
Definition D4 : document := {|
  d_ops := [{| o_kind := OpQuery; o_name := None; o_vars := [];
               o_sel := [SField 2%N None "i" [] [] []; SField 4%N None "s" [] [] []; SField 6%N None "l" [] [] [];
                         SField 8%N None "o" [] [] [SField 12%N None "n" [] [] []]] |}];
  d_frags := [] |}.
Definition or4 : oracle := fun p =>
  match p with
  | [PKey "i"] => Some (OVal (RInt 2147483648%Z))
  | [PKey "s"] => Some (OValErr (RStr "leak"))
  | [PKey "l"] => Some (OVal (RInt 5%Z))
  | [PKey "o"] => Some (OVal (RObj 1%N "O"))
  | [PKey "o"; PKey "n"] => Some (OThunk OErr)
  | _ => None
  end.

Example C04_nonvacuous :
  match request 20 S4 D4 None [] (RObj 0%N "root") or4 (fun _ => None) with
  | RDone (Some d) s =>
    d = PObj [("i", PNull); ("s", PNull); ("l", PNull); ("o", PNull)] /\
    map e_path (st_errs s) = [[PKey "s"]; [PKey "l"]; [PKey "o"; PKey "n"]]
  | _ => False
  end.
Proof. vm_compute. split; reflexivity. Qed.

(* ---- isolation of sibling fields (Proofs/ExecIsolation.v) ----
   Two runs whose resolver oracles agree everywhere outside the subtree at fp -- in particular
   one where something below fp fails and one where it does not -- compared field by field.
   agree_outside fp o1 o2 := forall q, ~ prefix fp q -> o1 q = o2 q;
   errs_out fp s / calls_out fp s := the errors / resolver invocations of s whose path is not
   under fp, in recorded order. *)
From GQL Require Import Proofs.ExecPaths Proofs.ExecIsolation Run.ExecRun.

(* a request: every top-level field other than the one the runs differ under has the same
   sub-response, and the errors and resolver invocations (arguments included) outside that
   field's subtree are the same, provided neither run nulls the data itself *)
Theorem C04_sibling_isolation : forall fuel S D opn inputs root or1 or2 tor k fp d1 s1 d2 s2,
  prefix [PKey k] fp -> agree_outside fp or1 or2 ->
  request fuel S D opn inputs root or1 tor = RDone (Some d1) s1 ->
  request fuel S D opn inputs root or2 tor = RDone (Some d2) s2 ->
  (forall k', k' <> k -> resp_at d1 [PKey k'] = resp_at d2 [PKey k']) /\
  errs_out [PKey k] s1 = errs_out [PKey k] s2 /\
  calls_out [PKey k] s1 = calls_out [PKey k] s2.
Proof.
  intros fuel S D opn inputs root or1 or2 tor k fp d1 s1 d2 s2 Hp Ha H1 H2. unfold request in H1, H2.
  destruct (get_operation D opn) as [op|]; [|discriminate].
  destruct (root_type S op) as [rt|]; [|discriminate].
  destruct (get_variable_values fuel S (o_vars op) inputs) as [[vars|e]|]; try discriminate.
  destruct (collect fuel S D vars rt (o_sel op) [] []) as [[g v]|]; [|discriminate].
  set (E1 := {| en_S := S; en_D := D; en_vars := vars; en_or := or1; en_tor := tor;
                en_serial := match o_kind op with OpMutation => true | _ => false end |}) in *.
  set (E2 := {| en_S := S; en_D := D; en_vars := vars; en_or := or2; en_tor := tor;
                en_serial := match o_kind op with OpMutation => true | _ => false end |}) in *.
  destruct (exec_groups fuel E1 rt root g [] st0) as [fs1 t1|e1 t1|] eqn:G1; try discriminate.
  destruct (exec_groups fuel E2 rt root g [] st0) as [fs2 t2|e2 t2|] eqn:G2; try discriminate.
  destruct (dethunk fuel E1 (QObj fs1) t1) as [q1 u1|e1 u1|] eqn:F1; try discriminate.
  destruct (dethunk fuel E2 (QObj fs2) t2) as [q2 u2|e2 u2|] eqn:F2; try discriminate.
  injection H1 as <- <-. injection H2 as <- <-.
  destruct (forced_iso E1 E2 [] k ltac:(split; reflexivity) (agree_outside_weaken _ _ _ _ Hp Ha)
              fuel fuel rt root g st0 _ _ _ _ _ _ _ _ G1 G2 F1 F2) as [ys1 [ys2 [-> [-> [Hl Ho]]]]].
  split; [|exact Ho].
  intros k' Hk. cbn [to_resp resp_at]. rewrite !alookup_map_snd, (sibs_alookup _ _ _ Hl k' Hk). reflexivity.
Qed.
Print Assumptions C04_sibling_isolation.

(* the same for the selection set of any object value at any response path p, provided neither
   run raises out of the selection set (which would null the enclosing position): same keys,
   same (possibly still deferred) result for every sibling key *)
Theorem C04_selection_isolation : forall fuel E1 E2 obj src g p k fp s fs1 s1 fs2 s2,
  same_but_oracle E1 E2 -> prefix (p ++ [PKey k]) fp -> agree_outside fp (en_or E1) (en_or E2) ->
  exec_groups fuel E1 obj src g p s = XOk fs1 s1 ->
  exec_groups fuel E2 obj src g p s = XOk fs2 s2 ->
  map fst fs1 = map fst fs2 /\
  (forall k', k' <> k -> alookup k' fs1 = alookup k' fs2) /\
  errs_out (p ++ [PKey k]) s1 = errs_out (p ++ [PKey k]) s2 /\
  calls_out (p ++ [PKey k]) s1 = calls_out (p ++ [PKey k]) s2.
Proof.
  intros fuel E1 E2 obj src g p k fp s fs1 s1 fs2 s2 Hs Hp Ha H1 H2.
  destruct (groups_iso E1 E2 p k Hs (agree_outside_weaken _ _ _ _ Hp Ha) fuel obj src g s s _ _ _ _ H1 H2)
    as [Hsib Hout].
  exact (sibs_out _ _ _ _ _ _ Hsib (Hout (out_eq_refl _ s))).
Qed.
Print Assumptions C04_selection_isolation.

(* and after the deferred values of the two results are forced *)
Theorem C04_selection_isolation_forced : forall fuel fuel' E1 E2 obj src g p k fp s fs1 s1 fs2 s2 q1 s1' q2 s2',
  same_but_oracle E1 E2 -> prefix (p ++ [PKey k]) fp -> agree_outside fp (en_or E1) (en_or E2) ->
  exec_groups fuel E1 obj src g p s = XOk fs1 s1 ->
  exec_groups fuel E2 obj src g p s = XOk fs2 s2 ->
  dethunk fuel' E1 (QObj fs1) s1 = XOk q1 s1' ->
  dethunk fuel' E2 (QObj fs2) s2 = XOk q2 s2' ->
  exists ys1 ys2, q1 = QObj ys1 /\ q2 = QObj ys2 /\
    map fst ys1 = map fst ys2 /\
    (forall k', k' <> k -> alookup k' ys1 = alookup k' ys2) /\
    errs_out (p ++ [PKey k]) s1' = errs_out (p ++ [PKey k]) s2' /\
    calls_out (p ++ [PKey k]) s1' = calls_out (p ++ [PKey k]) s2'.
Proof.
  intros fuel fuel' E1 E2 obj src g p k fp s fs1 s1 fs2 s2 q1 s1' q2 s2' Hs Hp Ha H1 H2 D1 D2.
  destruct (forced_iso E1 E2 p k Hs (agree_outside_weaken _ _ _ _ Hp Ha) fuel fuel' obj src g s _ _ _ _ _ _ _ _
              H1 H2 D1 D2) as [ys1 [ys2 [-> [-> [Hsib Hout]]]]].
  exists ys1, ys2. split; [reflexivity|]. split; [reflexivity|]. exact (sibs_out _ _ _ _ _ _ Hsib Hout).
Qed.
Print Assumptions C04_selection_isolation_forced.

(* the reason: an execution at path p consults the resolver oracle only at paths below p (the
   dethunk pass: below the deferred values it forces), ... *)
Theorem C04_oracle_locality : forall fuel E1 E2, same_but_oracle E1 E2 ->
  (forall t nodes occs fpath p v s, agree_under p (en_or E1) (en_or E2) ->
     complete fuel E1 t nodes occs fpath p v s = complete fuel E2 t nodes occs fpath p v s) /\
  (forall obj occs p src s, agree_under p (en_or E1) (en_or E2) ->
     exec_object fuel E1 obj occs p src s = exec_object fuel E2 obj occs p src s) /\
  (forall obj src g p s, agree_under p (en_or E1) (en_or E2) ->
     exec_groups fuel E1 obj src g p s = exec_groups fuel E2 obj src g p s) /\
  (forall q s p, agree_under p (en_or E1) (en_or E2) -> thunks_ok p q ->
     dethunk fuel E1 q s = dethunk fuel E2 q s).
Proof.
  intros fuel E1 E2 Hs. destruct (exec_sim fuel E1 E2 Hs) as [Sc [So [Sg Sd]]].
  repeat split; intros.
  - apply (sim_same _ (complete fuel E1 t nodes occs fpath p v)). intros. apply Sc. assumption.
  - apply (sim_same _ (exec_object fuel E1 obj occs p src)). intros. apply So. assumption.
  - apply (sim_same _ (exec_groups fuel E1 obj src g p)). intros. apply Sg. assumption.
  - apply (sim_same _ (dethunk fuel E1 q)). intros. apply Sd. eapply agree_thunks_under; eassumption.
Qed.
Print Assumptions C04_oracle_locality.

(* ... and never reads the state it extends: run from s ++ d it yields its run from d, with s in front *)
Theorem C04_state_frame : forall fuel,
  (forall E t nodes occs fpath p v s d,
     complete fuel E t nodes occs fpath p v (sapp s d) = xlift s (complete fuel E t nodes occs fpath p v d)) /\
  (forall E obj occs p src s d,
     exec_object fuel E obj occs p src (sapp s d) = xlift s (exec_object fuel E obj occs p src d)) /\
  (forall E obj src g p s d,
     exec_groups fuel E obj src g p (sapp s d) = xlift s (exec_groups fuel E obj src g p d)) /\
  (forall E q s d, dethunk fuel E q (sapp s d) = xlift s (dethunk fuel E q d)).
Proof.
  intros fuel. repeat split; intros E; intros; apply (exec_sim fuel E E (same_but_oracle_refl E));
    [apply agree_under_refl..|apply agree_thunks_refl].
Qed.
Print Assumptions C04_state_frame.

(* ---- "a field that fails contributes null together with an error whose path addresses that
   field" (Proofs/ExecErrors.v): for every resolver invocation of a request whose outcome is, at
   once, a failure (an error, a value together with an error, a panic with an error, a string or
   any other value) the response carries an error with exactly that field's response path and
   the field's occurrences as locations -- wherever the resulting null ends up, and whether or
   not data itself was nulled.  (C18_error_paths_address_null is the converse direction: every
   reported path addresses a null.)  A deferred outcome fails when it is forced. *)
From GQL Require Import Proofs.ExecErrors.
Theorem C04_failed_field_has_error : forall fuel S D opn inputs root or tor data s,
  request fuel S D opn inputs root or tor = RDone data s ->
  exists op vars,
    get_operation D opn = Some op /\
    get_variable_values fuel S (o_vars op) inputs = Some (inl vars) /\
    let E := {| en_S := S; en_D := D; en_vars := vars; en_or := or; en_tor := tor;
                en_serial := match o_kind op with OpMutation => true | _ => false end |} in
    forall c, In c (st_calls s) -> fails_now E c -> reported (st_errs s) c.
Proof. exact request_failures_reported. Qed.
Print Assumptions C04_failed_field_has_error.

(* not vacuous: in the request of C04_nonvacuous the resolver of "s" fails at once (a value
   together with an error) and its error is reported with its path and its occurrence *)
Example C04_failed_field_nonvacuous :
  match request 20 S4 D4 None [] (RObj 0%N "root") or4 (fun _ => None) with
  | RDone (Some d) s =>
    exists c, In c (st_calls s) /\ c_path c = [PKey "s"] /\
              or4 (c_path c) = Some (OValErr (RStr "leak")) /\ force (OValErr (RStr "leak")) = (OValErr (RStr "leak"), false) /\
              In {| e_path := [PKey "s"]; e_nodes := [4%N] |} (st_errs s)
  | _ => False
  end.
Proof.
  vm_compute. eexists. split; [right; left; reflexivity|].
  repeat split. left. reflexivity.
Qed.

(* ... and "contributes null (never the raw resolver value)": the data of a completed request
   holds null at the failed field's path or at one of its prefixes (the nearest nullable
   ancestor the failure propagated to).  Corollary of C04_failed_field_has_error and
   C18_error_paths_address_null (Proofs/ExecPaths.v request_error_paths_null). *)
Theorem C04_failed_field_is_null : forall fuel S D opn inputs root or tor d s,
  request fuel S D opn inputs root or tor = RDone (Some d) s ->
  exists op vars,
    get_operation D opn = Some op /\
    get_variable_values fuel S (o_vars op) inputs = Some (inl vars) /\
    let E := {| en_S := S; en_D := D; en_vars := vars; en_or := or; en_tor := tor;
                en_serial := match o_kind op with OpMutation => true | _ => false end |} in
    forall c, In c (st_calls s) -> fails_now E c -> null_on_path d (c_path c) = true.
Proof.
  intros fuel S D opn inputs root or tor d s H.
  destruct (request_failures_reported _ _ _ _ _ _ _ _ _ _ H) as [op [vars [H1 [H2 H3]]]].
  exists op, vars. split; [exact H1|]. split; [exact H2|]. cbv zeta in H3 |- *.
  intros c Hc Hf. destruct (H3 c Hc Hf) as [e [He [Hp _]]].
  pose proof (request_error_paths_null _ _ _ _ _ _ _ _ _ _ H) as Hok. cbn [paths_ok] in Hok.
  rewrite forallb_forall in Hok. rewrite <- Hp. apply Hok. exact He.
Qed.
Print Assumptions C04_failed_field_is_null.

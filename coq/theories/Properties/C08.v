(* Property C08 -- printing an AST and parsing the text back yields the same AST; printing is
   stable after one round and does not modify the AST it is given.
   The statements: most are instances of the general results of Proofs/Syntax*.v; C08_quote_total
   and C08_stable_any (with its helper gt_eqb_gnl and the definition reparses) are proved here.  Models: Syntax/Printer.v (printer.go:
   executable and type-system definitions, descriptions as block or quoted strings),
   Syntax/Lexer.v, Syntax/Parser.v, Syntax/PrintVisit.v (how visitor.Visit applies the values
   returned by the printer's reducers).  The same law is judged on the implementation by
   Run/C08run.v, which also compares the printed text with print_doc byte for byte. *)
From Coq Require Import String List NArith Bool.
From GQL Require Import Base.Bytes Syntax.Lexer Syntax.Ast Syntax.Parser Syntax.Printer Proofs.SyntaxPrinter Proofs.SyntaxUtf8 Proofs.SyntaxRender Syntax.Grammar Proofs.SyntaxTypeRT
  Proofs.SyntaxComplete Proofs.SyntaxRoundTrip Proofs.SyntaxRoundTripFinal Proofs.SyntaxBlock Proofs.SyntaxRoundTripSDL
  Syntax.PrintVisit Proofs.SyntaxNoEdit.
Import ListNotations.
Open Scope N_scope.

(* The printer can quote every byte string. *)
Theorem C08_quote_total : forall s, quote_string s <> Err.
Proof.
  intro s. unfold quote_string.
  assert (H : forall f s, quote_body f s <> Err).
  { induction f as [|f IH]; intro s0; [discriminate|]. rewrite quote_body_step.
    destruct (rune_at s0) as [[r n]|]; [|discriminate].
    specialize (IH (dropN n s0)). destruct (quote_body f (dropN n s0)); [discriminate|contradiction|discriminate]. }
  specialize (H (S (length s)) s). destruct (quote_body (S (length s)) s); [discriminate|contradiction|discriminate].
Qed.
Print Assumptions C08_quote_total.

(* String contents survive print-then-lex: for every string s of single-byte characters
   (quotes, backslashes, every C0 control, DEL included) followed by any text, the lexer reads
   quote_string s back as one STRING token with value s that spans exactly the quoted text.
   (The special case of C08_string_roundtrip for single-byte characters, read from offset 0; the
   side condition excludes only "" directly followed by another double quote.) *)
Theorem C08_string_roundtrip_partial : forall s rest, (forall c, In c s -> c < 128) ->
  (s <> [] \/ forall r, rest <> 34 :: r) ->
  exists q, quote_string s = Ok q /\
    read_token (S (length (q ++ rest))) (q ++ rest) 0 = Ok (mktok STRING 0 (nlen q) s, rest, nlen q).
Proof. exact quote_lex_roundtrip_ascii. Qed.
Print Assumptions C08_string_roundtrip_partial.

(* String contents survive print-then-lex for every valid UTF-8 string (single bytes below 128 and
   genuinely decoded 2-, 3- and 4-byte sequences, so non-BMP code points, U+FFFF, U+2028, BOM ...):
   multi-byte characters are written unescaped and read back byte for byte. *)
Theorem C08_string_roundtrip : forall s rest, utf8_valid s ->
  (s <> [] \/ forall r, rest <> 34 :: r) ->
  exists q, quote_string s = Ok q /\
    forall pos fuel, (length (q ++ rest) < fuel)%nat ->
    read_token fuel (q ++ rest) pos = Ok (mktok STRING pos (pos + nlen q) s, rest, pos + nlen q).
Proof. exact quote_lex_roundtrip_utf8. Qed.
Print Assumptions C08_string_roundtrip.

(* The token-boundary theorem for the printer's layouts (any layout, hence print_doc d for every
   document d): if every separator consists of spaces, newlines and commas, every name piece is a
   name and every number piece a number lexeme not followed by a character that would continue it,
   every string piece is valid UTF-8 (and "" is not followed by a quote), and
   punctuator pieces carry no value ([layout_wfb], a decidable condition), then lexing the printed
   text gives back exactly the token pieces -- kind, value, and the byte offsets at which they were
   written -- followed by the EOF token, and no name is flagged as preceded by a multi-byte character. *)
Theorem C08_lex_layout : forall L, layout_wfb L = true ->
  lex (flat L) = Ok (ptoks 0 L ++ [eof_tok (nlen (flat L))], false).
Proof. exact lex_flat_layout. Qed.
Print Assumptions C08_lex_layout.

(* The semantic form: any layout whose token pieces are each read back before what follows them. *)
Theorem C08_lex_layout_general : forall L w pos fuel, sep_ok w -> layout_ok L -> (length (w ++ flat L) < fuel)%nat ->
  lex_all fuel (w ++ flat L) pos = Ok (ptoks (pos + nlen w) L ++ [eof_tok (pos + nlen w + nlen (flat L))], false).
Proof. exact lex_layout. Qed.
Print Assumptions C08_lex_layout_general.

(* The whole chain print -> lex -> derive -> parse, proved for one recursive nonterminal: every
   well-formed type (names are names, no NonNull directly inside NonNull -- what the parser
   produces) is printed to a text whose tokens derive, and are parsed back to, a type equal to it
   up to locations. *)
Theorem C08_type_roundtrip : forall t, wf_ty t = true ->
  exists ts t', lex (print_type t) = Ok (ts ++ [eof_tok (nlen (print_type t))], false) /\
    DType ts t' /\ ty_eqv t t' /\
    forall fuel pe, (length ts < fuel)%nat ->
      parse_type fuel (pe, ts ++ [eof_tok (nlen (print_type t))]) = Ok (t', (endof pe ts, [eof_tok (nlen (print_type t))])).
Proof. exact type_roundtrip. Qed.
Print Assumptions C08_type_roundtrip.

(* The round-trip law for executable documents, on the models: if the source parses to the
   executable document d and every string / block-string token of the source has a value that is
   valid UTF-8 (src_strings_utf8 -- the restriction of C08_string_roundtrip),
   then the printed text parses again, to a document equal to d up to locations
   (erase_loc = the kind/field/value tree with every Loc zeroed). *)
Theorem C08_roundtrip_exec_partial : forall src d mb,
  parse src = Ok (d, mb) -> exec_only d = true -> src_strings_utf8 src = true ->
  exists d', parse (print_doc d) = Ok (d', false) /\ erase_loc d' = erase_loc d.
Proof.
  intros src d mb H E A. destruct (roundtrip_exec src d mb H E A) as (d' & H1 & H2 & _). exists d'. split; assumption.
Qed.
Print Assumptions C08_roundtrip_exec_partial.

(* Printing is stable after one round: the re-parsed document prints to the same text. *)
Theorem C08_stable_partial : forall src d mb,
  parse src = Ok (d, mb) -> exec_only d = true -> src_strings_utf8 src = true ->
  exists d', parse (print_doc d) = Ok (d', false) /\ print_doc d' = print_doc d.
Proof.
  intros src d mb H E A. destruct (roundtrip_exec src d mb H E A) as (d' & H1 & _ & H3). exists d'. split; assumption.
Qed.
Print Assumptions C08_stable_partial.

(* The same from token lists (any token list with well-formed lexemes, not only lexer output). *)
Theorem C08_roundtrip_tokens_partial : forall ts d, parse_tokens ts = Ok d -> exec_only d = true -> toks_wf ts ->
  exists d', parse (print_doc d) = Ok (d', false) /\ erase_loc d' = erase_loc d /\ print_doc d' = print_doc d.
Proof. exact roundtrip_exec_tokens. Qed.
Print Assumptions C08_roundtrip_tokens_partial.

(* Values (nested lists and objects included): print, lex, derive, parse back. *)
Theorem C08_value_roundtrip_partial : forall src ts mb fuel c v st', lex src = Ok (ts, mb) -> strings_ok_toks ts = true ->
  parse_value fuel c (0, ts) = Ok (v, st') ->
  exists ts' v', lex (print_value v) = Ok (ts' ++ [eof_tok (nlen (print_value v))], false) /\
    gnl (g_value v') = gnl (g_value v) /\
    forall fuel' pe, (length ts' < fuel')%nat ->
      parse_value fuel' c (pe, ts' ++ [eof_tok (nlen (print_value v))]) = Ok (v', (endof pe ts', [eof_tok (nlen (print_value v))])).
Proof. exact value_roundtrip_src. Qed.
Print Assumptions C08_value_roundtrip_partial.

(* ---- type-system definitions and descriptions ---- *)

(* Block strings: a description s that the printer writes as a block string
   (printableAsBlockString s) is given back by blockStringValue from the raw text between the
   triple quotes -- s itself, or LF s LF when s has several lines -- at every indentation depth d
   (the text passes through indent() once per enclosing block / argument list).  No UTF-8
   hypothesis: bytes below 128 are characters of their own in every byte string. *)
Theorem C08_block_string_roundtrip : forall s d, printable_as_block s = true ->
  block_string_value (N.iter d indent_bytes (block_raw s)) = s.
Proof. exact block_value_rt. Qed.
Print Assumptions C08_block_string_roundtrip.

(* ... and the lexer reads the printed block string as one BLOCK_STRING token with value s,
   whatever follows it (s not empty, printable as a block string, valid UTF-8). *)
Theorem C08_block_string_lexed : forall s d rest fuel pos, blk_okb s = true ->
  let r := render_piece (PBlk d s) in
  (length (r ++ rest) < fuel)%nat ->
  read_token fuel (r ++ rest) pos = Ok (mktok BLOCK_STRING pos (pos + nlen r) s, rest, pos + nlen r).
Proof. exact read_token_block. Qed.
Print Assumptions C08_block_string_lexed.

(* The layout of every parsed document whose string tokens are valid UTF-8 satisfies the
   hypothesis of C08_lex_layout (what the runner evaluates as a cross-check on every case). *)
Theorem C08_layout_wf : forall src d mb, parse src = Ok (d, mb) -> src_strings_utf8 src = true ->
  layout_wfb (lay_doc d) = true.
Proof.
  intros src d mb H A. destruct (parsed_tokens src d mb H A) as (ts & P & W).
  apply Proofs.SyntaxSound.parse_tokens_sound in P. apply (doc_rt_all ts d P W).
Qed.
Print Assumptions C08_layout_wf.

(* The round-trip law for every document the parser accepts, executable or type-system (schema,
   scalar, object with implements, interface, union, enum, input object, extend type, directive
   definitions; descriptions, default values and directives on all of them): if every string /
   block-string token of the source has a value that is valid UTF-8, the printed text parses
   again, to a document equal to d up to locations and empty descriptions (erase_loc_descr: the
   kind/field/value tree with every Loc zeroed and every empty description replaced by none --
   DESIGN.md Appendix A; on executable documents nothing is replaced, see C08_roundtrip_exec_partial).
   Partial: the UTF-8 hypothesis (a byte that utf8.DecodeRune would replace is printed as U+FFFD). *)
Theorem C08_roundtrip_partial : forall src d mb,
  parse src = Ok (d, mb) -> src_strings_utf8 src = true ->
  exists d', parse (print_doc d) = Ok (d', false) /\ erase_loc_descr d' = erase_loc_descr d.
Proof.
  intros src d mb H A. destruct (roundtrip_src src d mb H A) as (d' & H1 & H2 & _). exists d'. split; assumption.
Qed.
Print Assumptions C08_roundtrip_partial.

(* Printing is stable after one round, for every document: the re-parsed document prints to the same text. *)
Theorem C08_stable : forall src d mb,
  parse src = Ok (d, mb) -> src_strings_utf8 src = true ->
  exists d', parse (print_doc d) = Ok (d', false) /\ print_doc d' = print_doc d.
Proof.
  intros src d mb H A. destruct (roundtrip_src src d mb H A) as (d' & H1 & _ & H3). exists d'. split; assumption.
Qed.
Print Assumptions C08_stable.

(* The same from token lists of any document (any token list with well-formed lexemes). *)
Theorem C08_roundtrip_all_tokens_partial : forall ts d, parse_tokens ts = Ok d -> toks_wf ts ->
  exists d', parse (print_doc d) = Ok (d', false) /\ erase_loc_descr d' = erase_loc_descr d /\ print_doc d' = print_doc d.
Proof. exact roundtrip_tokens. Qed.
Print Assumptions C08_roundtrip_all_tokens_partial.

(* ---- Print does not modify the AST it is given ---- *)

(* printer.Print is visitor.Visit with leave functions that RETURN the text of the node
   (ActionUpdate, string).  In the model of Visit's edit application (Syntax/PrintVisit.v: the
   AST is a heap of structs; an edit whose value is an ast.Node is written into the original
   struct by updateNodeField, any other value goes into a map copy made by convertMap; slice
   frames work on the copy made by toSliceInterfaces), running Visit with functions that return
   strings -- whatever the strings are -- leaves the heap exactly as it was. *)
Theorem C08_no_edit : forall keys (text : N -> rval -> bytes) fuel h root h' r,
  visit keys (fun k v => Some (RStr (text k v))) fuel h root = Some (h', r) -> h' = h.
Proof.
  intros keys text fuel h root h' r H.
  apply (visit_no_edit keys (fun k v => Some (RStr (text k v)))
           ltac:(intros k v x E; inversion E; apply safe_str) fuel h root h' r H).
Qed.
Print Assumptions C08_no_edit.

(* More generally: no visit function returning a node (or nil) means no write to the AST;
   functions may also return nothing (ActionNoChange). *)
Theorem C08_no_edit_general : forall keys fn, safe_fn fn ->
  forall fuel h root h' r, visit keys fn fuel h root = Some (h', r) -> h' = h.
Proof. exact visit_no_edit. Qed.
Print Assumptions C08_no_edit_general.

(* ---- printing does not depend on locations; stability for ASTs that were not parsed ---- *)

(* The printer does not look at locations: two documents -- any two ASTs, parsed or built by
   hand -- with the same kind/field/value tree once every Loc is zeroed print to the same text. *)
Theorem C08_print_ignores_locations : forall d d', erase_loc d = erase_loc d' -> print_doc d = print_doc d'.
Proof. exact print_ignores_locations. Qed.
Print Assumptions C08_print_ignores_locations.

(* the comparison of the runner (kinds, atoms, children; locations ignored) decides equality of erased trees *)
Lemma gt_eqb_gnl : forall a b, gt_eqb false a b = true -> gnl a = gnl b.
Proof.
  fix IH 1. intros [t1 a1 s1 e1 k1] [t2 a2 s2 e2 k2] H. cbn [gt_eqb] in H.
  apply andb_true_iff in H. destruct H as [H Hk]. apply andb_true_iff in H. destruct H as [H _].
  apply andb_true_iff in H. destruct H as [Ht Ha]. apply N.eqb_eq in Ht. apply bytes_eqb_eq in Ha. subst.
  cbn [gnl]. f_equal. revert k2 Hk. induction k1 as [|x k1 IHk]; intros [|y k2] Hk; try discriminate Hk; [reflexivity|].
  apply andb_true_iff in Hk. destruct Hk as [Hx Hr]. cbn [map]. rewrite (IH x y Hx), (IHk k2 Hr). reflexivity.
Qed.

(* An AST survives one round when the text printed for it parses to an AST equal to it up to
   locations -- a decidable condition on any AST (no parse of a source is assumed). *)
Definition reparses (d : document) : bool :=
  match parse (print_doc d) with
  | Ok (d', _) => gt_eqb false (g_doc d') (g_doc d)
  | _ => false
  end.

(* Stability for every AST, parsed or not: if d survives one round (reparses d), the document read
   back from its text prints to the same text -- the second print of print, parse, print equals the first. *)
Theorem C08_stable_any : forall d, reparses d = true ->
  exists d' mb, parse (print_doc d) = Ok (d', mb) /\ erase_loc d' = erase_loc d /\ print_doc d' = print_doc d.
Proof.
  intros d H. unfold reparses in H. destruct (parse (print_doc d)) as [[d' mb]| |] eqn:P; try discriminate H.
  apply gt_eqb_gnl in H. exists d', mb. split; [reflexivity|]. split; [exact H|]. apply print_ignores_locations. exact H.
Qed.
Print Assumptions C08_stable_any.

(* And every AST equal up to locations to a parsed document (one built by hand with other Locs,
   a relocated or copied one) is covered by the round-trip law of that document. *)
Theorem C08_stable_relocated_partial : forall src d0 mb d,
  parse src = Ok (d0, mb) -> src_strings_utf8 src = true -> erase_loc d = erase_loc d0 ->
  exists d', parse (print_doc d) = Ok (d', false) /\ erase_loc_descr d' = erase_loc_descr d0 /\ print_doc d' = print_doc d.
Proof.
  intros src d0 mb d H A E. rewrite (print_ignores_locations d d0 E). apply (roundtrip_src src d0 mb H A).
Qed.
Print Assumptions C08_stable_relocated_partial.

(* ---- strings that are not valid UTF-8 ---- *)

(* Before fixes/C08-invalid-utf8-bytes.patch quoteString wrote U+FFFD for every byte that does not
   decode (quote_string_fffd); the lexer accepts such bytes inside a string and stores them as they
   stand, so the law was false on documents the parser accepts: the string FF is printed as a text
   that is lexed to a different string.  (Witness replayed on the implementation: the source
   { a(x: "<FF>") } parsed, printed "\uFFFD"-wise and came back with the value EF BF BD; corpus of harness/c08.go.) *)
Theorem C08_roundtrip_refuted_invalid_utf8 : exists s q v,
  quote_string_fffd s = Ok q /\ lex q = Ok ([mktok STRING 0 (nlen q) v; mktok EOF (nlen q) (nlen q) []], false) /\ v <> s.
Proof. exists [255], [34; 239; 191; 189; 34], [239; 191; 189]. split; [vm_compute; reflexivity|]. split; [vm_compute; reflexivity|discriminate]. Qed.
Print Assumptions C08_roundtrip_refuted_invalid_utf8.

(* non-vacuity: a source that satisfies the hypotheses *)
Example C08_roundtrip_nonvacuous :
  let src := of_string "query Q($a: [Int!] = [1, -2.5e3]) @d(x: ""s\n"") { a: b(x: {k: $a}) ... on T { c } ...F }" in
  match parse src with Ok (d, _) => exec_only d && src_strings_utf8 src | _ => false end = true.
Proof. vm_compute. reflexivity. Qed.

(* non-vacuity of C08_lex_layout: the layout of a parsed executable document is well-formed *)
Example C08_layout_nonvacuous :
  match parse (of_string "query Q($a: [Int!] = [1, -2.5e3]) @d(x: ""s"") { a: b(x: {k: $a}) ... on T { c } ...F }") with
  | Ok (d, _) => layout_wfb (lay_doc d)
  | _ => false
  end = true.
Proof. vm_compute. reflexivity. Qed.

(* non-vacuity: the bytes BEL, double quote, backslash, DEL, LF, a and their printed form *)
Example C08_nonvacuous :
  quote_string [7; 34; 92; 127; 10; 97] =
  Ok [34; 92; 117; 48; 48; 48; 55; 92; 34; 92; 92; 92; 117; 48; 48; 55; 70; 92; 110; 97; 34].
Proof. vm_compute. reflexivity. Qed.

(* non-vacuity of C08_roundtrip_partial / C08_stable on a type-system document with descriptions
   of every printed form (block, multi-line block inside a block, quoted, empty) *)
Example C08_roundtrip_sdl_nonvacuous :
  let src := of_string """d\ne"" type T implements A & B @x { ""f"" a(""q\nr"" x: Int = 1 @y, z: S): Int @d b: Int } ""ends\"""" enum E { """" A B } extend type U {} directive @d(a: Int) on A | B union U = A | B schema { query: Q }" in
  match parse src with Ok (d, _) => negb (exec_only d) && src_strings_utf8 src && layout_wfb (lay_doc d) | _ => false end = true.
Proof. vm_compute. reflexivity. Qed.

(* non-vacuity of C08_block_string_roundtrip: a three-line description, printed inside a block; a
   description whose later lines are all indented is not printable as a block string *)
Example C08_block_nonvacuous :
  printable_as_block [97; 10; 32; 98; 10; 99] = true /\
  N.iter 1 indent_bytes (block_raw [97; 10; 32; 98; 10; 99]) = [10; 32; 32; 97; 10; 32; 32; 32; 98; 10; 32; 32; 99; 10; 32; 32] /\
  printable_as_block [97; 10; 32; 98] = false.
Proof. repeat split; vm_compute; reflexivity. Qed.

(* the visitor model does write to the AST when a visit function returns a node (so C08_no_edit is
   not true for trivial reasons): Proofs/SyntaxNoEdit.v, visit_can_edit *)
Example C08_no_edit_nonvacuous :
  exists h', visit ex_keys ex_fn_node 3 ex_heap 1 = Some (h', Some (RNode 1)) /\ h' <> ex_heap.
Proof. exact visit_can_edit. Qed.

(* non-vacuity of C08_stable_any: a document built by hand (never parsed; all Locs zero) -- a type with
   a described field, an enum, and a query with a variable, a directive and an inline fragment *)
Definition z : loc := mkloc 0 0.
Definition nm0 (s : string) : name := mkname (of_string s) z.
Definition hand_doc : document :=
  mkdoc [ DObject (mkobjdef (Some (of_string "a type", z)) (nm0 "T") [mknamed (nm0 "I") z] []
                     [mkfielddef (Some ([97; 10; 98], z)) (nm0 "f") [mkivdef None (nm0 "x") (TNonNull (TNamed (mknamed (nm0 "Int") z)) z) (Some (VInt [49] z)) [] z]
                                 (TList (TNamed (mknamed (nm0 "T") z)) z) [mkdir (nm0 "d") [] z] z] z);
          DEnum None (nm0 "E") [] [mkenumvaldef None (nm0 "A") [] z] z;
          DOp (mkopdef Query (Some (nm0 "Q")) [mkvardef (nm0 "v") z (TNamed (mknamed (nm0 "S") z)) (Some (VStr [34; 255] z)) z]
                 [mkdir (nm0 "live") [mkarg (nm0 "ttl") (VFloat (of_string "1.5e3") z) z] z]
                 (SelSet [SInline (Some (mknamed (nm0 "T") z)) [] (SelSet [SField (Some (nm0 "k")) (nm0 "f") [] [] None z] z) z] z) z) ] z.
Example C08_stable_any_nonvacuous : reparses hand_doc = true.
Proof. vm_compute. reflexivity. Qed.

(* with the repaired quoting the former counterexample survives the round trip on the model *)
Example C08_invalid_utf8_survives :
  match parse [123; 97; 40; 120; 58; 34; 255; 34; 41; 125] with
  | Ok (d, _) => reparses d
  | _ => false
  end = true.
Proof. vm_compute. reflexivity. Qed.

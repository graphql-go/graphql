(* Property C13 -- top-level mutation fields execute serially in document order.
   The statements, each derived from the general results of Proofs/ExecInv.v, Proofs/ExecSerial.v,
   Proofs/ExecObserve.v and Proofs/CollectProofs.v.
   The executor model (Exec/Exec.v) defers thunk outcomes at nullable positions and forces them in a
   dethunk pass, as plan.go does; for a mutation each top-level field is forced completely before
   the next one starts (fix 8600d4d).  st_calls is the list of resolver invocations in execution
   order, including those made while deferred values are forced. *)
From Coq Require Import List String Bool NArith.
From GQL Require Import Exec.Syntax Exec.Coerce Exec.Exec Exec.Request Run.ExecRun
     Proofs.ExecInv Proofs.ExecSerial Proofs.ExecObserve.
From GQL Require Proofs.CollectProofs.
Import ListNotations.
Open Scope string_scope.
Open Scope list_scope.

(* For every schema, document, variables, resolver outcomes (values, errors, panics, thunks at any
   level) and fuel: in a mutation, the resolver invocations never return to an earlier top-level
   field -- everything of field i (its resolver, its sub-selection's resolvers, what it deferred)
   precedes everything of field j > i.  serial_ok is the predicate the runner evaluates on the
   implementation's own event log. *)
Theorem C13_serial : forall fuel S D opn inputs root or tor data s,
  is_mutation D opn = true ->
  request fuel S D opn inputs root or tor = RDone data s ->
  serial_ok (root_keys fuel S D opn inputs) (map c_path (st_calls s)) = true.
Proof.
  intros fuel S D opn inputs root or tor data s Hm H.
  unfold request in H. unfold root_keys. unfold is_mutation in Hm.
  destruct (get_operation D opn) as [op|]; [|discriminate].
  destruct (o_kind op) eqn:Ek; try discriminate.
  unfold root_type in *. rewrite Ek in *.
  destruct (s_mutation S) as [rt|]; [|discriminate].
  destruct (get_variable_values fuel S (o_vars op) inputs) as [[vars|e]|]; try discriminate.
  destruct (collect fuel S D vars rt (o_sel op) [] []) as [[g v]|] eqn:Ec; [|discriminate].
  set (E := {| en_S := S; en_D := D; en_vars := vars; en_or := or; en_tor := tor; en_serial := true |}) in *.
  pose proof (groups_calls_serial fuel E rt root g (CollectProofs.collect_keys_nodup _ _ _ _ _ _ _ _ _ _ Ec (NoDup_nil _))) as Hser.
  destruct (exec_groups fuel E rt root g [] st0) as [fs s1|e s1|] eqn:Eg; try discriminate.
  - (* nothing is deferred, so the dethunk pass that follows runs no resolver *)
    assert (Hq : thunks (QObj fs) = [])
      by (apply thunks_fields_nil, (groups_serial_nothunks fuel E rt root g st0 fs s1 eq_refl Eg)).
    pose proof (dethunk_nothunk_calls fuel E (QObj fs) s1 Hq) as Hd.
    destruct (dethunk fuel E (QObj fs) s1) as [q s2|e s2|]; try discriminate; [|destruct Hd].
    injection H as _ <-. rewrite Hd. exact Hser.
  - injection H as _ <-. exact Hser.
Qed.
Print Assumptions C13_serial.

(* At every level, for queries too: the invocations made for a selection set at path p are
   segmented by response key in collection order. *)
Theorem C13_segmented : forall fuel E obj src g p s,
  match exec_groups fuel E obj src g p s with
  | XOk _ s' | XRaise _ s' =>
    exists cs, st_calls s' = st_calls s ++ cs /\ Seg p (map fst g) (map c_path cs)
  | XFuel => True
  end.
Proof. exact groups_seg. Qed.
Print Assumptions C13_segmented.

(* Forcing deferred values never raises and leaves nothing deferred. *)
Theorem C13_dethunk_total : forall fuel E q s p, thunks_ok p q ->
  match dethunk fuel E q s with
  | XOk q' s' => ext p s s' /\ thunks q' = []
  | XRaise _ _ => False
  | XFuel => True
  end.
Proof. intros fuel E q s p H. exact (proj2 (proj2 (proj2 (exec_inv fuel))) E q s p H). Qed.
Print Assumptions C13_dethunk_total.

(* ---- non-vacuity: a mutation with two top-level fields whose first field defers a value that
        resolves a nested field when forced ---- *)
Definition S13 : schema := {|
  s_types := [("String", TScalar SString);
              ("O", TObject [{| f_name := "x"; f_args := []; f_type := TNamed "String" |}] []);
              ("Q", TObject [] []);
              ("M", TObject [{| f_name := "a"; f_args := []; f_type := TNamed "O" |};
                             {| f_name := "b"; f_args := []; f_type := TNamed "String" |}] [])];
  s_query := "Q"; s_mutation := Some "M" |}.
Definition D13 : document := {|
  d_ops := [{| o_kind := OpMutation; o_name := None; o_vars := [];
               o_sel := [SField 11%N None "a" [] [] [SField 15%N None "x" [] [] []]; SField 21%N None "b" [] [] []] |}];
  d_frags := [] |}.
Definition or13 : oracle := fun p =>
  match p with
  | [PKey "a"] => Some (OThunk (OVal (RObj 1%N "O")))
  | [PKey "a"; PKey "x"] => Some (OVal (RStr "x"))
  | [PKey "b"] => Some (OVal (RStr "b"))
  | _ => None
  end.

Example C13_nonvacuous :
  match request 20 S13 D13 None [] (RObj 0%N "root") or13 (fun _ => None) with
  | RDone (Some d) s =>
    map c_path (st_calls s) = [[PKey "a"]; [PKey "a"; PKey "x"]; [PKey "b"]] /\
    d = PObj [("a", PObj [("x", PLeaf (JStr "x"))]); ("b", PLeaf (JStr "b"))]
  | _ => False
  end.
Proof. vm_compute. split; reflexivity. Qed.

(* "each field observes all side effects of its predecessors and none of its successors": at the
   moment any invocation c belonging to top-level field j runs (the log splits as pre ++ c :: post),
   every invocation that already ran belongs to a field at or before j and every invocation still to
   come belongs to a field at or after j. *)
Theorem C13_observes : forall fuel S D opn inputs root or tor data s pre c post j,
  is_mutation D opn = true ->
  request fuel S D opn inputs root or tor = RDone data s ->
  st_calls s = pre ++ c :: post ->
  top_index (root_keys fuel S D opn inputs) (c_path c) = Some j ->
  Forall (fun q => exists i, top_index (root_keys fuel S D opn inputs) (c_path q) = Some i /\ (i <= j)%N) pre /\
  Forall (fun q => exists i, top_index (root_keys fuel S D opn inputs) (c_path q) = Some i /\ (j <= i)%N) post.
Proof.
  intros fuel S D opn inputs root or tor data s pre c post j Hm H Hs. apply serial_observes.
  rewrite <- Hs. exact (C13_serial _ _ _ _ _ _ _ _ _ _ Hm H).
Qed.
Print Assumptions C13_observes.

(* every invocation made for a mutation belongs to one of its top-level fields *)
Theorem C13_calls_indexed : forall fuel S D opn inputs root or tor data s,
  is_mutation D opn = true ->
  request fuel S D opn inputs root or tor = RDone data s ->
  Forall (fun c => exists i, top_index (root_keys fuel S D opn inputs) (c_path c) = Some i) (st_calls s).
Proof.
  intros fuel S D opn inputs root or tor data s Hm H.
  exact (serial_indexed _ _ (C13_serial _ _ _ _ _ _ _ _ _ _ Hm H)).
Qed.
Print Assumptions C13_calls_indexed.

(* the invocations observed by c (those before it) contain all the work of every earlier top-level
   field and nothing of a later one *)
Theorem C13_observed_effects : forall fuel S D opn inputs root or tor data s pre c post j,
  is_mutation D opn = true ->
  request fuel S D opn inputs root or tor = RDone data s ->
  st_calls s = pre ++ c :: post ->
  top_index (root_keys fuel S D opn inputs) (c_path c) = Some j ->
  let keys := root_keys fuel S D opn inputs in
  filter (of_field keys (fun i => (i <? j)%N)) (st_calls s) = filter (of_field keys (fun i => (i <? j)%N)) pre /\
  filter (of_field keys (fun i => (j <? i)%N)) pre = [].
Proof.
  intros fuel S D opn inputs root or tor data s pre c post j Hm H Hs Hj keys. rewrite Hs.
  apply serial_observed_effects; [|exact Hj]. rewrite <- Hs. exact (C13_serial _ _ _ _ _ _ _ _ _ _ Hm H).
Qed.
Print Assumptions C13_observed_effects.

(* non-vacuity of C13_observes on the example above: the invocation of b (field 1) observes both
   invocations of field 0, including the nested one made when the deferred value of a was forced *)
Example C13_observes_nonvacuous :
  match request 20 S13 D13 None [] (RObj 0%N "root") or13 (fun _ => None) with
  | RDone _ s =>
    exists c0 c1 c2, st_calls s = [c0; c1] ++ c2 :: [] /\
      top_index (root_keys 20 S13 D13 None []) (c_path c2) = Some 1%N /\
      is_mutation D13 None = true
  | _ => False
  end.
Proof. vm_compute. do 3 eexists. repeat split. Qed.

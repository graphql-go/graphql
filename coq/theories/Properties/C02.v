(* Property C02 -- validation accepts exactly the documents that satisfy every rule.
   Statements only; proofs are in the Proofs/Validate*.v files imported below. *)
From Coq Require Import List NArith ZArith String Bool.
From GQL Require Import Exec.Syntax Validate.VSyntax Validate.Overlap Validate.OverlapSpec Validate.Rules
     Exec.Exec Proofs.ValidateOverlap Proofs.ValidateRules Proofs.ValidateMerge Proofs.ValidateRun Proofs.ValidateInputFields Proofs.ValidateCycles Proofs.ValidateUnused Proofs.ValidateMemoHard Proofs.ValidateL1 Validate.All Proofs.ValidateAll
     Validate.OverlapWf Proofs.ValidateReflect Proofs.ValidateFuel
     Proofs.ValidateWf Proofs.ValidateRank Proofs.ValidateWfDoc Proofs.ValidateClosure Proofs.ValidateRulesDecl Proofs.ValidateLiteral Proofs.ValidateWitness Proofs.ValidateOffending Proofs.ValidateTermination Proofs.ValidateLocated.
Import ListNotations.
Open Scope string_scope.

(* The overlap rule.  For every schema and every document whose fragments do not reach
   themselves: all checks of the A-J decomposition (fields within a set, fields against a
   spread fragment, fragment against fragment, between the sub-selections of two fields;
   with the exclusivity flag, parent types, argument equality and return-type conflicts)
   pass on every selection set of the document  <->  every two fields reachable from one
   selection set through any chain of inline fragments and fragment spreads that share a
   response key are compatible, recursively (the brute-force layer L1). *)
Theorem C02_overlap_decomposition : forall S D,
  acyclic S D -> (L2_accepts S D <-> L1_accepts S D).
Proof. exact overlap_decomposition. Qed.
Print Assumptions C02_overlap_decomposition.

(* The same for any symmetric, flag-monotone test on two fields and any family of
   selection sets containing the fragment bodies. *)
Theorem C02_overlap_decomposition_generic : forall S D base,
  (forall ex a b, base ex a b = base ex b a) ->
  (forall a b, base false a b = true -> base true a b = true) ->
  forall sets : fset -> Prop, (forall g b, fbody S D g = Some b -> sets b) ->
  acyclic S D ->
  ((forall s, sets s -> within S D base s) <-> (forall s, sets s -> L1 S D base s)).
Proof. exact decomposition_iff. Qed.
Print Assumptions C02_overlap_decomposition_generic.

(* Memo transparency, one direction (named _partial for that reason; the other direction is
   C02_overlap_memo_transparent, both together with the reflection C02_overlap_exec_decides).
   On a document on which every check of the decomposition passes, the executable algorithm
   reports no conflict -- with the memo tables comparedSet / comparedFieldsAndFragmentSet
   (L3, memo = true) and without them (memo = false), for every fuel: the memo tables never
   make the rule reject. *)
Theorem C02_overlap_memo_transparent_partial : forall S D memo fuel,
  L2_accepts S D -> run_overlap S D memo fuel = [].
Proof. exact L2_accepts_exec. Qed.
Print Assumptions C02_overlap_memo_transparent_partial.

(* Memo transparency, the hard direction: the memo tables never hide a conflict.  For every
   document (cyclic or not) whose selection sets are told apart by (parent type, id of the
   first selection) -- the implementation tells them apart by pointer -- and whose fields have
   unique argument names (otherwise sameArguments is not symmetric while the pair memo is):
   if the memoised algorithm (L3) completes within its fuel and reports nothing, then the
   unmemoised algorithm (L2 as coded) reports nothing at any fuel.  With
   C02_overlap_memo_transparent_partial (L2 accepts => L3 accepts): L3 and L2 agree on
   accept/reject.  Proof: the memoised run is a depth-first search with a visited set; at
   its end every memo entry is locally correct w.r.t. the final tables and everything it
   would recurse into is covered, and the unmemoised run only asks covered questions
   (DS, ids_distinct, args_unique are defined in Proofs/ValidateMemoHard.v). *)
Theorem C02_overlap_memo_transparent : forall S D fuel fuel',
  ids_distinct S D -> args_unique S D ->
  run_complete S D true fuel = true ->
  run_overlap S D true fuel = [] ->
  run_overlap S D false fuel' = [].
Proof. exact memo_transparent. Qed.
Print Assumptions C02_overlap_memo_transparent.

(* Hence the model of the rule never rejects a document that satisfies the specification L1. *)
Theorem C02_overlap_accepts_valid : forall S D memo fuel,
  acyclic S D -> L1_accepts S D -> run_overlap S D memo fuel = [].
Proof. exact L1_accepts_exec. Qed.
Print Assumptions C02_overlap_accepts_valid.

(* The two-field test as coded (sameArguments looks arguments of the first field up in the
   second) equals the symmetric closure used above whenever both fields have unique argument
   names, i.e. on every document that passes UniqueArgumentNames. *)
Theorem C02_same_arguments_symmetric : forall S ex a b,
  NoDup (map fst (fe_args a)) -> NoDup (map fst (fe_args b)) ->
  base_ok S ex a b = base2 S ex a b.
Proof. exact base_ok_is_base2. Qed.
Print Assumptions C02_same_arguments_symmetric.

(* L0, merge safety, one level (partial: the recursion into the merged sub-selections of a
   group is not stated).  If a selection set passes L1 and its parent type matches the
   object type, then everything the executor's CollectFields (Exec.collect: any variables,
   any visited set, any fuel) groups under one response key for that object type has one
   field name and equal arguments -- what plan.go relies on when it merges field ASTs. *)
Theorem C02_merge_safe_partial : forall S D,
  NoDup (map fr_name (d_frags D)) ->
  forall (s : fset) obj fuel vars visited g v,
  L1 S D (base2 S) s ->
  pt_ok S obj (fst s) ->
  collect fuel S D vars obj (snd s) visited [] = Some (g, v) ->
  forall k os o1 o2, In (k, os) g -> In o1 os -> In o2 os ->
    oc_name o1 = oc_name o2 /\ same_args (oc_args o1) (oc_args o2) = true.
Proof. exact merge_safe_level. Qed.
Print Assumptions C02_merge_safe_partial.

(* The executable Spec oracle of the runner.  L1o is the brute-force check as a three-valued
   function (None = it ran out of fuel); whenever it returns a verdict, the verdict is the
   truth value of the Spec L1_accepts -- for every schema, document (cyclic or not) and fuel. *)
Theorem C02_L1_oracle_reflects : forall S D fuel,
  (L1o S D fuel = Some true -> L1_accepts S D) /\
  (L1o S D fuel = Some false -> ~ L1_accepts S D).
Proof. exact L1o_reflect. Qed.
Print Assumptions C02_L1_oracle_reflects.

(* L0, merge safety, recursively (MS, group_entries, sub_entries are defined in
   Proofs/ValidateMerge.v).  For a selection set that passes L1 and every depth n: whatever
   CollectFields groups under one response key for an object type has one field name and
   equal arguments, and the same holds again for the merged sub-selections of every group,
   collected for any object type obj' (the sets given to CollectFields there may be any
   sets whose expanded fields are sub-selection fields of the group's entries and whose
   parent type matches obj' -- in a valid schema the runtime type of a field matches the
   static type of the field on every parent the entries were written under). *)
Theorem C02_merge_safe : forall S D,
  NoDup (map fr_name (d_frags D)) ->
  forall n (s : fset) obj, L1 S D (base2 S) s -> MS S D n (EF S D s) obj.
Proof. exact merge_safe_set. Qed.
Print Assumptions C02_merge_safe.

(* Simple rules: the rule's model reports an error exactly when the rule is violated. *)
Theorem C02_rule_iff_unique_operation_names : forall W,
  rule_unique_operation_names W <> [] <-> Violates_unique_operation_names W.
Proof. exact unique_operation_names_iff. Qed.
Print Assumptions C02_rule_iff_unique_operation_names.

Theorem C02_rule_iff_unique_fragment_names : forall W,
  rule_unique_fragment_names W <> [] <-> Violates_unique_fragment_names W.
Proof. exact unique_fragment_names_iff. Qed.
Print Assumptions C02_rule_iff_unique_fragment_names.

Theorem C02_rule_iff_unique_variable_names : forall W,
  rule_unique_variable_names W <> [] <-> Violates_unique_variable_names W.
Proof. exact unique_variable_names_iff. Qed.
Print Assumptions C02_rule_iff_unique_variable_names.

Theorem C02_rule_iff_unique_argument_names : forall S W,
  rule_unique_argument_names S W <> [] <-> Violates_unique_argument_names S W.
Proof. exact unique_argument_names_iff. Qed.
Print Assumptions C02_rule_iff_unique_argument_names.

Theorem C02_rule_iff_lone_anonymous_operation : forall W,
  rule_lone_anonymous W <> [] <-> Violates_lone_anonymous W.
Proof. exact lone_anonymous_iff. Qed.
Print Assumptions C02_rule_iff_lone_anonymous_operation.

Theorem C02_rule_located_lone_anonymous_operation : forall W x,
  In x (rule_lone_anonymous W) -> exists o, In o (w_ops W) /\ wo_name o = None /\ wo_id o = x.
Proof. exact lone_anonymous_located. Qed.
Print Assumptions C02_rule_located_lone_anonymous_operation.

Theorem C02_rule_iff_known_fragment_names : forall S W,
  rule_known_fragment_names S W <> [] <-> Violates_known_fragment_names S W.
Proof. exact known_fragment_names_iff. Qed.
Print Assumptions C02_rule_iff_known_fragment_names.

Theorem C02_rule_located_known_fragment_names : forall S W x,
  In x (rule_known_fragment_names S W) ->
  exists pt id g, In (ISpread pt id x g) (doc_items S W) /\ ~ In g (map wf_name (w_frags W)).
Proof. exact known_fragment_names_located. Qed.
Print Assumptions C02_rule_located_known_fragment_names.

Theorem C02_rule_iff_scalar_leafs : forall S W,
  rule_scalar_leafs S W <> [] <-> Violates_scalar_leafs S W.
Proof. exact scalar_leafs_iff. Qed.
Print Assumptions C02_rule_iff_scalar_leafs.

Theorem C02_rule_iff_fields_on_correct_type : forall S W,
  rule_fields_on_correct_type S W <> [] <-> Violates_fields_on_correct_type S W.
Proof. exact fields_on_correct_type_iff. Qed.
Print Assumptions C02_rule_iff_fields_on_correct_type.

Theorem C02_rule_located_fields_on_correct_type : forall S W x,
  In x (rule_fields_on_correct_type S W) ->
  exists t nm args ssid hs, In (IField (Some t) None x nm args ssid hs) (doc_items S W).
Proof. exact fields_on_correct_type_located. Qed.
Print Assumptions C02_rule_located_fields_on_correct_type.

Theorem C02_rule_iff_known_directives : forall S W,
  rule_known_directives S W <> [] <-> Violates_known_directives S W.
Proof. exact known_directives_iff. Qed.
Print Assumptions C02_rule_iff_known_directives.

Theorem C02_rule_iff_known_argument_names : forall S W,
  rule_known_argument_names S W <> [] <-> Violates_known_argument_names S W.
Proof. exact known_argument_names_iff. Qed.
Print Assumptions C02_rule_iff_known_argument_names.

Theorem C02_rule_iff_provided_non_null_arguments : forall S W,
  rule_provided_non_null_arguments S W <> [] <-> Violates_provided_non_null_arguments S W.
Proof. exact provided_non_null_arguments_iff. Qed.
Print Assumptions C02_rule_iff_provided_non_null_arguments.

Theorem C02_rule_iff_no_undefined_variables : forall S W,
  rule_no_undefined_variables S W <> [] <-> Violates_no_undefined_variables S W.
Proof. exact no_undefined_variables_iff. Qed.
Print Assumptions C02_rule_iff_no_undefined_variables.

Theorem C02_rule_iff_no_unused_variables : forall S W,
  rule_no_unused_variables S W <> [] <-> Violates_no_unused_variables S W.
Proof. exact no_unused_variables_iff. Qed.
Print Assumptions C02_rule_iff_no_unused_variables.

Theorem C02_rule_iff_variables_are_input_types : forall S W,
  rule_variables_are_input_types S W <> [] <-> Violates_variables_are_input_types S W.
Proof. exact variables_are_input_types_iff. Qed.
Print Assumptions C02_rule_iff_variables_are_input_types.

Theorem C02_rule_iff_possible_fragment_spreads : forall S W,
  rule_possible_fragment_spreads S W <> [] <-> Violates_possible_fragment_spreads S W.
Proof. exact possible_fragment_spreads_iff. Qed.
Print Assumptions C02_rule_iff_possible_fragment_spreads.

Theorem C02_rule_iff_arguments_of_correct_type : forall S W,
  rule_arguments_of_correct_type S W <> [] <-> Violates_arguments_of_correct_type S W.
Proof. exact arguments_of_correct_type_iff. Qed.
Print Assumptions C02_rule_iff_arguments_of_correct_type.

Theorem C02_rule_located_arguments_of_correct_type : forall S W x,
  In x (rule_arguments_of_correct_type S W) ->
  exists ow ad a, In (IArg ow (Some ad) a) (doc_items S W) /\ vlit S (wa_val a) (a_type ad) = false /\
                  wv_id (wa_val a) = x.
Proof. exact arguments_of_correct_type_located. Qed.
Print Assumptions C02_rule_located_arguments_of_correct_type.

Theorem C02_rule_iff_default_values_of_correct_type : forall S W,
  rule_default_values_of_correct_type S W <> [] <-> Violates_default_values_of_correct_type S W.
Proof. exact default_values_of_correct_type_iff. Qed.
Print Assumptions C02_rule_iff_default_values_of_correct_type.

Theorem C02_rule_iff_variables_in_allowed_position : forall S W,
  rule_variables_in_allowed_position S W <> [] <-> Violates_variables_in_allowed_position S W.
Proof. exact variables_in_allowed_position_iff. Qed.
Print Assumptions C02_rule_iff_variables_in_allowed_position.

Theorem C02_rule_iff_fragments_on_composite_types : forall S W,
  rule_fragments_on_composite S W <> [] <-> Violates_fragments_on_composite S W.
Proof. exact fragments_on_composite_iff. Qed.
Print Assumptions C02_rule_iff_fragments_on_composite_types.

Theorem C02_rule_iff_known_type_names : forall S W,
  rule_known_type_names S W <> [] <-> Violates_known_type_names S W.
Proof. exact known_type_names_iff. Qed.
Print Assumptions C02_rule_iff_known_type_names.

Theorem C02_rule_iff_unique_input_field_names : forall S W,
  rule_unique_input_field_names S W <> [] <-> Violates_unique_input_field_names S W.
Proof. exact unique_input_field_names_iff. Qed.
Print Assumptions C02_rule_iff_unique_input_field_names.

(* NoFragmentCycles, one direction (partial): the DFS as coded (visitedFrags, spreadPath,
   spreadPathIndexByName) reports an error only if some fragment reaches itself through
   spreads -- for every document, fragment names unique or not.  That every cycle is reported
   needs unique fragment names: C02_rule_iff_no_fragment_cycles. *)
Theorem C02_rule_sound_no_fragment_cycles_partial : forall W,
  rule_no_fragment_cycles W <> [] -> Violates_no_fragment_cycles W.
Proof. exact no_fragment_cycles_sound. Qed.
Print Assumptions C02_rule_sound_no_fragment_cycles_partial.

(* NoFragmentCycles, both directions: with unique fragment names the DFS as coded reports an
   error exactly when some fragment reaches itself through spreads. *)
Theorem C02_rule_iff_no_fragment_cycles : forall W,
  NoDup (map wf_name (w_frags W)) ->
  (rule_no_fragment_cycles W <> [] <-> Violates_no_fragment_cycles W).
Proof. exact no_fragment_cycles_iff. Qed.
Print Assumptions C02_rule_iff_no_fragment_cycles.

(* NoUnusedFragments, both directions: a fragment definition is reported exactly when no
   operation reaches it through spreads.  The closure iteration of the model of
   RecursivelyReferencedFragments (|fragments| + 1 rounds) never falls short
   (C02_closure_reaches_fixpoint: every unstable round was preceded by the first appearance of
   a defined fragment name). *)
Theorem C02_closure_reaches_fixpoint : forall W, closures_stable W = true.
Proof. exact closures_stable_always. Qed.
Print Assumptions C02_closure_reaches_fixpoint.

Theorem C02_rule_iff_no_unused_fragments : forall W,
  rule_no_unused_fragments W <> [] <-> Violates_no_unused_fragments W.
Proof. exact no_unused_fragments_iff. Qed.
Print Assumptions C02_rule_iff_no_unused_fragments.

(* ---- relational specifications of the helpers the simple rules share ---- *)

(* RecursiveVariableUsages: the model's usages of an operation are exactly the usages that
   occur in the operation or in a fragment reachable from it through spreads (inductive
   Reach; UsedIn is defined in Proofs/ValidateRulesDecl.v). *)
Theorem C02_recursive_variable_usages : forall S W o u, In u (rec_uses S W o) <-> UsedIn S W o u.
Proof. exact rec_uses_iff. Qed.
Print Assumptions C02_recursive_variable_usages.

Theorem C02_rule_iff_no_undefined_variables_decl : forall S W,
  rule_no_undefined_variables S W <> [] <-> Violates_no_undefined_variables_decl S W.
Proof. exact no_undefined_variables_decl_iff. Qed.
Print Assumptions C02_rule_iff_no_undefined_variables_decl.

Theorem C02_rule_iff_no_unused_variables_decl : forall S W,
  rule_no_unused_variables S W <> [] <-> Violates_no_unused_variables_decl S W.
Proof. exact no_unused_variables_decl_iff. Qed.
Print Assumptions C02_rule_iff_no_unused_variables_decl.

(* isTypeSubTypeOf is the inductive subtype relation (equal names; object possible for an
   abstract type; non-null covariant; non-null below nullable; lists covariant). *)
Theorem C02_subtype_iff : forall S a b, subtype S a b = true <-> Subtype S a b.
Proof. exact subtype_iff. Qed.
Print Assumptions C02_subtype_iff.

(* VariablesInAllowedPosition: a variable is used where its declared type -- made non-null
   when it has a default value -- is not a subtype of the expected type. *)
Theorem C02_rule_iff_variables_in_allowed_position_decl : forall S W,
  rule_variables_in_allowed_position S W <> [] <-> Violates_variables_in_allowed_position_decl S W.
Proof. exact variables_in_allowed_position_decl_iff. Qed.
Print Assumptions C02_rule_iff_variables_in_allowed_position_decl.

(* doTypesOverlap: two types overlap iff they are equal or share a possible object type. *)
Theorem C02_types_overlap_iff : forall S t1 t2, types_overlap S t1 t2 = true <-> Overlaps S t1 t2.
Proof. exact types_overlap_iff. Qed.
Print Assumptions C02_types_overlap_iff.

Theorem C02_rule_iff_possible_fragment_spreads_decl : forall S W,
  rule_possible_fragment_spreads S W <> [] <-> Violates_possible_fragment_spreads_decl S W.
Proof. exact possible_fragment_spreads_decl_iff. Qed.
Print Assumptions C02_rule_iff_possible_fragment_spreads_decl.

(* isValidLiteralValue is the inductive relation ValidLit (Proofs/ValidateLiteral.v): variables
   anywhere; non-null = the inner type; a list literal elementwise, any other literal as a
   single item; an input object: every provided field defined, the last value given for a
   field valid for it, every field not given nullable; scalars by their parse function; enum
   values by name; anything for other named types. *)
Theorem C02_valid_literal_iff : forall S v t, vlit S v t = true <-> ValidLit S v t.
Proof. exact vlit_iff. Qed.
Print Assumptions C02_valid_literal_iff.

Theorem C02_rule_iff_arguments_of_correct_type_decl : forall S W,
  rule_arguments_of_correct_type S W <> [] <-> Violates_arguments_of_correct_type_decl S W.
Proof. exact arguments_of_correct_type_decl_iff. Qed.
Print Assumptions C02_rule_iff_arguments_of_correct_type_decl.

Theorem C02_rule_iff_default_values_of_correct_type_decl : forall S W,
  rule_default_values_of_correct_type S W <> [] <-> Violates_default_values_of_correct_type_decl S W.
Proof. exact default_values_of_correct_type_decl_iff. Qed.
Print Assumptions C02_rule_iff_default_values_of_correct_type_decl.

(* ---- the executable overlap algorithm decides the declarative layers ---- *)

(* Reflection of the unmemoised executable (the fuelled conflict finder as coded, fragments
   visited through the spreads of the compared sets) into the declarative decomposition L2:
   for every document whose selection sets are told apart by (parent type, first node id) and
   whose fields have unique argument names, over a schema that does not redefine __typename /
   String (meta_ok), with a rank rk (acyclic): if the run completes within its fuel (no
   out-of-fuel flag) and reports nothing, every check of the A-J decomposition passes on
   every selection set -- over ALL ordered pairs of fields (the code compares each unordered
   pair once and never a field with itself) and under the rule's own parent types. *)
Theorem C02_overlap_unmemo_reflects : forall S D,
  ids_distinct S D -> args_unique S D -> meta_ok S = true ->
  forall rk, ranked S D rk ->
  forall fuel, run_overlap S D false fuel = [] -> run_complete S D false fuel = true -> L2_accepts S D.
Proof. exact exec_decides_L2. Qed.
Print Assumptions C02_overlap_unmemo_reflects.

(* Fuel sufficiency: on an acyclic document neither the memoised nor the unmemoised run sets
   the out-of-fuel flag when given fuel_of D = 3 + 6 * ((|fragments|+1) * (depth+1) + depth)
   or more (depth = deepest field nesting of an operation / fragment body). *)
Theorem C02_overlap_fuel_sufficient : forall S D memo fuel,
  acyclic S D -> (fuel_of D <= fuel)%nat -> run_complete S D memo fuel = true.
Proof. exact fuel_sufficient. Qed.
Print Assumptions C02_overlap_fuel_sufficient.

(* The unmemoised executable decides L2. *)
Theorem C02_overlap_unmemo_decides_L2 : forall S D fuel,
  acyclic S D -> ids_distinct S D -> args_unique S D -> meta_ok S = true -> (fuel_of D <= fuel)%nat ->
  (run_overlap S D false fuel = [] <-> L2_accepts S D).
Proof. exact unmemo_decides_L2. Qed.
Print Assumptions C02_overlap_unmemo_decides_L2.

(* L3 = L2 = L1: the executable algorithm, with or without the memo tables, reports nothing
   exactly when every two fields that can land on one response key are compatible, however
   deeply nested in fragment spreads.  Soundness (a reported conflict => L1 violated) is the
   <- direction read contrapositively, completeness (L1 violated => a conflict is reported)
   the -> direction. *)
Theorem C02_overlap_exec_decides : forall S D memo fuel,
  acyclic S D -> ids_distinct S D -> args_unique S D -> meta_ok S = true -> (fuel_of D <= fuel)%nat ->
  (run_overlap S D memo fuel = [] <-> L1_accepts S D).
Proof. exact exec_decides_L1. Qed.
Print Assumptions C02_overlap_exec_decides.

Theorem C02_overlap_sound : forall S D memo fuel,
  acyclic S D -> run_overlap S D memo fuel <> [] -> ~ L1_accepts S D.
Proof. intros S D memo fuel A H L. apply H. apply L1_accepts_exec; assumption. Qed.
Print Assumptions C02_overlap_sound.

Theorem C02_overlap_complete : forall S D memo fuel,
  acyclic S D -> ids_distinct S D -> args_unique S D -> meta_ok S = true -> (fuel_of D <= fuel)%nat ->
  ~ L1_accepts S D -> run_overlap S D memo fuel <> [].
Proof.
  intros S D memo fuel A Hid Ha Hm Hf HN E. apply HN.
  apply (proj1 (exec_decides_L1 S D memo fuel A Hid Ha Hm Hf)). exact E.
Qed.
Print Assumptions C02_overlap_complete.

(* Soundness with the witness and the location (no hypothesis: any schema, any document --
   cyclic or not --, with or without the memo tables, any fuel): every node the run reports
   is a field a of a visited selection set s such that some field b, both reachable in the
   unfolded selection set (EF: through inline fragments and any chain of spreads), has the
   same response key and conflicts with it -- Cfl: names, arguments or return types disagree
   (FieldsInSetCanMerge / SameResponseShape on the two fields), or, recursively, two fields of
   their unfolded sub-selections with one response key conflict; Cfl refutes compat. *)
Theorem C02_overlap_sound_witness : forall S D memo fuel x, In x (run_overlap S D memo fuel) ->
  exists s a b, doc_sets S D s /\ EF S D s a /\ EF S D s b /\ fe_key a = fe_key b /\ fe_id a = x /\
                Cfl S D false a b /\ ~ compat S D (base2 S) false a b.
Proof. exact overlap_sound_witness. Qed.
Print Assumptions C02_overlap_sound_witness.

(* The runner's oracle for the location of overlap errors: whenever offending_o answers, its
   ids are exactly the fields of visited selection sets that are a member of an incompatible
   pair with one response key (Offending, Proofs/ValidateOffending.v), and every node the
   model of the rule reports -- memoised or not, any fuel -- is among them. *)
Theorem C02_offending_oracle : forall S D fuel ids, offending_o S D fuel = Some ids ->
  forall x, In x ids <-> exists s, In s (all_sets S D) /\ Offending S D s x.
Proof. exact offending_o_spec. Qed.
Print Assumptions C02_offending_oracle.

Theorem C02_overlap_reports_offending : forall S D fuel ids, offending_o S D fuel = Some ids ->
  forall memo fuel' x, In x (run_overlap S D memo fuel') -> In x ids.
Proof. exact model_reports_offending. Qed.
Print Assumptions C02_overlap_reports_offending.

(* The Prop-level hypotheses follow from decidable tests (Validate/OverlapWf.v), which the
   runner evaluates on every case: ids_ok (selection node ids pairwise distinct and non-zero),
   args_ok (every field node has pairwise distinct argument names), ranked_b (the longest
   spread chain from a fragment, computed with |fragments|+1 fuel, decreases along every
   spread).  ranked_b is exact: it holds iff the document has a rank iff no fragment reaches
   itself through spreads. *)
Theorem C02_wf_ids : forall S D, ids_ok D = true -> ids_distinct S D.
Proof. exact ids_ok_distinct. Qed.
Print Assumptions C02_wf_ids.

Theorem C02_wf_args : forall S D, args_ok D = true -> args_unique S D.
Proof. exact args_ok_unique. Qed.
Print Assumptions C02_wf_args.

Theorem C02_wf_acyclic : forall S D,
  (ranked_b D = true <-> acyclic S D) /\ (acyclic S D <-> no_cycle S D).
Proof.
  intros S D. split; [apply ranked_b_acyclic|]. split; [apply acyclic_no_cycle | apply rank_exists].
Qed.
Print Assumptions C02_wf_acyclic.

(* With unique fragment names the certified test decides NoFragmentCycles' declarative
   predicate (the runner's Spec oracle for that rule). *)
Theorem C02_cycles_oracle : forall W, NoDup (map wf_name (w_frags W)) ->
  (ranked_b (erase W) = true <-> ~ Violates_no_fragment_cycles W).
Proof. exact cycles_oracle. Qed.
Print Assumptions C02_cycles_oracle.

(* The overlap rule's executable decision, under decidable hypotheses only. *)
Theorem C02_overlap_exec_decides_b : forall S D memo fuel,
  ranked_b D = true -> ids_ok D = true -> args_ok D = true -> meta_ok S = true -> (fuel_of D <= fuel)%nat ->
  (run_overlap S D memo fuel = [] <-> L1_accepts S D).
Proof.
  intros S D memo fuel Hr Hi Ha Hm Hf.
  apply exec_decides_L1; [apply (proj1 (ranked_b_acyclic S D)); exact Hr | apply ids_ok_distinct; exact Hi
                         | apply args_ok_unique; exact Ha | exact Hm | exact Hf].
Qed.
Print Assumptions C02_overlap_exec_decides_b.

(* The validator's model accepts a document iff no rule is violated (Violates r is the
   declarative predicate of rule r -- the relational _decl form where one exists; for the
   overlap rule it is ~ L1_accepts).  The hypotheses
   are decidable and hold for every parsed document over a schema the library accepts (the
   runner checks them on every case): distinct
   non-zero selection ids, no redefinition of __typename / String, enough fuel.  Unique
   fragment names, acyclicity and unique argument names are NOT assumed: a document violating
   them is rejected by UniqueFragmentNames / NoFragmentCycles / UniqueArgumentNames on both
   sides of the equivalence. *)
Theorem C02_accept_iff : forall fuel S W,
  ids_ok (erase W) = true ->
  meta_ok S = true ->
  (fuel_of (erase W) <= fuel)%nat ->
  (validate_model fuel S W = [] <-> forall r, ~ Violates r S W).
Proof. exact accept_iff. Qed.
Print Assumptions C02_accept_iff.

(* ---- locations: every node a rule's model reports is a node of the document of the kind the
   rule names (the remaining rules; the overlap rule: C02_overlap_sound_witness) ---- *)
(* the name node of a named operation / the node of an anonymous one *)
Theorem C02_rule_located_unique_operation_names : forall W x, In x (rule_unique_operation_names W) -> exists o, In o (w_ops W) /\ x = snd (op_key o).
Proof. exact unique_operation_names_located. Qed.
Print Assumptions C02_rule_located_unique_operation_names.

(* the name node of a fragment definition *)
Theorem C02_rule_located_unique_fragment_names : forall W x, In x (rule_unique_fragment_names W) -> exists f, In f (w_frags W) /\ x = wf_nid f.
Proof. exact unique_fragment_names_located. Qed.
Print Assumptions C02_rule_located_unique_fragment_names.

(* the name node of a variable definition *)
Theorem C02_rule_located_unique_variable_names : forall W x, In x (rule_unique_variable_names W) -> exists o v, In o (w_ops W) /\ In v (wo_vars o) /\ x = wv_nid v.
Proof. exact unique_variable_names_located. Qed.
Print Assumptions C02_rule_located_unique_variable_names.

(* an argument node of a field or directive *)
Theorem C02_rule_located_unique_argument_names : forall S W x, In x (rule_unique_argument_names S W) -> exists i a, In i (doc_items S W) /\ In a (item_args i) /\ x = wa_id a.
Proof. exact unique_argument_names_located. Qed.
Print Assumptions C02_rule_located_unique_argument_names.

(* the selection set of a leaf field / the composite field without one *)
Theorem C02_rule_located_scalar_leafs : forall S W x, In x (rule_scalar_leafs S W) -> exists pt fd id nm args ssid hs, In (IField pt fd id nm args ssid hs) (doc_items S W) /\ (x = ssid \/ x = id).
Proof. exact scalar_leafs_located. Qed.
Print Assumptions C02_rule_located_scalar_leafs.

(* the directive node *)
Theorem C02_rule_located_known_directives : forall S W x, In x (rule_known_directives S W) -> exists loc dd d, In (IDir loc dd d) (doc_items S W) /\ x = wd_id d.
Proof. exact known_directives_located. Qed.
Print Assumptions C02_rule_located_known_directives.

(* the argument node *)
Theorem C02_rule_located_known_argument_names : forall S W x, In x (rule_known_argument_names S W) -> exists ow ad a, In (IArg ow ad a) (doc_items S W) /\ x = wa_id a.
Proof. exact known_argument_names_located. Qed.
Print Assumptions C02_rule_located_known_argument_names.

(* the field or directive node *)
Theorem C02_rule_located_provided_non_null_arguments : forall S W x, In x (rule_provided_non_null_arguments S W) -> (exists pt fd nm args ssid hs, In (IField pt fd x nm args ssid hs) (doc_items S W)) \/ (exists loc dd d, In (IDir loc dd d) (doc_items S W) /\ x = wd_id d).
Proof. exact provided_non_null_arguments_located. Qed.
Print Assumptions C02_rule_located_provided_non_null_arguments.

(* the inline fragment or the spread *)
Theorem C02_rule_located_possible_fragment_spreads : forall S W x, In x (rule_possible_fragment_spreads S W) -> (exists pt ty tc, In (IInline pt ty x tc) (doc_items S W)) \/ (exists pt nid g, In (ISpread pt x nid g) (doc_items S W)).
Proof. exact possible_fragment_spreads_located. Qed.
Print Assumptions C02_rule_located_possible_fragment_spreads.

(* the type condition *)
Theorem C02_rule_located_fragments_on_composite_types : forall S W x, In x (rule_fragments_on_composite S W) -> (exists pt ty id tc, In (IInline pt ty id (Some tc)) (doc_items S W) /\ x = fst tc) \/ (exists f, In f (w_frags W) /\ x = wf_tcid f).
Proof. exact fragments_on_composite_located. Qed.
Print Assumptions C02_rule_located_fragments_on_composite_types.

(* the fragment definition *)
Theorem C02_rule_located_no_unused_fragments : forall W x, In x (rule_no_unused_fragments W) -> exists f, In f (w_frags W) /\ x = wf_id f.
Proof. exact no_unused_fragments_located. Qed.
Print Assumptions C02_rule_located_no_unused_fragments.

(* the variable usage *)
Theorem C02_rule_located_no_undefined_variables : forall S W x, In x (rule_no_undefined_variables S W) -> exists o u, In o (w_ops W) /\ In u (rec_uses S W o) /\ x = fst u.
Proof. exact no_undefined_variables_located. Qed.
Print Assumptions C02_rule_located_no_undefined_variables.

(* the variable definition *)
Theorem C02_rule_located_no_unused_variables : forall S W x, In x (rule_no_unused_variables S W) -> exists o v, In o (w_ops W) /\ In v (wo_vars o) /\ x = wv_vid v.
Proof. exact no_unused_variables_located. Qed.
Print Assumptions C02_rule_located_no_unused_variables.

(* the type of the variable definition *)
Theorem C02_rule_located_variables_are_input_types : forall S W x, In x (rule_variables_are_input_types S W) -> exists o v, In o (w_ops W) /\ In v (wo_vars o) /\ x = wt_id (wv_type v).
Proof. exact variables_are_input_types_located. Qed.
Print Assumptions C02_rule_located_variables_are_input_types.

(* the default value *)
Theorem C02_rule_located_default_values_of_correct_type : forall S W x, In x (rule_default_values_of_correct_type S W) -> exists o v d, In o (w_ops W) /\ In v (wo_vars o) /\ wv_default v = Some d /\ x = wv_id d.
Proof. exact default_values_of_correct_type_located. Qed.
Print Assumptions C02_rule_located_default_values_of_correct_type.

(* the definition of the variable *)
Theorem C02_rule_located_variables_in_allowed_position : forall S W x, In x (rule_variables_in_allowed_position S W) -> exists o vd, In o (w_ops W) /\ In vd (wo_vars o) /\ x = wv_vid vd.
Proof. exact variables_in_allowed_position_located. Qed.
Print Assumptions C02_rule_located_variables_in_allowed_position.

(* a named-type node *)
Theorem C02_rule_located_known_type_names : forall S W x, In x (rule_known_type_names S W) -> (exists o v, In o (w_ops W) /\ In v (wo_vars o) /\ x = fst (type_named (wv_type v))) \/ (exists pt ty id tc, In (IInline pt ty id (Some tc)) (doc_items S W) /\ x = fst tc) \/ (exists f, In f (w_frags W) /\ x = wf_tcid f).
Proof. exact known_type_names_located. Qed.
Print Assumptions C02_rule_located_known_type_names.

(* a fragment spread inside some fragment definition (the spread that closes / starts the cycle) *)
Theorem C02_rule_located_no_fragment_cycles : forall W x, In x (rule_no_fragment_cycles W) ->
  exists f, In f (w_frags W) /\ In x (map fst (ctx_spreads (wf_sel f))).
Proof. exact no_fragment_cycles_located. Qed.
Print Assumptions C02_rule_located_no_fragment_cycles.

(* the name node of a field of an object literal that occurs in a default value or an argument value *)
Theorem C02_rule_located_unique_input_field_names : forall S W x, In x (rule_unique_input_field_names S W) ->
  exists v o p, sub_obj v o /\ In p o /\ x = fst p /\
    ((exists op vd, In op (w_ops W) /\ In vd (wo_vars op) /\ wv_default vd = Some v) \/
     (exists ow ad a, In (IArg ow ad a) (doc_items S W) /\ wa_val a = v)).
Proof. exact unique_input_field_names_located. Qed.
Print Assumptions C02_rule_located_unique_input_field_names.

(* ---- termination of the validator's model as a whole ----
   Only the overlap rule's model takes fuel.  The other recursive models are structural
   (literal validity on nested values, the TypeInfo walk, NoUnusedFragments / variable usages
   via closures of |fragments| + 1 rounds: C02_closure_reaches_fixpoint) or carry an internal
   fuel that is proved never to run out (NoFragmentCycles' detect: C02_cycles_fuel_irrelevant).
   vfuel W = max 200 (fuel_of (erase W)) is computable and polynomial: 3 + 6 * ((|fragments| + 1)
   * (depth + 1) + depth). *)

(* The overlap model: once a run completes within its fuel, every larger fuel gives the same
   conflicts and completes too -- memoised or not, cyclic documents included. *)
Theorem C02_overlap_fuel_irrelevant : forall S D memo f f', (f <= f')%nat ->
  run_complete S D memo f = true ->
  run_overlap S D memo f' = run_overlap S D memo f /\ run_complete S D memo f' = true.
Proof. exact run_fuel_mono. Qed.
Print Assumptions C02_overlap_fuel_irrelevant.

(* Acyclic documents (decidable test ranked_b): from vfuel on, the validator's model returns one
   fixed list and the overlap model never runs out of fuel. *)
Theorem C02_validate_fuel_sufficient : forall S W fuel,
  ranked_b (erase W) = true -> (vfuel W <= fuel)%nat ->
  validate_model fuel S W = validate_model (vfuel W) S W /\ run_complete S (erase W) true fuel = true.
Proof. exact validate_fuel_sufficient. Qed.
Print Assumptions C02_validate_fuel_sufficient.

(* Any document, cyclic ones included (partial: the hypothesis is that the memoised overlap model
   completes at some fuel f -- it terminates there through its visited sets, but a static bound
   on its recursion depth in terms of the number of memo entries is not proved; the runner
   evaluates run_complete on every case): from f on, the same list and no out-of-fuel. *)
Theorem C02_validate_fuel_sufficient_cyclic_partial : forall S W f fuel,
  run_complete S (erase W) true f = true -> (f <= fuel)%nat ->
  validate_model fuel S W = validate_model f S W /\ run_complete S (erase W) true fuel = true.
Proof. exact validate_fuel_stable. Qed.
Print Assumptions C02_validate_fuel_sufficient_cyclic_partial.

(* More fuel, same verdict -- for every schema and every document: an acyclic document by
   C02_validate_fuel_sufficient, a cyclic one because NoFragmentCycles (or UniqueFragmentNames)
   rejects it whatever the overlap model does. *)
Theorem C02_validate_fuel_irrelevant : forall S W fuel fuel',
  (vfuel W <= fuel)%nat -> (vfuel W <= fuel')%nat ->
  (validate_model fuel S W = [] <-> validate_model fuel' S W = []).
Proof. exact validate_fuel_irrelevant. Qed.
Print Assumptions C02_validate_fuel_irrelevant.

(* NoFragmentCycles: the depth-first search with any fuel of at least |fragments| + 1 is the
   rule's model (which uses exactly |fragments| + 1): the search never exhausts its fuel, every
   recursive call descends into a definition name not visited before. *)
Theorem C02_cycles_fuel_irrelevant : forall W n, (Datatypes.S (List.length (w_frags W)) <= n)%nat ->
  cycles_with_fuel W n = rule_no_fragment_cycles W.
Proof. exact cycles_fuel_irrelevant. Qed.
Print Assumptions C02_cycles_fuel_irrelevant.

(* ---- non-vacuity ---- *)
Definition exS : schema :=
  {| s_types := [("String", TScalar SString);
                 ("Q", TObject [{| f_name := "a"; f_args := []; f_type := TNamed "String" |};
                                {| f_name := "b"; f_args := []; f_type := TNamed "String" |}] [])];
     s_query := "Q"; s_mutation := None |}.
(* { x: a ...F } fragment F on Q { ...G } fragment G on Q { x: b } *)
Definition exD : document :=
  {| d_ops := [{| o_kind := OpQuery; o_name := None; o_vars := [];
                  o_sel := [SField 2 (Some "x") "a" [] [] []; SSpread 7 "F" []] |}];
     d_frags := [{| fr_name := "F"; fr_cond := "Q"; fr_sel := [SSpread 30 "G" []] |};
                 {| fr_name := "G"; fr_cond := "Q"; fr_sel := [SField 56 (Some "x") "b" [] [] []] |}] |}.

Example C02_nonvacuous_model :
  acyclic_b exD = true /\ L1b exS exD 50 = false /\ run_overlap exS exD true 50 = [2%N] /\
  run_overlap exS exD false 50 = [2%N].
Proof. repeat split; vm_compute; reflexivity. Qed.

(* the hypotheses of C02_overlap_exec_decides_b hold on the example (which is rejected), and on
   its repaired version (accepted) *)
Definition exD' : document :=
  {| d_ops := d_ops exD;
     d_frags := [{| fr_name := "F"; fr_cond := "Q"; fr_sel := [SSpread 30 "G" []] |};
                 {| fr_name := "G"; fr_cond := "Q"; fr_sel := [SField 56 (Some "x") "a" [] [] []] |}] |}.
Example C02_nonvacuous_decides :
  ranked_b exD = true /\ ids_ok exD = true /\ args_ok exD = true /\ meta_ok exS = true /\
  Nat.leb (fuel_of exD) 50 = true /\ run_overlap exS exD false 50 = [2%N] /\
  ranked_b exD' = true /\ ids_ok exD' = true /\ args_ok exD' = true /\ Nat.leb (fuel_of exD') 50 = true /\
  run_overlap exS exD' true 50 = [] /\ run_overlap exS exD' false 50 = [] /\ L1o exS exD' 50 = Some true.
Proof. repeat split; vm_compute; reflexivity. Qed.

(* the hypotheses of C02_accept_iff hold on a valid and on an invalid document *)
Definition exW (second : name) : wdoc :=
  {| w_ops := [{| wo_id := 0; wo_kind := OpQuery; wo_name := None; wo_vars := []; wo_dirs := []; wo_ssid := 0;
                  wo_sel := [WField 2 (Some "x") "a" [] [] 0 []; WSpread 7 10 "F" []] |}];
     w_frags := [{| wf_id := 12; wf_nid := 21; wf_name := "F"; wf_tcid := 26; wf_cond := "Q"; wf_dirs := [];
                    wf_ssid := 28; wf_sel := [WSpread 30 33 "G" []] |};
                 {| wf_id := 37; wf_nid := 46; wf_name := "G"; wf_tcid := 51; wf_cond := "Q"; wf_dirs := [];
                    wf_ssid := 53; wf_sel := [WField 56 (Some "x") second [] [] 0 []] |}] |}.
Example C02_nonvacuous_accept :
  ids_ok (erase (exW "a")) = true /\ meta_ok exS = true /\
  Nat.leb (fuel_of (erase (exW "a"))) 50 = true /\ validate_model 50 exS (exW "a") = [] /\
  ids_ok (erase (exW "b")) = true /\
  Nat.leb (fuel_of (erase (exW "b"))) 50 = true /\ validate_model 50 exS (exW "b") = [2%N].
Proof. repeat split; vm_compute; reflexivity. Qed.

(* a cyclic document: { ...F } fragment F on Q { a ...G } fragment G on Q { ...F }; the memoised
   overlap model completes (visited sets), the verdict does not depend on the fuel *)
Definition exWcyc : wdoc :=
  {| w_ops := [{| wo_id := 0; wo_kind := OpQuery; wo_name := None; wo_vars := []; wo_dirs := []; wo_ssid := 0;
                  wo_sel := [WSpread 2 5 "F" []] |}];
     w_frags := [{| wf_id := 9; wf_nid := 18; wf_name := "F"; wf_tcid := 23; wf_cond := "Q"; wf_dirs := [];
                    wf_ssid := 25; wf_sel := [WField 27 None "a" [] [] 0 []; WSpread 29 32 "G" []] |};
                 {| wf_id := 36; wf_nid := 45; wf_name := "G"; wf_tcid := 50; wf_cond := "Q"; wf_dirs := [];
                    wf_ssid := 52; wf_sel := [WSpread 54 57 "F" []] |}] |}.
Example C02_nonvacuous_termination :
  ranked_b (erase exWcyc) = false /\ vfuel exWcyc = 200%nat /\
  run_complete exS (erase exWcyc) true (vfuel exWcyc) = true /\
  validate_model (vfuel exWcyc) exS exWcyc = validate_model 1000 exS exWcyc /\
  validate_model (vfuel exWcyc) exS exWcyc <> [] /\
  cycles_with_fuel exWcyc 50 = rule_no_fragment_cycles exWcyc /\ rule_no_fragment_cycles exWcyc <> [] /\
  ranked_b (erase (exW "a")) = true /\ validate_model (vfuel (exW "a")) exS (exW "a") = [].
Proof. repeat split; try (vm_compute; reflexivity); vm_compute; discriminate. Qed.

Example C02_nonvacuous_rules :
  rule_lone_anonymous {| w_ops := [ {| wo_id := 0; wo_kind := OpQuery; wo_name := None; wo_vars := [];
                                       wo_dirs := []; wo_ssid := 0; wo_sel := [] |};
                                    {| wo_id := 9; wo_kind := OpQuery; wo_name := Some (15%N, "A"); wo_vars := [];
                                       wo_dirs := []; wo_ssid := 17; wo_sel := [] |} ]; w_frags := [] |} = [0%N].
Proof. vm_compute. reflexivity. Qed.

(* ---- tables generated from the source (harness/gen.go writes Gen/Rules.v and Gen/Directives.v
   from rules.go and the linked library before every check run; these are re-proved then) ---- *)
From GQL Require Gen.Rules Gen.Directives Tables.RuleTable Tables.DirectiveRules Run.C02run.

(* The rule list of the source is the rule list of the model: the composite literal
   SpecifiedRules of rules.go names, in order, exactly the 24 rules that Run.C02run.run_rule
   implements under the indices 0..23 (Tables/RuleTable.v; 13 is the overlap rule); the linked
   slice is that literal; no rule is listed twice. *)
Theorem C02_gen_rule_list :
  Gen.Rules.specified_rules = Tables.RuleTable.model_rule_names /\
  Gen.Rules.specified_rules_linked = Gen.Rules.specified_rules /\
  Tables.RuleTable.model_rule_indices = Tables.RuleTable.upto 24 /\
  Tables.RuleTable.str_nodup Gen.Rules.specified_rules = true.
Proof.
  repeat split;
  first [ vm_compute; reflexivity
        | fail 1 "generated-table obligation C02_gen_rule_list no longer holds against the regenerated table: SpecifiedRules of rules.go (Gen/Rules.v) is not the rule list of the validation model (Tables/RuleTable.v)" ].
Qed.
Print Assumptions C02_gen_rule_list.

(* ... and the model has no rule beyond the table: every other index reports nothing. *)
Theorem C02_rule_indices_exhaustive : forall r S W, (24 <= r)%N -> Run.C02run.run_rule r S W = [].
Proof.
  intros [|p] S W H; [exfalso; apply H; reflexivity|].
  do 5 (try (destruct p as [p|p|]; try reflexivity)); exfalso; apply H; reflexivity.
Qed.
Print Assumptions C02_rule_indices_exhaustive.

(* The directive definitions the validation model uses (KnownDirectives, KnownArgumentNames,
   ProvidedNonNullArguments, ArgumentsOfCorrectType on directive arguments) are the linked
   graphql.SpecifiedDirectives: names, argument names / types / defaults, and the locations as
   far as the model distinguishes them. *)
Theorem C02_gen_specified_directives :
  Tables.DirectiveRules.gen_ddefs = Some Validate.Rules.specified_directives.
Proof.
  first [ vm_compute; reflexivity
        | fail 1 "generated-table obligation C02_gen_specified_directives no longer holds against the regenerated table: graphql.SpecifiedDirectives (Gen/Directives.v) are not the directive definitions of Validate/Rules.v" ].
Qed.
Print Assumptions C02_gen_specified_directives.

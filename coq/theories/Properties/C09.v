(* Property C09 -- no input makes a public entry point panic, hang or return a
   malformed result.  Statements only; proofs live in Proofs/Total*.v.

   What is proved here are the totality / termination and result-shape
   obligations on the models: CollectFields (Exec.collect), the check PlanQuery
   applies to unvalidated documents (Total.fragment_cycle_through_field), the
   level-by-level recursion of planning and execution (Total.walk), the
   reference executor's request (Exec.request) and the request pipeline
   (Total.do_model).  Panic- and hang-freedom of the Go code below the models'
   granularity is explored by the harness, not proved (props/C09.json). *)
From Coq Require Import List NArith String Bool Arith.
From GQL Require Import Exec.Syntax Exec.Coerce Exec.Exec Exec.Request.
From GQL Require Import Total.Result Total.CollectBound Total.FragCycle Total.PlanWalk Total.CoerceBound Total.RequestBound.
From GQL Require Import Proofs.TotalCollect Proofs.TotalFragCycle Proofs.TotalWalk Proofs.TotalDethunk Proofs.TotalRequest.
Import ListNotations.

(* ---- termination of CollectFields, for every document: cyclic fragment
        spreads on one selection-set level are cut by the visited set.  The bound
        is linear in the document size. ---- *)
Theorem C09_collect_terminates : forall S D vars obj fuel sels visited g,
  collect_bound D sels <= fuel -> collect fuel S D vars obj sels visited g <> None.
Proof. exact collect_terminates. Qed.
Print Assumptions C09_collect_terminates.

Theorem C09_collect_all_terminates : forall S D vars obj fuel sets visited g,
  collect_all_bound D sets <= fuel -> collect_all fuel S D vars obj sets visited g <> None.
Proof. exact collect_all_terminates. Qed.
Print Assumptions C09_collect_all_terminates.

(* more fuel never changes the answer *)
Theorem C09_collect_fuel_irrelevant : forall S D vars obj fuel fuel' sels visited g r,
  collect fuel S D vars obj sels visited g = Some r -> fuel <= fuel' ->
  collect fuel' S D vars obj sels visited g = Some r.
Proof. exact collect_fuel_mono. Qed.
Print Assumptions C09_collect_fuel_irrelevant.

(* ---- the check of PlanQuery on unvalidated documents: it accepts exactly the
        documents whose spread graph has a rank that no spread increases and every
        spread below a field strictly decreases (no fragment reaches itself
        through a field; same-level cycles stay executable) ---- *)
Theorem C09_cycle_check_iff_rank : forall D,
  fragment_cycle_through_field D = false <-> has_rank D.
Proof. exact cycle_check_iff. Qed.
Print Assumptions C09_cycle_check_iff_rank.

Theorem C09_cycle_check_bounded_rank : forall D,
  fragment_cycle_through_field D = false ->
  exists rk, rank_respected D rk /\ forall a, rk a <= max_rank D.
Proof. exact cycle_check_bounded_rank. Qed.
Print Assumptions C09_cycle_check_bounded_rank.

(* ---- for every document the check accepts, the level-by-level recursion of
        planning / execution (collect a level, descend into every composite field
        for every object type it can yield) terminates within a depth that is a
        polynomial in the document size; no hypothesis on the schema, on validity
        or on acyclicity of same-level spreads ---- *)
Theorem C09_plan_rejects_through_field_cycles : forall Sc D vars obj sels,
  (exists op, In op (d_ops D) /\ o_sel op = sels) ->
  fragment_cycle_through_field D = false ->
  forall fuel, plan_bound D <= fuel -> walk fuel Sc D vars obj [sels] <> None.
Proof. exact walk_terminates. Qed.
Print Assumptions C09_plan_rejects_through_field_cycles.

(* ---- result shape of the request pipeline: parse or validation failure =>
        no data and no resolver ran; data absent => at least one error ---- *)
Theorem C09_result_well_formed : forall parsed verrs fuel S op inputs root or tor d n c,
  do_model parsed verrs fuel S op inputs root or tor = DoRes d n c ->
  result_well_formed (do_shape parsed verrs d n) = true
  /\ ((parsed = None \/ (exists D, parsed = Some D /\ verrs D <> 0)) -> d = None /\ c = 0).
Proof. exact do_model_well_formed. Qed.
Print Assumptions C09_result_well_formed.

Theorem C09_request_absent_data_has_error : forall fuel S D op inputs root or tor s,
  request fuel S D op inputs root or tor = RDone None s -> st_errs s <> [].
Proof. exact request_absent_data_has_error. Qed.
Print Assumptions C09_request_absent_data_has_error.

(* ---- serialisable: nothing deferred (no func value) is left in the data ---- *)
Theorem C09_no_deferred_value_left : forall fuel S D op inputs root or tor d s,
  request fuel S D op inputs root or tor = RDone (Some d) s ->
  exists q, no_thunk q = true /\ d = to_resp q.
Proof. exact request_no_deferred. Qed.
Print Assumptions C09_no_deferred_value_left.


(* ---- the pass that forces deferred values cannot lose the data: whatever the
        executor builds has its deferred values at nullable positions, so data is
        absent only because a non-null failure reached the root during execution ---- *)
Theorem C09_dethunk_never_raises : forall fuel E obj src g p s fs s1 e s2,
  exec_groups fuel E obj src g p s = XOk fs s1 ->
  dethunk fuel E (QObj fs) s1 <> XRaise e s2.
Proof. exact request_dethunk_never_raises. Qed.
Print Assumptions C09_dethunk_never_raises.

(* ---- fuel is only a termination device: once a request ends, more fuel gives
        the same answer (so "the request terminates" has one meaning) ---- *)
Theorem C09_request_fuel_irrelevant : forall fuel fuel' S D op inputs root or tor r,
  request fuel S D op inputs root or tor = r -> r <> RFuel -> fuel <= fuel' ->
  request fuel' S D op inputs root or tor = r.
Proof. exact request_fuel_mono. Qed.
Print Assumptions C09_request_fuel_irrelevant.


(* ---- the reference executor terminates on every request whose document passes
        PlanQuery's check: for every schema, operation name, variable inputs, root
        value and resolver / type oracle (no validity assumed).  The recursion is
        directed by the document and the schema's type references, not by the
        data, so no bound on the oracle's outcomes is needed.  The fuel bound is a
        polynomial in document size and height, number of fragments, widths of the
        schema's type references, depth of argument literals and of the inputs. ---- *)
Theorem C09_request_total : forall S D op inputs root or tor,
  fragment_cycle_through_field D = false ->
  forall fuel, request_bound S D inputs <= fuel ->
  request fuel S D op inputs root or tor <> RFuel.
Proof. exact request_total. Qed.
Print Assumptions C09_request_total.

(* ---- non-vacuity ---- *)
Definition c09_fld (id : N) (nm : string) (sub : list selection) : selection := SField id None nm [] [] sub.
Definition c09_doc (sels : list selection) (frs : list fragment) : document :=
  {| d_ops := [{| o_kind := OpQuery; o_name := None; o_vars := []; o_sel := sels |}]; d_frags := frs |}.
Definition c09_F (sels : list selection) : fragment := {| fr_name := "F"; fr_cond := "Q"; fr_sel := sels |}.
Definition c09_schema : schema :=
  {| s_types := [("String"%string, TScalar SString);
                 ("Q"%string, TObject [{| f_name := "x"; f_args := []; f_type := TNamed "Q" |};
                                       {| f_name := "s"; f_args := []; f_type := TNamed "String" |}] [])];
     s_query := "Q"; s_mutation := None |}.

(* '{ ...F } fragment F on Q { x { ...F } }' is rejected; the same-level cycle
   '{ ...F } fragment F on Q { s ...F x { s } }' is accepted, collected and walked *)
Example C09_nonvacuous :
  fragment_cycle_through_field (c09_doc [SSpread 2 "F" []] [c09_F [c09_fld 25 "x" [SSpread 29 "F" []]]]) = true
  /\ (let D := c09_doc [SSpread 2 "F" []] [c09_F [c09_fld 25 "s" []; SSpread 27 "F" []; c09_fld 32 "x" [c09_fld 36 "s" []]]] in
      fragment_cycle_through_field D = false
      /\ (exists g v, collect (collect_bound D [SSpread 2 "F" []]) c09_schema D [] "Q" [SSpread 2 "F" []] [] [] = Some (g, v)
                      /\ map fst g = ["s"%string; "x"%string])
      /\ walk (plan_bound D) c09_schema D [] "Q" [[SSpread 2 "F" []]] = Some 2)
  /\ (let D := c09_doc [SSpread 2 "F" []] [c09_F [c09_fld 25 "s" []; SSpread 27 "F" []; c09_fld 32 "x" [c09_fld 36 "s" []]]] in
      match request (request_bound c09_schema D []) c09_schema D None [] (RObj 0 "root")
                    (fun _ => Some (OVal (RObj 1 "Q"))) (fun _ => Some "Q"%string) with
      | RDone (Some _) _ => True
      | _ => False
      end)
  /\ result_well_formed {| sh_parse_failed := true; sh_valid_failed := false; sh_has_data := true;
                           sh_nerrs := 1; sh_json_ok := true; sh_keys_ok := true |} = false
  /\ result_well_formed {| sh_parse_failed := false; sh_valid_failed := false; sh_has_data := false;
                           sh_nerrs := 0; sh_json_ok := true; sh_keys_ok := true |} = false.
Proof.
  split; [vm_compute; reflexivity|]. split.
  - split; [vm_compute; reflexivity|]. split.
    + eexists. eexists. split; vm_compute; reflexivity.
    + vm_compute. reflexivity.
  - split; [vm_compute; exact I|]. split; reflexivity.
Qed.

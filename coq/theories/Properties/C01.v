(* Property C01 -- execution returns the response the GraphQL execution algorithm prescribes.
   Proofs in Proofs/{CollectProofs,CollectComplete,PlanCollectProofs,PlanExecProofs}.v.

   Exec/Exec.v is the execution algorithm (CollectFields, ExecuteSelectionSet, ExecuteField,
   CompleteValue with null propagation) over an oracle for resolver outcomes; the Go executor
   is compared with it on every generated request (Run/ExecRun.v, kind 1: data tree, error
   multiset with paths and locations, resolver calls with coerced arguments).
   Exec/PlanCollect.v models what is specific to plan.go: collection in two phases. *)
From Coq Require Import List String Bool NArith.
From GQL Require Import Exec.Syntax Exec.Coerce Exec.Exec Exec.PlanCollect Exec.Request
     Proofs.CollectProofs Proofs.PlanCollectProofs.
From GQL Require Proofs.CollectComplete.
Import ListNotations.
Open Scope string_scope.

(* The planner's two-phase collection (plan-time folding of literal @skip/@include, levels with a
   variable-driven directive collected again at execute time) is CollectFields, for every
   selection set, fragment table and variable assignment. *)
Theorem C01_two_phase_collect : forall fuel S D vars obj sels g,
  two_phase_collect fuel S D vars obj sels = Some g ->
  exists v, collect fuel S D vars obj sels [] [] = Some (g, v).
Proof. exact two_phase_is_collect. Qed.
Print Assumptions C01_two_phase_collect.

(* A plan-time result that saw no variable-driven directive serves every request. *)
Theorem C01_static_plan_sound : forall fuel S D obj sels visited g saw g' v',
  plan_collect fuel S D obj sels visited g saw = Some (g', v', false) ->
  forall vars, collect fuel S D vars obj sels visited g = Some (g', v').
Proof. intros fuel S D obj sels visited g saw g' v' H. apply (plan_collect_static_saw _ _ _ _ _ _ _ _ _ _ H). Qed.
Print Assumptions C01_static_plan_sound.

(* Every static level of a prepared plan (as dumped from the real planner through the verif hook and
   compared with plan_tree on every PlanQuery case) lists exactly the response keys CollectFields
   yields for the merged selection sets, for every variable assignment. *)
Theorem C01_plan_level_static : forall fuel S D obj sets fs,
  plan_tree (Datatypes.S fuel) S D obj sets = Some (PT false fs) ->
  exists g, (forall vars, collect_all fuel S D vars obj sets [] [] = Some g) /\
            map (fun x => fst (fst x)) fs = map fst g.
Proof. exact plan_tree_static_level. Qed.
Print Assumptions C01_plan_level_static.

(* Only included occurrences whose type conditions match are executed under a response key
   (@skip/@include evaluated at every occurrence, spread and inline fragment). *)
Theorem C01_collect_sound : forall fuel S D vars obj sels g' v',
  collect fuel S D vars obj sels [] [] = Some (g', v') ->
  forall k o, in_group g' k o -> Occurs S D vars obj sels k o.
Proof. intros fuel S D vars obj sels g' v' H k o. apply (CollectComplete.collect_exact _ _ _ _ _ _ _ _ H). Qed.
Print Assumptions C01_collect_sound.

(* Every included occurrence reached without a named spread is collected, from any accumulator and
   visited set (the general statement, through named spreads and fragment cycles, is
   C01_collect_complete / C01_key_present_iff below). *)
Theorem C01_collect_complete_partial : forall fuel S D vars obj sels visited g g' v',
  collect fuel S D vars obj sels visited g = Some (g', v') ->
  forall k o, OccursDirect S vars obj sels k o -> in_group g' k o.
Proof. intros fuel S D vars obj. apply CollectComplete.collect_complete_direct. Qed.
Print Assumptions C01_collect_complete_partial.

(* Each response key is executed once per object: the groups' keys are unique. *)
Theorem C01_keys_unique : forall fuel S D vars obj sels g' v',
  collect fuel S D vars obj sels [] [] = Some (g', v') -> NoDup (map fst g').
Proof.
  intros. eapply collect_keys_nodup; [eassumption|constructor].
Qed.
Print Assumptions C01_keys_unique.

(* A failure is absorbed exactly at nullable positions: completing at a nullable type never raises,
   so nulls propagate out of non-null positions only. *)
Theorem C01_catch_nullable : forall t r, is_nonnull t = false ->
  forall e s, catch_at t r <> XRaise e s.
Proof.
  intros t r Hn e s. unfold catch_at. destruct r as [a s'|e' s'|]; try discriminate.
  rewrite Hn. discriminate.
Qed.
Print Assumptions C01_catch_nullable.

Local Open Scope N_scope.
(* ---- non-vacuity: a document with a duplicated key across a fragment and a variable @skip;
        both verdicts of the directive are exercised ---- *)
Definition S1 : schema := {|
  s_types := [("String", TScalar SString); ("Boolean", TScalar SBoolean);
              ("Q", TObject [{| f_name := "a"; f_args := []; f_type := TNamed "String" |};
                             {| f_name := "b"; f_args := []; f_type := TNamed "String" |}] [])];
  s_query := "Q"; s_mutation := None |}.
Definition D1 : document := {|
  d_ops := [];
  d_frags := [{| fr_name := "F"; fr_cond := "Q"; fr_sel := [SField 40 None "a" [] [] []] |}] |}.
Definition sels1 : list selection :=
  [SField 2 None "a" [] [{| d_name := "skip"; d_args := [("if", VVar "v")] |}] [];
   SSpread 20 "F" []; SField 30 None "b" [] [] []].

Example C01_nonvacuous :
  two_phase_collect 20%nat S1 D1 [("v", JBool true)] "Q" sels1
  = Some [("a", [{| oc_id := 40; oc_name := "a"; oc_args := []; oc_sub := [] |}]);
          ("b", [{| oc_id := 30; oc_name := "b"; oc_args := []; oc_sub := [] |}])] /\
  two_phase_collect 20%nat S1 D1 [("v", JBool false)] "Q" sels1
  = Some [("a", [{| oc_id := 2; oc_name := "a"; oc_args := []; oc_sub := [] |};
                 {| oc_id := 40; oc_name := "a"; oc_args := []; oc_sub := [] |}]);
          ("b", [{| oc_id := 30; oc_name := "b"; oc_args := []; oc_sub := [] |}])].
Proof. split; reflexivity. Qed.

(* ---- completeness of CollectFields through named fragment spreads (Proofs/CollectComplete.v);
        no acyclicity of the fragment table is assumed ---- *)
From GQL Require Import Proofs.CollectComplete.
Local Close Scope N_scope.

(* Every included, type-matching occurrence reachable from the selection set -- through any chain of
   inline fragments and named spreads, fragment cycles allowed -- is collected. *)
Theorem C01_collect_complete : forall fuel S D vars obj sels g' v',
  collect fuel S D vars obj sels [] [] = Some (g', v') ->
  forall k o, Occurs S D vars obj sels k o -> in_group g' k o.
Proof. intros fuel S D vars obj. apply collect_complete. Qed.
Print Assumptions C01_collect_complete.

(* A response key is present iff at least one of its occurrences is included. *)
Theorem C01_key_present_iff : forall fuel S D vars obj sels g' v',
  collect fuel S D vars obj sels [] [] = Some (g', v') ->
  (forall k, In k (map fst g') <-> exists o, Occurs S D vars obj sels k o).
Proof. intros fuel S D vars obj. apply collect_key_present_iff. Qed.
Print Assumptions C01_key_present_iff.

(* The merged sub-selection of a field group (what exec_object collects: several selection sets,
   one visited list) holds exactly the included occurrences of its selection sets. *)
Theorem C01_collect_all_exact : forall fuel S D vars obj sets g',
  collect_all fuel S D vars obj sets [] [] = Some g' ->
  forall k o, in_group g' k o <-> exists s, In s sets /\ Occurs S D vars obj s k o.
Proof. intros fuel S D vars obj. apply collect_all_exact. Qed.
Print Assumptions C01_collect_all_exact.

(* ---- the *planned* executor: PlanQuery builds a plan tree once, ExecutePlan walks it any number of
        times (Exec/PlanExec.v: plan_of follows planSelectionSetsLocked / planMergedFieldChildren /
        abstractAlternative / planArguments, pexec_* follow executePlannedSelection /
        resolvePlannedField / completePlanned* and the dethunk pass; Proofs/PlanExecProofs.v).
        Full statements: no restriction on thunks, abstract fields or dynamic levels. ---- *)
From GQL Require Import Exec.PlanExec Proofs.PlanExecProofs.

(* What the walker relies on holds of every plan the planner builds: a static level holds the groups
   CollectFields yields for every variable assignment, all-literal arguments are the per-request
   coercion for every variable assignment, the sub-plan of an object field is a well-formed plan of
   its merged sub-selections, the alternative of an abstract field is one for every runtime type. *)
Theorem C01_planner_builds_wf_plans : forall pf S D k, k <= pf ->
  forall obj sets pl, plan_of k S D obj sets = Some pl -> wf_plan pf S D obj sets pl.
Proof. exact plan_of_wf. Qed.
Print Assumptions C01_planner_builds_wf_plans.

(* ExecutePlan on *any* well-formed plan (however it was obtained: built afresh, shared by key, filled
   lazily) is ExecuteRequest: same data, st_errs, st_calls (resolver calls with coerced arguments, in
   order), st_tcalls, st_missing, st_escape -- or the same request error. *)
Theorem C01_execute_plan_refines : forall pf ef S D opname op rt pl inputs root or tor r,
  get_operation D opname = Some op -> root_type S op = Some rt ->
  wf_plan pf S D rt [o_sel op] pl ->
  execute_plan pf ef S D {| pp_op := op; pp_root := rt; pp_plan := pl |} inputs root or tor = r ->
  r <> RFuel ->
  Request.request (ef + pf) S D opname inputs root or tor = r.
Proof. exact execute_plan_refines. Qed.
Print Assumptions C01_execute_plan_refines.

(* PlanQuery + ExecutePlan: whenever the planned execution of a request finishes (pf: planning fuel,
   ef: execution fuel), it returns exactly what the execution algorithm returns. *)
Theorem C01_planned_request_refines : forall pf ef S D opname inputs root or tor r,
  PlanExec.request pf ef S D opname inputs root or tor = r -> r <> RFuel ->
  Request.request (ef + pf) S D opname inputs root or tor = r.
Proof.
  intros pf ef S D opname inputs root or tor r H Hr. unfold PlanExec.request in H.
  pose proof (plan_query_spec pf S D opname) as Hq.
  destruct (plan_query pf S D opname) as [| |[op rt pl]]; [subst r; contradiction|subst r; apply Hq|].
  destruct Hq as (Hop & Hrt & Hwf). eapply execute_plan_refines; eassumption.
Qed.
Print Assumptions C01_planned_request_refines.

Theorem C01_planned_request_done : forall pf ef S D opname inputs root or tor d s,
  PlanExec.request pf ef S D opname inputs root or tor = RDone d s ->
  exists fuel, Request.request fuel S D opname inputs root or tor = RDone d s.
Proof.
  intros pf ef S D opname inputs root or tor d s H. exists (ef + pf).
  eapply C01_planned_request_refines; [exact H|discriminate].
Qed.
Print Assumptions C01_planned_request_done.

(* Plan reuse: one plan, executed with any variables / root value / resolver behaviour, gives each
   time what a fresh ExecuteRequest gives ... *)
Theorem C01_plan_reuse_each : forall pf S D opname pp,
  plan_query pf S D opname = Planned pp ->
  forall ef x r, run_plan pf ef S D pp x = r -> r <> RFuel -> run_fresh (ef + pf) S D opname x = r.
Proof. exact plan_reuse_each. Qed.
Print Assumptions C01_plan_reuse_each.

(* ... n times in a row. *)
Theorem C01_plan_reuse : forall pf S D opname pp,
  plan_query pf S D opname = Planned pp ->
  forall ef (xs : list run),
    Forall (fun x => run_plan pf ef S D pp x <> RFuel) xs ->
    map (run_plan pf ef S D pp) xs = map (run_fresh (ef + pf) S D opname) xs.
Proof. exact plan_reuse. Qed.
Print Assumptions C01_plan_reuse.

(* The plan of this model, with arguments, field definitions and lazily planned alternatives
   forgotten, is PlanCollect.plan_tree -- the structure compared with the dump of every real plan. *)
Theorem C01_plan_of_is_plan_tree : forall k S D obj sets pl,
  plan_of k S D obj sets = Some pl -> plan_tree k S D obj sets = Some (shape pl).
Proof. exact plan_of_shape. Qed.
Print Assumptions C01_plan_of_is_plan_tree.

(* Non-vacuity: a plan with a static root, dynamic sub-levels, an eager object sub-plan, a lazily
   planned interface alternative, literal and variable arguments, deferred values, an error and a
   non-null violation is built once and executed under two variable assignments. *)
Theorem C01_planned_nonvacuous :
  match plan_query 12 Example.S2 Example.D2 None with
  | Planned pp =>
    Example.level_kinds (pp_plan pp) =
      [("a", true, false); ("o", true, true); ("o2", false, false); ("i", true, false);
       ("l", true, true); ("t", true, false)] /\
    (exists d s, execute_plan 12 12 Example.S2 Example.D2 pp (Example.inputs2 true) RNull Example.or2 Example.tor2
                 = RDone (Some d) s /\ List.length (st_calls s) = 14%nat /\ List.length (st_errs s) = 2%nat) /\
    (exists d s, execute_plan 12 12 Example.S2 Example.D2 pp (Example.inputs2 false) RNull Example.or2 Example.tor2
                 = RDone (Some d) s /\ List.length (st_calls s) = 12%nat /\ List.length (st_errs s) = 1%nat)
  | _ => False
  end.
Proof.
  pose proof Example.planned_nonvacuous as H.
  destruct (plan_query 12 Example.S2 Example.D2 None) as [| |pp]; try contradiction.
  destruct H as (Hk & H1 & H2 & _). split; [exact Hk|].
  split; [exact (Example.summary_done _ _ _ _ _ H1)|exact (Example.summary_done _ _ _ _ _ H2)].
Qed.
Print Assumptions C01_planned_nonvacuous.
(* ---- table generated from the source (harness/gen.go writes Gen/Directives.v from the linked
   graphql.SpecifiedDirectives before every check run; these are re-proved then) ---- *)
From GQL Require Gen.Directives Tables.DirectiveTable.

(* @skip and @include as declared in directives.go are what the model assumes: usable on fields,
   fragment spreads and inline fragments, with exactly one argument `if: Boolean!` without default. *)
Theorem C01_gen_skip_include_declared : forall n, n = "skip" \/ n = "include" ->
  Tables.DirectiveTable.find_gdirective n Gen.Directives.specified_directives
  = Some (Tables.DirectiveTable.cond_directive n).
Proof.
  intros n [-> | ->];
  first [ vm_compute; reflexivity
        | fail 1 "generated-table obligation C01_gen_skip_include_declared no longer holds against the regenerated table: @skip / @include (Gen/Directives.v) do not have the locations FIELD, FRAGMENT_SPREAD, INLINE_FRAGMENT and the single argument if: Boolean! that Exec.included and PlanCollect.plan_directives assume" ].
Qed.
Print Assumptions C01_gen_skip_include_declared.

(* Exec.included (through bool_arg) and PlanCollect.plan_directives (through bool_arg_static)
   read the condition exactly as getArgumentValues does for the declared argument: the value of
   the declared argument name, coerced at the declared argument type. *)
Theorem C01_gen_condition_argument : forall n a, n = "skip" \/ n = "include" ->
  Tables.DirectiveTable.sole_arg n = Some a ->
  forall S d vars,
    bool_arg S d vars
    = match value_from_ast 3 S (Tables.DirectiveTable.to_tyref (Gen.Directives.ga_type a))
                           (alookup (Gen.Directives.ga_name a) (d_args d)) (Some vars) with
      | Some v => v | None => JNull end /\
    bool_arg_static S d
    = match value_from_ast 3 S (Tables.DirectiveTable.to_tyref (Gen.Directives.ga_type a))
                           (alookup (Gen.Directives.ga_name a) (d_args d)) None with
      | Some v => v | None => JNull end.
Proof.
  intros n a [-> | ->] H; vm_compute in H;
  first [ injection H as <-; intros S d vars; split; reflexivity
        | fail 1 "generated-table obligation C01_gen_condition_argument no longer holds against the regenerated table: the argument declared for @skip / @include (Gen/Directives.v) is not the one bool_arg / bool_arg_static read" ].
Qed.
Print Assumptions C01_gen_condition_argument.

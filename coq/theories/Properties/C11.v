(* Property C11 -- schema construction never yields an inconsistent type system.
   The statements: most are instances of the general results of Proofs/Types*.v; the three
   append-agrees theorems are assembled here from append_agrees_fuel, append_commutes(_view)
   (Proofs/TypesAppend.v) and the termination theorems (Proofs/TypesNames.v).
   Model: Types/Schema.v (new_schema_fuel, append_type_fuel); Spec: Types/Consistent.v. *)
From Coq Require Import List NArith Bool String.
From GQL Require Import Base.Bytes Types.Schema Types.Consistent Proofs.TypesReduce Proofs.TypesNames
  Proofs.TypesClosed Proofs.TypesImpl Proofs.TypesMain Proofs.TypesConsistent Proofs.TypesAppend.
Import ListNotations.
Open Scope string_scope.
Open Scope N_scope.

(* Building a schema either returns an error or returns a schema whose public view is a
   consistent type system (every clause of Consistent), for every configuration and every fuel.
   with_meta puts the library's own definitions (built-in scalars, introspection types) next to
   the user's, as the Go library does. *)
Theorem C11_consistent : forall fuel c sch, new_schema_fuel fuel (with_meta c) = OK sch -> Consistent (view_of sch).
Proof. exact consistent_full. Qed.
Print Assumptions C11_consistent.

(* The same for any list of definitions whatsoever, minus the clause "the introspection types
   are there" (which is about the library's own definitions) and the roots *)
Theorem C11_consistent_any_defs : forall fuel c sch, new_schema_fuel fuel c = OK sch -> core_consistent (view_of sch).
Proof. exact consistent_core. Qed.
Print Assumptions C11_consistent_any_defs.

(* The executable oracle with which the runner judges what the implementation returned is the Spec *)
Theorem C11_oracle_decides : forall V, consistentb V = true <-> Consistent V.
Proof. exact consistentb_iff. Qed.
Print Assumptions C11_oracle_decides.

(* The schema's PossibleTypes / IsPossibleType tables are the possible types the declarations give *)
Theorem C11_possible_types_declared : forall fuel c sch a o, new_schema_fuel fuel c = OK sch ->
  In a (ids (s_tm sch)) -> In o (ids (s_tm sch)) ->
  (abstract_possible sch a o = true <-> possible (v_types (view_of sch)) a o = true).
Proof.
  intros fuel c sch a o H. destruct (built_invariants _ _ (new_schema_built _ _ _ H)) as (Hg & Hc & _).
  exact (abstract_possible_spec sch Hg Hc a o).
Qed.
Print Assumptions C11_possible_types_declared.

(* isTypeSubTypeOf as coded decides the subtype relation of the specification, and the
   per-field interface check decides implements_field, for every possible-type relation *)
Theorem C11_subtype_decided : forall poss a b, is_type_sub_type_of poss a b = true <-> subtype poss a b.
Proof. exact sub_reflect. Qed.
Print Assumptions C11_subtype_decided.

Theorem C11_field_check_decided : forall poss ofs jf,
  field_implements poss ofs jf = true <-> implements_field poss ofs jf.
Proof. exact field_implements_iff. Qed.
Print Assumptions C11_field_check_decided.

(* a parked error anywhere in what the roots and SchemaConfig.Types reach makes NewSchema fail:
   if it succeeded, every reachable definition passed its constructor and its lazy
   initialisation (fields, interfaces, union members), and no reference is broken *)
Theorem C11_errors_surface : forall fuel c sch, new_schema_fuel fuel c = OK sch ->
  (forall t, In t (initial_types c) -> target_of (c_defs c) (norm t) <> TgtBad)
  /\ forall i, reachable (c_defs c) (initial_types c) i ->
       (exists d, find_def (c_defs c) i = Some d /\ static_ok (c_defs c) d)
       /\ forall t, In t (out_refs (c_defs c) i) -> target_of (c_defs c) t <> TgtBad.
Proof. exact errors_surface. Qed.
Print Assumptions C11_errors_surface.

(* AppendType keeps the schema consistent *)
Theorem C11_append_consistent : forall f0 f1 c ts sch sch',
  new_schema_fuel f0 (with_meta c) = OK sch -> append_types_fuel f1 sch ts = OK sch' -> Consistent (view_of sch').
Proof. exact append_consistent. Qed.
Print Assumptions C11_append_consistent.

(* Appending types afterwards gives the same schema as supplying them up front: same definitions,
   roots and type map ... *)
Theorem C11_append_commutes : forall f0 f1 f2 c ts sch0 sch1 sch2,
  new_schema_fuel f0 c = OK sch0 -> append_types_fuel f1 sch0 ts = OK sch1 ->
  new_schema_fuel f2 (with_types c ts) = OK sch2 ->
  same_schema sch1 sch2.
Proof. exact append_commutes. Qed.
Print Assumptions C11_append_commutes.

(* ... and the same public view: same types, roots, PossibleTypes and IsPossibleType rows *)
Theorem C11_append_commutes_view : forall f0 f1 f2 c ts sch0 sch1 sch2,
  new_schema_fuel f0 c = OK sch0 -> append_types_fuel f1 sch0 ts = OK sch1 ->
  new_schema_fuel f2 (with_types c ts) = OK sch2 ->
  same_view (view_of sch1) (view_of sch2).
Proof. exact append_commutes_view. Qed.
Print Assumptions C11_append_commutes_view.

(* the type map is exactly what the roots, the introspection root and SchemaConfig.Types reach *)
Theorem C11_type_map_is_reachable : forall fuel c sch, new_schema_fuel fuel c = OK sch ->
  forall y, In y (ids (s_tm sch)) <-> reachable (c_defs c) (initial_types c) y.
Proof. exact new_schema_map. Qed.
Print Assumptions C11_type_map_is_reachable.

(* Termination: the fuel NewSchema is run with (one more than the number of definitions, the
   library's own included) is always enough -- the out-of-fuel result is unreachable -- and any
   larger fuel gives the same result, so the fuel is not an observable of the model. *)
Theorem C11_fuel_sufficient : forall c, new_schema c <> OutOfFuel.
Proof. exact new_schema_terminates. Qed.
Print Assumptions C11_fuel_sufficient.

Theorem C11_fuel_irrelevant : forall fuel c, (List.length (c_defs c) < fuel)%nat ->
  new_schema_fuel fuel c <> OutOfFuel /\ new_schema_fuel fuel c = new_schema c.
Proof. intros fuel c H. split; [exact (new_schema_fuel_enough fuel c H)|exact (new_schema_fuel_irrelevant fuel c H)]. Qed.
Print Assumptions C11_fuel_irrelevant.

(* the same for AppendType on every schema NewSchema and earlier AppendType calls can have produced *)
Theorem C11_fuel_sufficient_append : forall f0 f1 c sch0 ts0 sch ts,
  new_schema_fuel f0 c = OK sch0 -> append_types_fuel f1 sch0 ts0 = OK sch -> append_types sch ts <> OutOfFuel.
Proof. exact append_types_terminates. Qed.
Print Assumptions C11_fuel_sufficient_append.

(* Appending types afterwards and supplying them up front agree: the same verdict (NewSchema with
   the extra types succeeds exactly when NewSchema without them followed by AppendType of each, in
   the order given, succeeds), and on success the same schema -- same definitions, roots and type
   map, hence the same types, implementation and possible-type tables (PossibleTypes and
   IsPossibleType rows) on the public view. *)
Theorem C11_append_agrees_with_upfront : forall c ts,
  ((exists sch2, new_schema (with_types c ts) = OK sch2) <->
   (exists sch0 sch1, new_schema c = OK sch0 /\ append_types sch0 ts = OK sch1))
  /\ forall sch0 sch1 sch2, new_schema c = OK sch0 -> append_types sch0 ts = OK sch1 ->
       new_schema (with_types c ts) = OK sch2 -> same_schema sch1 sch2 /\ same_view (view_of sch1) (view_of sch2).
Proof.
  intros c ts. split.
  - unfold new_schema, append_types. change (c_defs (with_types c ts)) with (c_defs c).
    assert (D : forall S0, new_schema_fuel (fuel_for (c_defs c)) c = OK S0 -> s_defs S0 = c_defs c)
      by (intros S0 E0; destruct (new_schema_built _ _ _ E0); reflexivity).
    destruct (append_agrees_fuel (fuel_for (c_defs c)) c ts) as [H1 H2]. split.
    + intro H. destruct (H1 H) as (S0 & S1 & E0 & E1). exists S0, S1. rewrite (D S0 E0). auto.
    + intros (S0 & S1 & E0 & E1). apply H2. exists S0, S1. rewrite (D S0 E0) in E1. auto.
  - intros sch0 sch1 sch2 H0 H1 H2. split.
    + exact (append_commutes _ _ _ c ts sch0 sch1 sch2 H0 H1 H2).
    + exact (append_commutes_view _ _ _ c ts sch0 sch1 sch2 H0 H1 H2).
Qed.
Print Assumptions C11_append_agrees_with_upfront.

(* the same on the failure side (no third outcome: fuel never runs out) *)
Theorem C11_append_agrees_on_failure : forall c ts,
  new_schema (with_types c ts) = Err <->
  (new_schema c = Err \/ exists sch0, new_schema c = OK sch0 /\ append_types sch0 ts = Err).
Proof.
  intros c ts. destruct (C11_append_agrees_with_upfront c ts) as [[H1 H2] _]. split.
  - intro E. destruct (new_schema c) as [S0| |] eqn:E0.
    + right. exists S0. split; [reflexivity|]. destruct (append_types S0 ts) as [S1| |] eqn:E1.
      * destruct (H2 (ex_intro _ S0 (ex_intro _ S1 (conj eq_refl E1)))) as [S2 E2]. rewrite E in E2. discriminate.
      * reflexivity.
      * exfalso. exact (append_types_terminates (fuel_for (c_defs c)) 0 c S0 [] S0 ts E0 eq_refl E1).
    + left. reflexivity.
    + exfalso. exact (new_schema_terminates c E0).
  - intros [E0|(S0 & E0 & E1)].
    + destruct (new_schema (with_types c ts)) as [S2| |] eqn:E2; [|reflexivity|exfalso; exact (new_schema_terminates _ E2)].
      destruct (H1 (ex_intro _ S2 eq_refl)) as (S0 & S1 & X & _). rewrite E0 in X. discriminate.
    + destruct (new_schema (with_types c ts)) as [S2| |] eqn:E2; [|reflexivity|exfalso; exact (new_schema_terminates _ E2)].
      destruct (H1 (ex_intro _ S2 eq_refl)) as (S0' & S1 & X & Y). rewrite E0 in X. inversion X; subst S0'. rewrite E1 in Y. discriminate.
Qed.
Print Assumptions C11_append_agrees_on_failure.

(* any partition of the extra types into "supplied up front" and "appended afterwards" *)
Theorem C11_append_any_partition : forall c t1 t2,
  (exists sch, new_schema (with_types c (t1 ++ t2)) = OK sch) <->
  (exists sch0 sch1, new_schema (with_types c t1) = OK sch0 /\ append_types sch0 t2 = OK sch1).
Proof.
  intros c t1 t2. destruct (C11_append_agrees_with_upfront (with_types c t1) t2) as [H _].
  assert (E : with_types (with_types c t1) t2 = with_types c (t1 ++ t2)).
  { unfold with_types. simpl. rewrite <- app_assoc. reflexivity. }
  rewrite E in H. exact H.
Qed.
Print Assumptions C11_append_any_partition.

(* ---------- non-vacuity ---------- *)
Definition ex_cfg : config :=
  with_meta (Cfg
    [ (100, DInterface (s "Node") [(s "id", FieldOf (TNonNull (TNamed 5)) []); (s "next", FieldOf (TList (TNamed 100)) [])] true);
      (101, DObject (s "User") (RList [Some 100])
              [(s "id", FieldOf (TNonNull (TNamed 5)) [(s "extra", ArgOf (TNamed 1))]);
               (s "next", FieldOf (TNonNull (TList (TNamed 101))) [])] true);
      (102, DObject (s "Query") RNone [(s "node", FieldOf (TNamed 100) [(s "id", ArgOf (TNonNull (TNamed 5)))])] true) ]
    (Some 102) None None [TNamed 101] []).

(* the hypotheses of the theorems are satisfiable, and the result is Consistent by the oracle *)
Example C11_nonvacuous_ok :
  match new_schema ex_cfg with OK sch => consistentb (view_of sch) && (9 <? N.of_nat (List.length (s_tm sch))) | _ => false end = true.
Proof. vm_compute. reflexivity. Qed.

(* [Node] implemented as [Query] (not an implementer) is rejected, and so is NonNull(NonNull(Int)) *)
Example C11_nonvacuous_err :
  new_schema (with_meta (Cfg
    [ (100, DInterface (s "Node") [(s "next", FieldOf (TList (TNamed 100)) [])] true);
      (101, DObject (s "User") (RList [Some 100]) [(s "next", FieldOf (TList (TNamed 102)) [])] true);
      (102, DObject (s "Query") RNone [(s "u", FieldOf (TNamed 101) [])] true) ]
    (Some 102) None None [] [])) = Err
  /\ new_schema (with_meta (Cfg
    [ (102, DObject (s "Query") RNone [(s "u", FieldOf (TNamed 1) [(s "a", ArgOf (TNonNull (TNonNull (TNamed 1))))])] true) ]
    (Some 102) None None [] [])) = Err.
Proof. split; vm_compute; reflexivity. Qed.

(* appending afterwards gives the view that supplying up front gives *)
Example C11_nonvacuous_append :
  match new_schema (Cfg (c_defs ex_cfg) (Some 102) None None [] []) with
  | OK sch => match append_types sch [TNamed 101], new_schema ex_cfg with
              | OK a, OK b => forallb (fun e => memN (snd e) (map snd (s_tm b))) (s_tm a)
                              && forallb (fun e => memN (snd e) (map snd (s_tm a))) (s_tm b)
                              && negb (memN 101 (map snd (s_tm sch)))
              | _, _ => false
              end
  | _ => false
  end = true.
Proof. vm_compute. reflexivity. Qed.

(* the out-of-fuel result exists in the model: too little fuel does run out (and one unit per definition is enough) *)
Example C11_nonvacuous_fuel :
  new_schema_fuel 2 ex_cfg = OutOfFuel /\ (exists sch, new_schema_fuel (List.length (c_defs ex_cfg)) ex_cfg = OK sch).
Proof.
  split; [vm_compute; reflexivity|].
  (* evaluating to a boolean first keeps the schema's normal form out of the proof term *)
  assert (A : match new_schema_fuel (List.length (c_defs ex_cfg)) ex_cfg with OK _ => true | _ => false end = true)
    by (vm_compute; reflexivity).
  destruct (new_schema_fuel (List.length (c_defs ex_cfg)) ex_cfg) as [sch| |]; [exists sch; reflexivity|discriminate A..].
Qed.

(* both sides of the agreement occur: a conforming implementer appended afterwards is accepted both
   ways, a non-conforming one ([User2.next] is not a subtype of [Node.next]) is rejected both ways *)
Example C11_nonvacuous_agrees :
  let base := Cfg (c_defs ex_cfg ++ [(103, DObject (s "User2") (RList [Some 100]) [(s "id", FieldOf (TNonNull (TNamed 5)) []); (s "next", FieldOf (TNamed 1) [])] true)])
                  (Some 102) None None [] [] in
  (exists a b, new_schema (with_types base [TNamed 101]) = OK a /\ match new_schema base with OK s0 => append_types s0 [TNamed 101] = OK b | _ => False end)
  /\ new_schema (with_types base [TNamed 101; TNamed 103]) = Err
  /\ match new_schema base with OK s0 => append_types s0 [TNamed 101; TNamed 103] = Err | _ => False end.
Proof.
  intro base.
  assert (A : match new_schema (with_types base [TNamed 101]) with OK _ => true | _ => false end = true) by (vm_compute; reflexivity).
  assert (E : new_schema (with_types base [TNamed 101; TNamed 103]) = Err) by (vm_compute; reflexivity).
  destruct (new_schema (with_types base [TNamed 101])) as [a| |] eqn:EA; [clear A; rename EA into A|discriminate A..]. destruct (proj1 (proj1 (C11_append_agrees_with_upfront base [TNamed 101])) (ex_intro _ a A)) as (s0 & b & E0 & E1).
  rewrite E0. split; [exists a, b; split; [reflexivity|exact E1]|]. split; [exact E|].
  destruct (proj1 (C11_append_agrees_on_failure base _) E) as [X|(s1 & X & Y)]; rewrite E0 in X; [discriminate|].
  inversion X; subst. exact Y.
Qed.

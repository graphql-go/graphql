(* Property C12 -- the same request always produces the same response.
   Statements only; proofs live in Proofs/ExtDetProofs.v and, for C12_independent_of_plan_reuse, Proofs/PlanExecProofs.v.

   The theorem side covers independence from hash-map iteration order: every
   place where the library ranges over a Go map while building visible output
   is modelled (Ext/Determinism.v) as a function of an order oracle; after the
   fixes each site sorts what it collected, and the theorems say that the
   output is then the same for every two oracles.  Independence from the
   request history and from plan caching, and byte-identity of the whole
   response, are checked on the implementation itself (harness/c12.go). *)
From Coq Require Import List NArith Bool Permutation Sorted.
From GQL Require Import Ext.Determinism Ext.History Proofs.ExtDetProofs.
Import ListNotations.
Open Scope N_scope.

(* Sorting a permutation gives the same list: for ANY sorting function that
   returns a sorted permutation of its input (stable or not), under an order
   in which different elements are never tied. *)
Theorem C12_sort_of_permutation :
  forall (A : Type) (le : A -> A -> Prop),
    (forall a b, le a b -> le b a -> a = b) ->
    forall srt : list A -> list A,
      (forall l, StronglySorted le (srt l)) -> (forall l, Permutation (srt l) l) ->
      forall l1 l2, Permutation l1 l2 -> srt l1 = srt l2.
Proof. exact sort_of_permutation. Qed.
Print Assumptions C12_sort_of_permutation.

(* Sites "collect the keys of a map, sort.Strings, emit per key" (introspection
   types/fields/inputFields/possibleTypes, argument and enum value order,
   per-field messages of invalid input objects, forcing of deferred values):
   the output does not depend on the order oracle. *)
Theorem C12_order_independent :
  forall (K V O : Type) (leb : K -> K -> bool),
    (forall a b, leb a b = true \/ leb b a = true) ->
    (forall a b c, leb a b = true -> leb b c = true -> leb a c = true) ->
    (forall a b, leb a b = true -> leb b a = true -> a = b) ->
    forall (f : K -> list O) (o1 o2 : oracle K V) (m : gomap K V),
      is_oracle K V o1 -> is_oracle K V o2 ->
      site_by_name K V O leb f o1 m = site_by_name K V O leb f o2 m.
Proof. exact site_by_name_independent. Qed.
Print Assumptions C12_order_independent.

(* did-you-mean lists: (distance, name) is a total order without ties between
   different names, so the suggestion list does not depend on the oracle,
   whatever the distance function and threshold are. *)
Theorem C12_suggestion_sort :
  forall (K V : Type) (leb : K -> K -> bool),
    (forall a b, leb a b = true \/ leb b a = true) ->
    (forall a b c, leb a b = true -> leb b c = true -> leb a c = true) ->
    (forall a b, leb a b = true -> leb b a = true -> a = b) ->
    (forall a b, lex_leb K leb a b = true -> lex_leb K leb b a = true -> a = b) /\
    forall (dist : K -> K -> N) (keep : K -> K -> N -> bool) (input : K) (o1 o2 : oracle K V) (m : gomap K V),
      is_oracle K V o1 -> is_oracle K V o2 ->
      site_suggestions K V leb dist keep input o1 m = site_suggestions K V leb dist keep input o2 m.
Proof.
  intros K V leb T Tr An. split.
  - apply lex_antisym. exact An.
  - intros dist keep. apply site_suggestions_independent; assumption.
Qed.
Print Assumptions C12_suggestion_sort.

(* the instance the code uses: names are byte strings compared as sort.Strings does *)
Theorem C12_order_independent_strings :
  forall (V O : Type) (f : list N -> list O) (o1 o2 : oracle (list N) V) (m : gomap (list N) V),
    is_oracle (list N) V o1 -> is_oracle (list N) V o2 ->
    site_by_name (list N) V O bytes_leb f o1 m = site_by_name (list N) V O bytes_leb f o2 m.
Proof.
  intros V O. apply site_by_name_independent.
  - exact bytes_leb_total.
  - exact bytes_leb_trans.
  - exact bytes_leb_antisym.
Qed.
Print Assumptions C12_order_independent_strings.

(* History independence.  On the machine of Ext/History.v -- persisted slots
   (lazily built type tables, cached plans and their lazily planned parts)
   that a request can only read, an empty slot being initialised on the way
   with a value determined by the schema and the slot's key; hit / miss
   counters; evictions and cache resets between requests -- the response to a
   request after ANY history of requests, evictions and resets equals the
   response to it on the fresh state.  For all request programs, all
   initialisation functions, all histories. *)
Theorem C12_history_independent :
  forall (val resp : Type) (init : N -> val) (h : list (op val resp)) (p : prog val resp),
    fst (exec val resp init p (run val resp init h)) = fst (exec val resp init p (empty val)).
Proof. exact history_independent. Qed.
Print Assumptions C12_history_independent.

(* The same from any state whose filled slots hold what their initialisation
   gives (the invariant behind the theorem; this is the hypothesis a slot of
   the code has to meet). *)
Theorem C12_history_independent_from :
  forall (val resp : Type) (init : N -> val) (st : state val) (h : list (op val resp)) (p : prog val resp),
    wf val init st ->
    fst (exec val resp init p (run_from val resp init st h)) = answer val resp init p.
Proof. exact history_independent_from. Qed.
Print Assumptions C12_history_independent_from.

(* Non-vacuity: the invariant is needed.  A slot that holds something else than
   its initialisation gives (e.g. a plan's pre-coerced argument map that an
   earlier resolver modified) changes the response. *)
Example C12_history_needs_idempotent_slots :
  let init := fun _ : N => 1 in
  let p := Read N N 0 (fun v => Answer N N v) in
  let dirty := mkState N (fun _ => Some 2) 0 0 in
  fst (exec N N init p dirty) <> fst (exec N N init p (empty N)) /\
  fst (exec N N init p (run N N init [Request N N p; Evict N N 0; Request N N p; Reset N N])) = 1.
Proof. split; [discriminate | reflexivity]. Qed.

(* Non-vacuity: the oracles matter for a site that does not sort (the code
   before the fixes): reversing the iteration order changes its output. *)
Definition unsorted_site (o : oracle N N) (m : gomap N N) : list N := map fst (o m).
Example C12_unsorted_site_depends_on_oracle :
  is_oracle N N (fun m => m) /\ is_oracle N N (@rev (N * N)) /\
  unsorted_site (fun m => m) [(1, 0); (2, 0)] <> unsorted_site (@rev (N * N)) [(1, 0); (2, 0)] /\
  site_by_name N N N N.leb (fun k => [k]) (fun m => m) [(2, 0); (1, 0)] =
  site_by_name N N N N.leb (fun k => [k]) (@rev (N * N)) [(2, 0); (1, 0)].
Proof.
  split; [intros m; apply Permutation_refl|].
  split; [intros m; apply Permutation_sym, Permutation_rev|].
  split; [discriminate | reflexivity].
Qed.

(* ---- independence from plan caching, on the executor model (Exec/PlanExec.v; proofs in
   Proofs/PlanExecProofs.v): executing one prepared plan for the n-th time -- whatever was
   executed with it before: other variables, other roots, other resolver behaviour -- returns what
   a fresh, unplanned execution of the same request returns; in particular the same request
   served n times from one cached plan yields n identical responses (data, errors with paths and
   locations, resolver calls).  The executor model is a function of the request, so "the same
   request" has one response by construction; this theorem adds that reuse of a plan does not
   leak anything from one execution into the next. *)
From GQL Require Import Exec.Syntax Exec.Coerce Exec.Exec Exec.Request Exec.PlanExec Proofs.PlanExecProofs.
Theorem C12_independent_of_plan_reuse : forall pf S D opname pp,
  plan_query pf S D opname = Planned pp ->
  forall ef (before : list run) x n,
    run_plan pf ef S D pp x <> RFuel ->
    Forall (fun y => run_plan pf ef S D pp y <> RFuel) before ->
    map (run_plan pf ef S D pp) (before ++ repeat x n)
    = map (run_fresh (ef + pf) S D opname) before ++ repeat (run_fresh (ef + pf) S D opname x) n.
Proof.
  intros pf S D opname pp Hp ef before x n Hx Hb.
  rewrite (plan_reuse pf S D opname pp Hp ef (before ++ repeat x n)).
  - rewrite map_app. f_equal. clear. induction n as [|n IH]; cbn; [reflexivity|f_equal; exact IH].
  - apply Forall_app. split; [exact Hb|]. clear -Hx. induction n as [|n IH]; cbn; constructor; assumption.
Qed.
Print Assumptions C12_independent_of_plan_reuse.

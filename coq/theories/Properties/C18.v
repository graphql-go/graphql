(* Property C18 -- error locations point at the offending position. *)
From Coq Require Import List NArith ZArith.
From GQL Require Import Base.Bytes Lang.Location Proofs.LocationProofs.
From GQL Require Import Exec.Syntax Exec.Exec Proofs.ExecInv.
Import ListNotations.
Open Scope N_scope.

(* The location arithmetic as written in the code (regexp match list + scan)
   is the single-pass line/column function, for every body and position. *)
Theorem C18_location : forall s position, get_location s position = spec_location s position.
Proof. exact location_model_is_spec. Qed.
Print Assumptions C18_location.

(* LF, CRLF and bare CR each end exactly one line. *)
Theorem C18_lf : forall p r k,
  (forall c, In c p -> is_term c = false) ->
  (forall j c, nth_error r j = Some c -> N.of_nat j < k -> is_term c = false) ->
  spec_location (p ++ 10 :: r) (nlen p + 1 + k) = (2, (Z.of_N k + 1)%Z).
Proof. exact spec_after_lf. Qed.
Print Assumptions C18_lf.

Theorem C18_crlf : forall p r k,
  (forall c, In c p -> is_term c = false) ->
  (forall j c, nth_error r j = Some c -> N.of_nat j < k -> is_term c = false) ->
  spec_location (p ++ 13 :: 10 :: r) (nlen p + 2 + k) = (2, (Z.of_N k + 1)%Z).
Proof. exact spec_after_crlf. Qed.
Print Assumptions C18_crlf.

Theorem C18_cr : forall p d r k,
  (forall c, In c p -> is_term c = false) ->
  is_term d = false ->
  (forall j c, nth_error (d :: r) j = Some c -> N.of_nat j < k -> is_term c = false) ->
  spec_location (p ++ 13 :: d :: r) (nlen p + 1 + k) = (2, (Z.of_N k + 1)%Z).
Proof. exact spec_after_cr. Qed.
Print Assumptions C18_cr.

(* Field errors: every error recorded (or raised) while the field with response key k of an object
   at path p executes -- whatever its resolvers return, at every depth, inside lists and under
   aliases -- carries a path that extends p ++ [k] by the keys and indices leading to the failure. *)
Theorem C18_error_paths_under_field : forall fuel E obj src k occs p s,
  match exec_field fuel (complete fuel E) (dethunk fuel E) E obj src k occs p s with
  | XOk _ s' => exists es, st_errs s' = st_errs s ++ es /\
                            Forall (fun e => prefix (p ++ [PKey k]) (e_path e)) es
  | XRaise e s' => (exists es, st_errs s' = st_errs s ++ es /\
                               Forall (fun e => prefix (p ++ [PKey k]) (e_path e)) es)
                   /\ prefix (p ++ [PKey k]) (e_path e)
  | XFuel => True
  end.
Proof.
  intros fuel E obj src k occs p s.
  pose proof (proj1 (exec_field_inv fuel E obj src k occs p s)) as H.
  destruct (exec_field fuel _ _ E obj src k occs p s) as [y s'|e s'|]; cbn in H; auto.
  - destruct H as [[_ He] _]. exact He.
  - destruct H as [[_ He] Hp]. split; assumption.
Qed.
Print Assumptions C18_error_paths_under_field.

Example C18_nonvacuous :
  get_location [123;32;97;32;125;13;10;32;32;37] 9 = (2, 3%Z) /\
  loc_ok [123;32;97;32;125;13;10;32;32;37] 9 2 3 = true.
Proof. split; reflexivity. Qed.

(* Field errors, whole request: every path attached to an error of a completed request that
   returned data addresses a null of that data -- walking the data along the path, a null is met
   at the path's end or at one of its prefixes (the nearest nullable ancestor the failure
   propagated to).  [paths_ok] is the executable predicate the runner evaluates on the
   implementation's response (Run/ExecRun.v). *)
From GQL Require Import Exec.Request Run.ExecRun Proofs.ExecPaths.
Theorem C18_error_paths_address_null : forall fuel S D opn inputs root or tor d s,
  request fuel S D opn inputs root or tor = RDone (Some d) s -> paths_ok (Some d) (st_errs s) = true.
Proof. exact request_error_paths_null. Qed.
Print Assumptions C18_error_paths_address_null.

(* ---------------------------------------------------------------------------------------------
   Syntax errors: "the location falls within the first token (or malformed lexeme) at which the
   text stops being the beginning of any valid document".

   Model: SynErr/LexErr.v (where lexer.go reports a lexical error), SynErr/ParseErr.v (where
   parser.go's expect / expectKeyWord / unexpected report: the start of the token the parser is
   looking at; lazy lexing decides between the two), on top of the C03 models of lexer and parser
   (Syntax/Lexer.v, Syntax/Parser.v), whose definitions are untouched.  [parse_err src] is the byte
   offset parser.Parse reports; [parse_err_ext] adds the extent of the offending token / lexeme.
   --------------------------------------------------------------------------------------------- *)
From GQL Require Import Syntax.Lexer Syntax.Parser SynErr.LexErr SynErr.ParseErr SynErr.Viable.
From GQL Require Import Proofs.SynErrWB Proofs.SynErrErase Proofs.SynErrMain Proofs.SynErrViable.

(* The position model rejects exactly what the parser model (C03: sound and complete for the
   grammar) rejects; it reports a position for every rejected source and for no other. *)
Theorem C18_syntax_error_iff : forall src, parse src = Err <-> exists off, parse_err src = Some off.
Proof. exact parse_err_iff. Qed.
Print Assumptions C18_syntax_error_iff.

Theorem C18_syntax_error_none_iff : forall src, parse_err src = None <-> exists d, parse src = Ok d.
Proof. exact parse_err_none_iff. Qed.
Print Assumptions C18_syntax_error_none_iff.

(* Function by function, for every fuel and parser state, the recogniser that carries positions
   succeeds / fails / runs out of fuel exactly when the parser model does (here: whole documents). *)
Theorem C18_recogniser_is_parser : forall fuel ts,
  strip_doc (parse_document fuel ts) = eraseE (parse_documentE fuel ts).
Proof. exact Er_parse_document. Qed.
Print Assumptions C18_recogniser_is_parser.

(* (a) The reported offset is the start of a token of the input (possibly its EOF token, i.e.
   the end of the text after ignored characters), or -- when the lexer reports -- the lexer's
   position, with the malformed lexeme's first byte as the lower end of the extent. *)
Theorem C18_syntax_error_at_token_start : forall src off lo hi, parse_err_ext src = Some (off, lo, hi) ->
  (exists u t r, tokens_of src = u ++ t :: r /\ off = tstart t /\ lo = tstart t /\ hi = N.max (tstart t) (tend t - 1)) \/
  (exists s, snd (lexE src) = LBad s off /\ lo = s /\ hi = off).
Proof.
  intros src off lo hi H.
  destruct (parse_err_position _ _ _ _ H) as [(u & t & r & E & X & _)|(s & S & A & B & _)]; [left|right; eauto].
  exists u, t, r. unfold tok_ext in X. inversion X; subst. auto.
Qed.
Print Assumptions C18_syntax_error_at_token_start.

(* (b) "... at which the text stops being the beginning of any valid document", second half:
   when the parser reports token t after the tokens u, no source whose token stream begins with
   u ++ [t] parses -- the verdict depends on the tokens up to and including the reported one only
   (one-token lookahead, proved for every production) -- and the tokens u never make the parser
   stop, whatever follows them: every one of them was accepted by a production.  When the lexer
   reports, the parser had accepted every token in front of the malformed lexeme in this sense. *)
Theorem C18_syntax_error_no_extension : forall src off lo hi, parse_err_ext src = Some (off, lo, hi) ->
  (exists u t r, tokens_of src = u ++ t :: r /\ (off, lo, hi) = tok_ext t /\
     (forall src' rest' mb', lex src' = Ok (u ++ t :: rest', mb') -> parse src' = Err) /\
     (forall rest' r', parse_tokensE (u ++ rest') = ErrE r' -> (length r' <= length rest')%nat)) \/
  (exists s, snd (lexE src) = LBad s off /\ lo = s /\ hi = off /\
     (forall rest' r', parse_tokensE (tokens_of src ++ rest') = ErrE r' -> (length r' <= length rest')%nat)).
Proof. exact parse_err_position. Qed.
Print Assumptions C18_syntax_error_no_extension.

(* The same on token lists: a failure at token t is a failure at t whatever follows t. *)
Theorem C18_syntax_error_prefix_consumed : forall u t rest, parse_tokensE (u ++ t :: rest) = ErrE (t :: rest) ->
  (forall rest', parse_tokensE (u ++ t :: rest') = ErrE (t :: rest') /\ parse_tokens (u ++ t :: rest') = Err) /\
  (forall rest' r, parse_tokensE (u ++ rest') = ErrE r -> (length r <= length rest')%nat).
Proof.
  intros u t rest H. split; [|exact (proj1 (proj2 (stop_facts _ _ _ H)))].
  intro rest'. pose proof (parse_tokensE_local _ _ _ H rest') as X. split; [exact X|].
  apply parse_tokens_err_iff. eauto.
Qed.
Print Assumptions C18_syntax_error_prefix_consumed.

(* Both halves, whole grammar, all inputs -- the clause itself.
   On token lists: when the recogniser of documents stops at token t having consumed the tokens u,
   then (a) u is the beginning of a derivable document (Syntax/Grammar.v Derives; a completion is
   constructed in the proof, production by production: Proofs/SynErrLang.v, SynErrViableAll.v,
   SynErrViableSDL.v) and (b) no derivable document begins with u followed by t. *)
From GQL Require Import Syntax.Grammar.
Theorem C18_token_first_nonviable : forall u t rest, parse_tokensE (u ++ t :: rest) = ErrE (t :: rest) ->
  (exists cont d, Derives (u ++ cont) d) /\ (forall q d, ~ Derives (u ++ t :: q) d).
Proof. exact token_first_nonviable. Qed.
Print Assumptions C18_token_first_nonviable.

(* On sources: for every source the model rejects, the tokens in front of the reported position
   are the beginning of a derivable document (also when the lexer reports: every token in front
   of the malformed lexeme); and when the parser reports, at the start of token t, no source
   whose token stream begins with those tokens followed by t lexes to a derivable document.
   [parse_report] is [parse_err_ext] together with the tokens in front (C18_report_is_parse_err). *)
Theorem C18_syntax_error_first_nonviable : forall src rp, parse_report src = Some rp ->
  (exists cont d, Derives (r_before rp ++ cont) d) /\
  (r_lexical rp = false ->
   exists t r, tokens_of src = r_before rp ++ t :: r /\ r_off rp = tstart t /\ parse_err src = Some (tstart t) /\
     forall src' rest' mb' d, lex src' = Ok (r_before rp ++ t :: rest', mb') -> ~ Derives (r_before rp ++ t :: rest') d).
Proof. exact report_first_nonviable. Qed.
Print Assumptions C18_syntax_error_first_nonviable.

Theorem C18_report_is_parse_err : forall src rp, parse_report src = Some rp ->
  parse_err_ext src = Some (r_off rp, r_lo rp, r_hi rp) /\
  (if r_lexical rp
   then r_before rp = tokens_of src /\ exists s, snd (lexE src) = LBad s (r_off rp)
   else exists t r, tokens_of src = r_before rp ++ t :: r /\ (r_off rp, r_lo rp, r_hi rp) = tok_ext t).
Proof. exact parse_report_spec. Qed.
Print Assumptions C18_report_is_parse_err.

(* Both halves, for all inputs, on the value and type sub-grammars (Syntax/Grammar.v DValue, DType):
   when the recogniser of Value[Const] / Type stops at token t having consumed u, then u is the
   beginning of a derivable value / type (a completion is constructed in the proof) and nothing
   derivable begins with u followed by t. *)
Theorem C18_value_viable_prefix_partial : forall fuel c u t rest,
  parse_valueE fuel c (u ++ t :: rest) = ErrE (t :: rest) ->
  (exists cont v, DValue c (u ++ cont) v) /\ (forall q v, ~ DValue c (u ++ t :: q) v).
Proof. exact value_viable_prefix. Qed.
Print Assumptions C18_value_viable_prefix_partial.

Theorem C18_type_viable_prefix_partial : forall fuel u t rest,
  parse_typeE fuel (u ++ t :: rest) = ErrE (t :: rest) ->
  (exists cont ty, DType (u ++ cont) ty) /\ (forall q ty, ~ DType (u ++ t :: q) ty).
Proof. exact type_viable_prefix. Qed.
Print Assumptions C18_type_viable_prefix_partial.

(* The first half for the executable definitions: whatever the recogniser of an operation, a
   fragment definition or a selection set (with fields, aliases, arguments, directives, fragment
   spreads, inline fragments, variable definitions, nested to any depth) had consumed when it
   stopped at token t begins a derivable one -- the completion is constructed in the proof
   (Proofs/SynErrLang.v: languages of the recogniser's combinators; Proofs/SynErrViableAll.v).
   (Subsumed at document level by C18_token_first_nonviable; kept as the statement about the
   relations DOperation / DFragment / DSelSet themselves.) *)
From GQL Require Import Proofs.SynErrLang Proofs.SynErrViableAll.
Theorem C18_executable_viable_prefix_partial : forall f,
  (forall u t rest, parse_operationE f (u ++ t :: rest) = ErrE (t :: rest) -> exists cont o, DOperation (u ++ cont) o) /\
  (forall u t rest, parse_fragment_definitionE f (u ++ t :: rest) = ErrE (t :: rest) -> exists cont d, DFragment (u ++ cont) d) /\
  (forall u t rest, parse_selsetE f (u ++ t :: rest) = ErrE (t :: rest) -> exists cont ss, DSelSet (u ++ cont) ss).
Proof. exact executable_viable_prefix. Qed.
Print Assumptions C18_executable_viable_prefix_partial.

From Coq Require Import String.
(* non-vacuity: a parser report, a lexer report, a required non-empty list, and a witness *)
Example C18_syntax_nonvacuous :
  parse_err_ext (of_string "{ a(x: 1) }}"%string) = Some (11, 11, 11) /\
  parse_err_ext (of_string "{ a(x: ""ab"%string) = Some (10, 7, 10) /\
  parse_err_ext (of_string "{ }"%string) = Some (2, 2, 2) /\
  match parse_report (of_string "query Q("%string) with
  | Some rp => andb (negb (r_lexical rp)) (match viable_witness (r_before rp) with Some _ => true | None => false end)
  | None => false
  end = true.
Proof. split; [|split; [|split]]; vm_compute; reflexivity. Qed.

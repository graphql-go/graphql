(* Property C17 -- extension hooks are balanced, ordered and fault-isolated.
   Statements only; proofs live in Proofs/ExtProofs.v and Proofs/ExtOutcome.v.

   do_model (Ext/ExtensionsModel.v) is graphql.Do's extension pipeline: its
   inputs are the outcome class of the request (syntax error, validation
   error, operation error, variable error, executed fields with their resolver
   outcomes), the list of extensions and, for every hook of every extension,
   what it does (returns, returns a nil finish function, panics with an error /
   string / other value).  Every theorem below quantifies over all of them. *)
From Coq Require Import List NArith Bool.
From GQL Require Import Ext.ExtensionsModel Ext.ExtensionsSpec Proofs.ExtProofs Proofs.ExtOutcome.
Import ListNotations.
Open Scope N_scope.

(* Every phase an extension started (its ...DidStart hook handed back a finish
   function) is finished exactly once; nothing else is finished; no phase is
   started twice. *)
Theorem C17_balanced : forall c exts, balanced (result_log (do_model c exts)).
Proof. exact model_balanced. Qed.
Print Assumptions C17_balanced.

(* The phases of one extension are well bracketed: a finish function always
   closes the innermost open phase of that extension, and none stays open. *)
Theorem C17_nested : forall c exts e, nested_ext e (result_log (do_model c exts)) = true.
Proof. exact model_nested. Qed.
Print Assumptions C17_nested.

(* Each extension sees init, parse, validation, execution start, the resolve
   notifications in field order, execution finish, HasResult, GetResult in this
   order, each at most once; and once an event failed the request (see
   fails_request) no event of a later phase occurs anywhere in the log. *)
Theorem C17_order : forall c exts,
  (forall e, ordered_ext e (result_log (do_model c exts)) = true) /\
  stopsb (result_log (do_model c exts)) = true.
Proof. intros c exts. split; [intros e; apply model_ordered | apply model_stops]. Qed.
Print Assumptions C17_order.

(* No panic of any hook, with any panic value, escapes Do. *)
Theorem C17_isolated_no_crash : forall c exts log, do_model c exts <> Crash log.
Proof. exact do_model_never_crashes. Qed.
Print Assumptions C17_isolated_no_crash.

(* Fault isolation: whatever the hooks of the extensions do, Do returns a
   result, the result carries at least one error per failed hook invocation,
   and all started phases of all extensions are finished (balanced). *)
Theorem C17_isolated : forall c exts,
  exists log n keys,
    do_model c exts = Done log n keys /\ reportedb log n = true /\ balanced log.
Proof.
  intros c exts. destruct (do_model c exts) as [l|l n keys] eqn:E.
  - exfalso. exact (do_model_never_crashes c exts l E).
  - exists l, n, keys. split; [reflexivity|]. split; [exact (model_reported c exts l n keys E)|].
    pose proof (model_balanced c exts) as B. rewrite E in B. exact B.
Qed.
Print Assumptions C17_isolated.

(* Every finish function receives the outcome of its phase (outcome_ok):
   - parse: an error iff the document does not parse or a ParseDidStart hook
     failed;
   - validation: the validation errors of the document (their number), or the
     errors of the failed ValidationDidStart hooks;
   - execution: the result, carrying one error per hook failure so far plus the
     request's own errors (failed resolver calls, deferred values that failed);
   - resolve: the k-th notification is given the value / error of the k-th
     resolver call in execution order (which field, failed or not: rout). *)
Theorem C17_finish_outcome : forall c exts, outcomesb c (result_log (do_model c exts)) = true.
Proof. exact model_outcomes. Qed.
Print Assumptions C17_finish_outcome.

(* The executable Spec the runner applies to the implementation's run accepts
   every run of the model: a code-2 verdict is never an artefact of the
   checkers, and implementation = model implies the Spec holds. *)
Theorem C17_spec_accepts_model : forall c exts log n keys,
  do_model c exts = Done log n keys -> spec_ok c log n = true.
Proof.
  intros c exts log n keys E. unfold spec_ok.
  destruct (model_checks_per_ext c exts) as [A [B C]].
  pose proof (model_stops c exts) as D. pose proof (model_outcomes c exts) as O.
  rewrite E in A, B, C, D, O. cbn [result_log] in A, B, C, D, O.
  rewrite A, B, C, D, O, (model_reported c exts log n keys E). reflexivity.
Qed.
Print Assumptions C17_spec_accepts_model.

(* Non-vacuity: two extensions; the second one's ValidationDidStart panics
   with an int, the first one's started validation phase is still finished
   (with the failure as outcome), execution never starts, one error. *)
Example C17_nonvacuous :
  do_model (CExec false [Node 0 false ROk TNow []])
    [mkExt 1 BOk (SFn BOk) (SFn BOk) (SFn BOk) [] HTrue BOk;
     mkExt 2 BOk (SFn BOk) (SPanic PVInt) (SFn BOk) [] HTrue BOk] =
  Done [EInit 0 true; EInit 1 true;
        EStart 0 PParse SROk; EStart 1 PParse SROk; EFinish 0 PParse 0 true; EFinish 1 PParse 0 true;
        EStart 0 PValid SROk; EStart 1 PValid SRFail; EFinish 0 PValid 1 true] 1 [].
Proof. reflexivity. Qed.

(* Non-vacuity of the execution order: query { a: f0 (deferred) { b } c }:
   a's notification is finished when its resolver returns, c runs next, b runs
   when a's value is forced; every finish is told its own field (2*id). *)
Example C17_deferred_order :
  do_model (CExec false [Node 0 false ROk TLater [Node 1 false ROk TNow []]; Node 2 false ROk TNow []])
    [mkExt 1 BOk (SFn BOk) (SFn BOk) (SFn BOk) [] HFalse BOk] =
  Done [EInit 0 true; EStart 0 PParse SROk; EFinish 0 PParse 0 true;
        EStart 0 PValid SROk; EFinish 0 PValid 0 true; EStart 0 PExec SROk;
        EStart 0 (PResolve 0) SROk; EFinish 0 (PResolve 0) 0 true;
        EStart 0 (PResolve 1) SROk; EFinish 0 (PResolve 1) 4 true;
        EStart 0 (PResolve 2) SROk; EFinish 0 (PResolve 2) 2 true;
        EFinish 0 PExec 0 true; EHas 0 HRFalse] 0 [].
Proof. reflexivity. Qed.

(* the predicates do reject: an unfinished phase, a crossed pair, a late start *)
Example C17_spec_rejects :
  balancedb [EStart 0 PParse SROk] = false /\
  nestedb [EStart 0 PExec SROk; EStart 0 (PResolve 0) SROk; EFinish 0 PExec 0 true; EFinish 0 (PResolve 0) 0 true] = false /\
  orderedb [EStart 0 PValid SROk; EFinish 0 PValid 0 true; EStart 0 PParse SROk; EFinish 0 PParse 0 true] = false /\
  stopsb [EStart 0 PParse SRFail; EStart 0 PValid SROk; EFinish 0 PValid 0 true] = false /\
  reportedb [EInit 0 false] 0 = false /\
  outcomesb CSyntax [EStart 0 PParse SROk; EFinish 0 PParse 0 true] = false.
Proof. repeat split; reflexivity. Qed.

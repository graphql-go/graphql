(* Property C05 -- variables and arguments are coerced per declared type before resolvers run.
   The lemmas they rest on are in Proofs/CoerceProofs.v and Proofs/ArgProofs.v.
   SC / SL / NC (Exec/CoerceSpec.v) are the specification: conformant JSON-like values and
   constant literals with the value they coerce to, and the listed non-conformant values.
   valid_input / coerce_value / value_from_ast / get_variable_values (Exec/Coerce.v) model
   isValidInputValue / coerceValue / valueFromAST / getVariableValues of values.go. *)
From Coq Require Import List ZArith String.
From GQL Require Import Exec.Syntax Exec.Coerce Exec.CoerceSpec Exec.Exec Exec.Request
     Proofs.CoerceProofs.
From GQL Require Proofs.ArgProofs.
Import ListNotations.
Open Scope string_scope.

(* every listed non-conformant value is refused by the validity test, whatever the fuel *)
Theorem C05_nonconformant_rejected : forall S t v, NC S t v ->
  forall fuel b, valid_input fuel S t v = Some b -> b = false.
Proof. exact nonconformant_rejected. Qed.
Print Assumptions C05_nonconformant_rejected.

(* and the request is then answered with an error, no data, and no resolver is invoked
   (RReject carries neither data nor a resolver trace) *)
Theorem C05_bad_variable_rejects_request : forall S D opn op inputs d,
  get_operation D opn = Some op -> In d (o_vars op) ->
  NC S (v_type d) (jlookup (v_name d) inputs) ->
  forall fuel root or tor,
    request fuel S D opn inputs root or tor = RReject \/ request fuel S D opn inputs root or tor = RFuel.
Proof.
  intros S D opn op inputs d Hop Hin Hnc fuel root or tor. unfold request. rewrite Hop.
  destruct (root_type S op); [|left; reflexivity].
  destruct (get_variable_values fuel S (o_vars op) inputs) as [r|] eqn:E; [|right; reflexivity].
  destruct (ArgProofs.gvv_reject _ _ _ _ Hin Hnc _ _ E) as [nm ->]. left. reflexivity.
Qed.
Print Assumptions C05_bad_variable_rejects_request.

(* conformant values are accepted ... *)
Theorem C05_conformant_accepted : forall S t v r, SC S t v r ->
  forall fuel b, valid_input fuel S t v = Some b -> b = true.
Proof. intros S. apply (proj1 (conformant_valid_all S)). Qed.
Print Assumptions C05_conformant_accepted.

(* ... and coerce to exactly what the specification's input coercion yields (list-of-one
   wrapping, nested input objects, enum internal values, input-field defaults, custom scalar) *)
Theorem C05_coerce_correct : forall S t v r, SC S t v r ->
  forall fuel r', coerce_value fuel S t v = Some r' -> r' = r.
Proof. intros S. apply (proj1 (coerce_correct_all S)). Qed.
Print Assumptions C05_coerce_correct.

(* the same for constant literals *)
Theorem C05_literal_correct : forall S t l r, SL S t l r ->
  forall fuel vars r', value_from_ast fuel S t l vars = Some r' -> r' = r.
Proof.
  intros S t l r H fuel vars. apply literal_vars_correct, SL_SLv_all. exact H.
Qed.
Print Assumptions C05_literal_correct.

(* supplying a type-conformant value as an inline literal or through a variable gives
   resolvers the same argument *)
Theorem C05_literal_variable_agree : forall S t l r, SL S t (Some l) r ->
  forall fuel1 fuel2 vars r1 r2,
    value_from_ast fuel1 S t (Some l) vars = Some r1 ->
    coerce_value fuel2 S t (json_of l) = Some r2 ->
    r1 = r2 /\ r1 = r.
Proof.
  intros S t l r H fuel1 fuel2 vars r1 r2 H1 H2.
  assert (E1 := C05_literal_correct _ _ _ _ H _ _ _ H1).
  assert (Hsc := proj1 (literal_json_agree_all S) _ _ _ H). cbn [ojson] in Hsc.
  assert (E2 := C05_coerce_correct _ _ _ _ Hsc _ _ H2).
  subst. split; reflexivity.
Qed.
Print Assumptions C05_literal_variable_agree.

(* ---- non-vacuity: a schema with an enum and a nested input object; conformant and
        non-conformant values exist and the model evaluates on them ---- *)
Definition S0 : schema := {|
  s_types := [("Int", TScalar SInt); ("E", TEnum [("A", JInt 1)]);
              ("In", TInputObject [{| a_name := "a"; a_type := TNamed "Int"; a_default := Some (JInt 7) |};
                                   {| a_name := "b"; a_type := TNonNull (TNamed "Int"); a_default := None |};
                                   {| a_name := "e"; a_type := TList (TNamed "E"); a_default := None |}]);
              ("Q", TObject [] [])];
  s_query := "Q"; s_mutation := None |}.

Example C05_conformant_exists :
  SC S0 (TNamed "In") (JObj [("b", JInt 1); ("e", JStr "A")])
     (JObj [("a", JInt 7); ("b", JInt 1); ("e", JList [JInt 1])]) /\
  coerce_value 10 S0 (TNamed "In") (JObj [("b", JInt 1); ("e", JStr "A")])
  = Some (JObj [("a", JInt 7); ("b", JInt 1); ("e", JList [JInt 1])]).
Proof.
  split; [|reflexivity].
  change (JObj [("a", JInt 7); ("b", JInt 1); ("e", JList [JInt 1])])
    with (JObj (keep_nonnull [("a", with_default (Some (JInt 7)) JNull); ("b", with_default None (JInt 1));
                              ("e", with_default None (JList [JInt 1]))])).
  eapply SC_obj; [reflexivity|reflexivity|].
  apply (SCF_cons S0 {| a_name := "a"; a_type := TNamed "Int"; a_default := Some (JInt 7) |}).
  { apply SC_null. reflexivity. }
  apply (SCF_cons S0 {| a_name := "b"; a_type := TNonNull (TNamed "Int"); a_default := None |}).
  { apply SC_nonnull; [discriminate|]. eapply SC_scalar; [reflexivity|]. apply sc_int. reflexivity. }
  apply (SCF_cons S0 {| a_name := "e"; a_type := TList (TNamed "E"); a_default := None |}).
  { apply SC_list1; [discriminate|discriminate|]. eapply SC_enum; [reflexivity|reflexivity|discriminate]. }
  apply SCF_nil.
Qed.

Example C05_nonconformant_exists :
  NC S0 (TNamed "In") (JObj [("e", JStr "A")]) /\            (* required field b missing *)
  valid_input 10 S0 (TNamed "In") (JObj [("e", JStr "A")]) = Some false /\
  NC S0 (TNamed "Int") (JInt 2147483648).
Proof.
  split; [|split; [reflexivity|]].
  - eapply (NC_field S0 "In" _ _ {| a_name := "b"; a_type := TNonNull (TNamed "Int"); a_default := None |});
      [reflexivity|right; left; reflexivity|]. apply NC_null.
  - eapply NC_int_range; reflexivity.
Qed.

(* ---- arguments and variable defaults (Proofs/ArgProofs.v) ----
   arg_spec S vars a l r: what the specification assigns to argument definition a when l was
   written for it: r = jlookup x vars (the coerced variable value) if l = Some (VVar x), else the
   literal coercion SL S (a_type a) l r (l = None: nothing written).
   with_default d r: r, or the default d when r is null; keep_nonnull drops null entries. *)
From GQL Require Import Proofs.ArgProofs.

(* getArgumentValues: resolvers receive exactly the map input coercion yields from the written
   literals / variables and the argument defaults *)
Theorem C05_arguments_correct : forall S vars defs args (r : argdef -> jv),
  (forall a, In a defs -> arg_spec S vars a (alookup (a_name a) args) (r a)) ->
  forall fuel m, get_argument_values fuel S defs args (Some vars) = Some m ->
    m = keep_nonnull (map (fun a => (a_name a, with_default (a_default a) (r a))) defs).
Proof.
  intros S vars defs args r Hs. apply (arguments_SLvF S (Some vars)), SLvF_map.
  intros a Ha. apply arg_spec_SLv, Hs, Ha.
Qed.
Print Assumptions C05_arguments_correct.

(* constant literals only, whatever the variable map *)
Theorem C05_arguments_from_literals : forall S defs args (r : argdef -> jv),
  (forall a, In a defs -> SL S (a_type a) (alookup (a_name a) args) (r a)) ->
  forall fuel vars m, get_argument_values fuel S defs args vars = Some m ->
    m = keep_nonnull (map (fun a => (a_name a, with_default (a_default a) (r a))) defs).
Proof.
  intros S defs args r Hs fuel vars. apply arguments_SLvF, SLvF_map.
  intros a Ha. apply SL_SLv_all, Hs, Ha.
Qed.
Print Assumptions C05_arguments_from_literals.

(* the arguments of a field are coerced exactly like the fields of an input-object literal *)
Theorem C05_arguments_SLF : forall S defs args kvs, SLF S defs args kvs ->
  forall fuel vars m, get_argument_values fuel S defs args vars = Some m -> m = keep_nonnull kvs.
Proof. intros S defs args kvs Hs fuel vars. apply arguments_SLvF, SL_SLv_all, Hs. Qed.
Print Assumptions C05_arguments_SLF.

(* per argument (distinct argument names): what the resolver finds under the argument's name *)
Theorem C05_argument_received : forall S vars defs args (r : argdef -> jv),
  NoDup (map a_name defs) ->
  (forall a, In a defs -> arg_spec S vars a (alookup (a_name a) args) (r a)) ->
  forall fuel m, get_argument_values fuel S defs args (Some vars) = Some m ->
  forall a, In a defs -> jlookup (a_name a) m = with_default (a_default a) (r a).
Proof.
  intros S vars defs args r Hn Hs fuel m H a Ha.
  rewrite (C05_arguments_correct S vars defs args r Hs fuel m H).
  rewrite jlookup_keep_nonnull by (rewrite map_map; exact Hn).
  apply (jlookup_map_defs (fun a0 => with_default (a_default a0) (r a0))); assumption.
Qed.
Print Assumptions C05_argument_received.

(* an argument written as $x receives the coerced value of x, or the argument default if that is null *)
Theorem C05_argument_variable_received : forall S vars defs args (r : argdef -> jv) a x,
  NoDup (map a_name defs) ->
  (forall a0, In a0 defs -> arg_spec S vars a0 (alookup (a_name a0) args) (r a0)) ->
  In a defs -> alookup (a_name a) args = Some (VVar x) ->
  forall fuel m, get_argument_values fuel S defs args (Some vars) = Some m ->
    jlookup (a_name a) m = with_default (a_default a) (jlookup x vars).
Proof.
  intros S vars defs args r a x Hn Hs Ha Hx fuel m H.
  set (r' := fun a0 => if String.eqb (a_name a0) (a_name a) then jlookup x vars else r a0).
  assert (Hs' : forall a0, In a0 defs -> arg_spec S vars a0 (alookup (a_name a0) args) (r' a0)).
  { intros a0 Ha0. unfold r'. destruct (String.eqb (a_name a0) (a_name a)) eqn:Ek; [|apply Hs; exact Ha0].
    apply String.eqb_eq in Ek. rewrite Ek, Hx. apply AS_var. }
  rewrite (C05_argument_received S vars defs args r' Hn Hs' fuel m H a Ha).
  unfold r'. rewrite String.eqb_refl. reflexivity.
Qed.
Print Assumptions C05_argument_variable_received.

(* a variable whose input is absent or null: the literal coercion of its default, or null *)
Theorem C05_variable_default : forall S d dv r, v_default d = Some dv -> SL S (v_type d) (Some dv) r ->
  forall fuel x, get_variable_value fuel S d JNull = Some (inl x) ->
    x = r /\ is_nonnull (v_type d) = false.
Proof.
  intros S d dv r Hd Hsl fuel x H. destruct (get_variable_value_null _ _ _ _ H) as [Hn Hx].
  rewrite Hd in Hx. split; [eapply C05_literal_correct; eassumption|exact Hn].
Qed.
Print Assumptions C05_variable_default.

Theorem C05_variable_no_default : forall S d, v_default d = None ->
  forall fuel x, get_variable_value fuel S d JNull = Some (inl x) ->
    x = JNull /\ is_nonnull (v_type d) = false.
Proof.
  intros S d Hd fuel x H. destruct (get_variable_value_null _ _ _ _ H) as [Hn Hx].
  rewrite Hd in Hx. split; assumption.
Qed.
Print Assumptions C05_variable_no_default.

(* the same in the variable map of a request (distinct variable names) *)
Theorem C05_variables_default : forall fuel S ds inputs vars d dv r,
  NoDup (map v_name ds) -> In d ds ->
  get_variable_values fuel S ds inputs = Some (inl vars) ->
  jlookup (v_name d) inputs = JNull ->
  v_default d = Some dv -> SL S (v_type d) (Some dv) r ->
  jlookup (v_name d) vars = r.
Proof.
  intros fuel S ds inputs vars d dv r Hn Hin H Hnull Hd Hsl.
  destruct (gvv_lookup fuel S ds inputs vars d Hn Hin H) as [x [X1 X2]].
  rewrite Hnull in X1. rewrite X2. exact (proj1 (C05_variable_default S d dv r Hd Hsl fuel x X1)).
Qed.
Print Assumptions C05_variables_default.

Theorem C05_variables_no_default : forall fuel S ds inputs vars d,
  NoDup (map v_name ds) -> In d ds ->
  get_variable_values fuel S ds inputs = Some (inl vars) ->
  jlookup (v_name d) inputs = JNull -> v_default d = None ->
  jlookup (v_name d) vars = JNull.
Proof.
  intros fuel S ds inputs vars d Hn Hin H Hnull Hd.
  destruct (gvv_lookup fuel S ds inputs vars d Hn Hin H) as [x [X1 X2]].
  rewrite Hnull in X1. rewrite X2. exact (proj1 (C05_variable_no_default S d Hd fuel x X1)).
Qed.
Print Assumptions C05_variables_no_default.

(* ---- literals that mention variables at any depth (Exec/CoerceSpec.v SLv; proofs in
   Proofs/CoerceProofs.v, Proofs/ArgProofs.v): a variable inside a list literal or an input-object literal stands
   for its coerced value, everything else is coerced as a constant literal (list-of-one wrapping,
   nested input objects with input-field defaults, enum internal values, custom scalars); the
   argument map a resolver receives is exactly the specified one.  Every statement above about
   literals and argument maps is an instance of these two; Proofs/CoerceVarsProofs.v has an example. *)
Theorem C05_literal_with_variables_correct : forall S vars t l r, SLv S vars t l r ->
  forall fuel r', value_from_ast fuel S t l (Some vars) = Some r' -> r' = r.
Proof. intros S vars. exact (literal_vars_correct S (Some vars)). Qed.
Print Assumptions C05_literal_with_variables_correct.

Theorem C05_arguments_with_variables : forall S vars defs args kvs, SLvF S vars defs args kvs ->
  forall fuel m, get_argument_values fuel S defs args (Some vars) = Some m -> m = keep_nonnull kvs.
Proof. intros S vars. exact (arguments_SLvF S (Some vars)). Qed.
Print Assumptions C05_arguments_with_variables.

(* constant literals are the special case: every SL derivation is an SLv derivation *)
Theorem C05_constant_literals_special_case : forall S vars t l r, SL S t l r -> SLv S vars t l r.
Proof. intros S vars. exact (proj1 (SL_SLv_all S vars)). Qed.
Print Assumptions C05_constant_literals_special_case.

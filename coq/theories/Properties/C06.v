(* Property C06 -- prepared plans and the plan cache are semantically
   transparent.  Statements; the proofs live in Proofs/Cache*.v, but for a
   few that take some lines from the lemmas there.

   Everything the cache does not compute itself is universally quantified:
   R (results), A (synthetic arguments), fresh (planning a request from
   scratch), ok, synth, the hash, and the eviction policy [victim], which is
   only required to name a retained key. *)
From Coq Require Import List NArith ZArith Bool.
From GQL Require Import Base.Bytes Cache.LRU Cache.CacheSpec Proofs.CacheProofs
     Run.C06run Cache.Normalize Proofs.CacheNormalizeProofs Proofs.CacheAdmProofs
     Cache.Prepared Cache.NormalizeHeap.
Import ListNotations.
Open Scope N_scope.

Definition victim_ok {R} (victim : list (entry R) -> bytes) : Prop :=
  forall es, es <> [] -> In (victim es) (map e_key es).

(* In every history of Get/Reset (schema replacement = Get under another schema
   id), under every configuration (nil cache, every MaxEntries including <= 0
   and 1, every MaxQueryBytes, Normalize on/off) and every eviction policy,
   each Get returns what planning that request from scratch returns, provided
   equal keys under one schema mean equal from-scratch results. *)
Theorem C06_refines_uncached :
  forall (R A : Type) hash (fresh : cfg -> req -> R) ok (synth : req -> A) no_synth victim,
    victim_ok victim ->
    forall c h, key_faithful hash fresh c ->
      map (@o_res R A) (snd (run hash fresh ok synth no_synth victim c h)) = map (fresh c) (gets h).
Proof. intros R A hash fresh ok synth no_synth victim HV c h KF. exact (refines_uncached hash fresh ok synth no_synth victim c h KF). Qed.
Print Assumptions C06_refines_uncached.

(* The key construction as coded -- decimal length of the operation name, ":",
   the operation name, then the rest -- is injective on (operation name, rest),
   on all byte strings. *)
Theorem C06_key_injective : forall op1 t1 op2 t2,
  lenprefix op1 t1 = lenprefix op2 t2 -> op1 = op2 /\ t1 = t2.
Proof. exact lenprefix_inj. Qed.
Print Assumptions C06_key_injective.

(* Equal cache keys mean equal operation name and equal canonical text (query
   text, or printed normalised document), given an injective hash whose output
   does not start with "raw:"; so any planner that is a function of (schema,
   operation name, canonical text) satisfies key_faithful. *)
Theorem C06_key_faithful :
  forall hash, (forall a b, hash a = hash b -> a = b) -> (forall a, firstn 4 (hash a) <> raw_tag) ->
  (forall c r1 r2 k, key hash c r1 = Some k -> key hash c r2 = Some k ->
                     rq_op r1 = rq_op r2 /\ canon c r1 = canon c r2) /\
  (forall (R : Type) (planner : N -> bytes -> ctext -> R) c,
      key_faithful hash (fun c r => planner (rq_schema r) (rq_op r) (canon c r)) c).
Proof.
  intros hash HI HR. split.
  - exact (key_determines hash HI HR).
  - exact (factored_fresh_faithful hash HI HR).
Qed.
Print Assumptions C06_key_faithful.

(* The two together: no hypothesis on keys is left. *)
Theorem C06_transparent :
  forall (R A : Type) hash (planner : N -> bytes -> ctext -> R) ok (synth : req -> A) no_synth victim,
    (forall a b, hash a = hash b -> a = b) -> (forall a, firstn 4 (hash a) <> raw_tag) ->
    victim_ok victim ->
    forall c h,
      let fresh := fun c r => planner (rq_schema r) (rq_op r) (canon c r) in
      map (@o_res R A) (snd (run hash fresh ok synth no_synth victim c h)) = map (fresh c) (gets h).
Proof.
  intros R A hash planner ok synth no_synth victim HI HR HV c h fresh.
  apply (refines_uncached hash fresh ok synth no_synth victim c h).
  apply (factored_fresh_faithful hash HI HR).
Qed.
Print Assumptions C06_transparent.

(* The cache never retains more entries than configured: in every reachable
   state, for every MaxEntries (the default when <= 0) and every policy. *)
Theorem C06_bound :
  forall (R A : Type) hash (fresh : cfg -> req -> R) ok (synth : req -> A) no_synth victim,
    victim_ok victim ->
    forall c h, nlen (entries (fst (run hash fresh ok synth no_synth victim c h))) <= eff_max c.
Proof. intros R A hash fresh ok synth no_synth victim HV c h. exact (bound_all_histories hash fresh ok synth no_synth victim HV c h). Qed.
Print Assumptions C06_bound.

(* and no key is retained twice *)
Theorem C06_keys_unique :
  forall (R A : Type) hash (fresh : cfg -> req -> R) ok (synth : req -> A) no_synth victim,
    forall c h, NoDup (map e_key (entries (fst (run hash fresh ok synth no_synth victim c h)))).
Proof. intros. apply nodup_all_histories. Qed.
Print Assumptions C06_keys_unique.

(* The counters count exactly the Gets answered from an entry / planned anew;
   a Get moves no counter exactly when the request bypasses the cache. *)
Theorem C06_hit_miss_counts :
  forall (R A : Type) hash (fresh : cfg -> req -> R) ok (synth : req -> A) no_synth victim c h,
    let res := run hash fresh ok synth no_synth victim c h in
    hits (fst res) = count is_hit (snd res) /\
    misses (fst res) = count is_miss (snd res) /\
    Forall2 (fun r o => o_hit o = None <-> key hash c r = None) (gets h) (snd res).
Proof. intros. apply counters_all_histories. Qed.
Print Assumptions C06_hit_miss_counts.

(* Reset drops every entry and keeps the counters; the next Get of a cacheable
   request is a miss that plans from scratch. *)
Theorem C06_reset :
  forall (R A : Type) hash (fresh : cfg -> req -> R) ok (synth : req -> A) no_synth victim c s r,
    entries (reset s) = [] /\ hits (reset s) = hits s /\ misses (reset s) = misses s /\
    o_res (snd (get hash fresh ok synth no_synth victim c (reset s) r)) = fresh c r /\
    (key hash c r <> None -> o_hit (snd (get hash fresh ok synth no_synth victim c (reset s) r)) = Some false).
Proof. intros. apply reset_then_get. Qed.
Print Assumptions C06_reset.

(* The literal values handed back by a Get are a function of that call's
   request and the configuration alone -- never of the history: with a plan they
   are own_synth c r, and in every case own_synth c r or none. *)
Theorem C06_own_literals :
  forall (R A : Type) hash (fresh : cfg -> req -> R) ok (synth : req -> A) no_synth victim c h,
    Forall2 (fun r o => (ok (o_res o) = true -> o_synth o = own_synth hash synth no_synth c r) /\
                        (o_synth o = own_synth hash synth no_synth c r \/ o_synth o = no_synth))
            (gets h) (snd (run hash fresh ok synth no_synth victim c h)).
Proof. intros. apply own_literals_all_histories. Qed.
Print Assumptions C06_own_literals.

(* The eviction order is not observable in the results. *)
Theorem C06_policy_independent :
  forall (R A : Type) hash (fresh : cfg -> req -> R) ok (synth : req -> A) no_synth v1 v2 c h,
    victim_ok v1 -> victim_ok v2 -> key_faithful hash fresh c ->
    map (@o_res R A) (snd (run hash fresh ok synth no_synth v1 c h)) =
    map (@o_res R A) (snd (run hash fresh ok synth no_synth v2 c h)).
Proof. intros R A hash fresh ok synth no_synth v1 v2 c h _ _. apply results_policy_independent. Qed.
Print Assumptions C06_policy_independent.

(* What the runner tolerates as eviction-order drift is exactly a step of the
   model under some policy: every Get of the model, from a state without
   duplicate keys (every reachable state, C06_keys_unique), under every policy
   naming a retained key, satisfies the admissibility relation the runner
   applies to the implementation's observations (retained entries projected to
   (key id, schema id) by any injective numbering of keys). *)
Theorem C06_model_admissible :
  forall (R A : Type) (kid : bytes -> N) hash (fresh : cfg -> req -> R) ok (synth : req -> A) no_synth victim,
    (forall a b, kid a = kid b -> a = b) -> victim_ok victim ->
    forall c (s : state R) r, NoDup (map e_key (entries s)) ->
      let res := get hash fresh ok synth no_synth victim c s r in
      match key hash c r with
      | Some k => adm_get (eff_max c) (map (proj kid) (entries s)) (kid k) (rq_schema r) (hitc (snd res))
                          (map (proj kid) (entries (fst res))) = true
      | None => adm_bypass (map (proj kid) (entries s)) (hitc (snd res)) (map (proj kid) (entries (fst res))) = true
      end.
Proof.
  intros R A kid hash fresh ok synth no_synth victim KI HV c s r Hd.
  exact (get_admissible kid KI victim HV hash fresh ok synth no_synth c s r Hd).
Qed.
Print Assumptions C06_model_admissible.

(* Literal normalisation on the query syntax of Cache/Normalize.v (values with
   nested lists/objects and variables anywhere, aliases, directives with
   arguments on fields, inline fragments and spreads): for every schema
   (field_def, arg_ty, dir_arg_ty, tc_obj), every valueFromAST [coerce] that
   reads only the variables occurring in the value and returns a variable's
   value for a variable, every literal-validity and variable coercion, every
   selection set whose variables are among [taken] (variableNames of the
   document) and every variable environment env of the caller: executing the
   normalised selection set under env extended by the synthetic definitions
   applied to SynthArgs is observationally the execution of the original under
   env (equal denotations); the caller's variables keep their values (so
   fragments and directives, which stay as written, see the same environment);
   every synthetic variable is fresh, valid for its type, and bound to its
   extracted value. *)
Section NormalizeStatements.
  Context {L cval : Type}.
  Variable value_eqb : @value L -> @value L -> bool.
  Variable cval_eqb : cval -> cval -> bool.
  Variable synth_name : N -> name.
  Variable field_def : otype -> name -> option (option otype).
  Variable arg_ty : otype -> name -> name -> option ty.
  Variable dir_arg_ty : name -> name -> option ty.
  Variable tc_obj : name -> option otype.
  Variable coerce : ty -> @value L -> (name -> option cval) -> option cval.
  Variable lit_valid : ty -> @value L -> bool.
  Variable var_coerce : ty -> cval -> option cval.
  Variable taken : list name.

  Definition norm_env_ok : Prop :=
    (forall a b, value_eqb a b = true -> a = b) /\ (forall a, value_eqb a a = true) /\
    (forall a b, cval_eqb a b = true -> a = b) /\
    (forall a b, synth_name a = synth_name b -> a = b) /\
    (forall t v e1 e2, (forall x, In x (value_vars v) -> e1 x = e2 x) -> coerce t v e1 = coerce t v e2) /\
    (forall t x e, coerce t (VVar x) e = e x).

  Notation normalize' := (normalize value_eqb cval_eqb synth_name field_def arg_ty tc_obj coerce lit_valid var_coerce taken).
  Notation sub_value' := (sub_value value_eqb cval_eqb coerce lit_valid var_coerce).
  Notation sub_sel' := (sub_sel value_eqb cval_eqb field_def arg_ty tc_obj coerce lit_valid var_coerce).
  Notation denote' := (denote field_def arg_ty dir_arg_ty tc_obj coerce).

  Theorem C06_normalize_transparent :
    norm_env_ok -> forall (env : name -> option cval) root (sels : list (@sel L)) st sels',
      normalize' root sels = (st, sels') -> incl (flat_map sel_vars sels) taken ->
      let env' := extend var_coerce env (n_synth st) in
      map (denote' env' root) sels' = map (denote' env root) sels /\
      (forall y, In y taken -> env' y = env y) /\
      (forall x t c, In (x, (t, c)) (n_synth st) -> ~ In x taken /\ var_coerce t c = Some c /\ env' x = Some c).
  Proof.
    intros [H1 [H2 [H3 [H4 [H5 H6]]]]] env root sels st sels' HN HV.
    exact (normalize_transparent value_eqb cval_eqb synth_name field_def arg_ty dir_arg_ty tc_obj coerce lit_valid var_coerce
             taken env H1 H2 H3 H4 H5 H6 root sels st sels' HN HV).
  Qed.

  (* Validation verdicts of the rewritten operation.  The rewriting is a
     substitution at typed argument positions ([sub_sel]); it (i) maps two
     values at positions of one type to equal values exactly when they were
     equal (sameArguments in the overlapping-fields rule: fields that could be
     merged can still be merged, fields that conflicted still conflict), (ii)
     puts at a rewritten position a variable declared with exactly that
     position's type (variables in allowed position), bound to the coerced value
     of a literal that was valid there (arguments of correct type; variable
     values of correct type), (iii) declares each synthetic variable once, under
     a name the document does not use (unique variable names; no undefined or
     captured variable). *)
  Theorem C06_normalize_validation_preserved :
    norm_env_ok -> forall root (sels : list (@sel L)) st sels',
      normalize' root sels = (st, sels') -> incl (flat_map sel_vars sels) taken ->
      sels' = map (sub_sel' st root) sels /\
      (forall t v1 v2, incl (value_vars v1) taken -> incl (value_vars v2) taken ->
                       (sub_value' st t v1 = sub_value' st t v2 <-> v1 = v2)) /\
      (forall t v, sub_value' st t v <> v ->
                   exists x c, sub_value' st t v = VVar x /\ In (x, (t, c)) (n_synth st) /\
                               extract_value cval_eqb coerce lit_valid var_coerce t v = Some c /\
                               lit_valid t v = true /\ var_coerce t c = Some c /\ ~ In x taken) /\
      (forall x t1 c1 t2 c2, In (x, (t1, c1)) (n_synth st) -> In (x, (t2, c2)) (n_synth st) -> t1 = t2 /\ c1 = c2) /\
      (forall x t c, In (x, (t, c)) (n_synth st) -> ~ In x taken).
  Proof.
    intros [H1 [H2 [H3 [H4 [H5 H6]]]]] root sels st sels' HN HV.
    destruct (normalize_ok value_eqb cval_eqb synth_name field_def arg_ty dir_arg_ty tc_obj coerce lit_valid var_coerce
                taken (fun _ => None) H1 H2 H3 H4 H5 H6 root sels st sels' HN HV) as [W [B _]].
    split; [exact B|split; [|split; [|eapply synth_defs_unique; eassumption]]].
    - intros t v1 v2 I1 I2. split; [|intros ->; reflexivity].
      intro E. eapply sub_value_inj; eassumption.
    - intros t v Hne. eapply sub_value_changed; eassumption.
  Qed.

  (* The caller's document is not modified (Cache/NormalizeHeap.v: Argument
     nodes are mutable cells; the walk assigns arg.Value): after
     normalizeDocument every cell that existed before holds what it held, so
     the caller's trees read back as the same document. *)
  Theorem C06_original_unchanged :
    forall root (hs : @hst L) (ps : list (@psel L)) st hs' ps',
      hnormalize value_eqb cval_eqb synth_name field_def arg_ty tc_obj coerce lit_valid var_coerce taken root hs ps = (st, hs', ps') ->
      Forall (fun i => i < h_next hs) (flat_map pids ps) ->
      (forall j, j < h_next hs -> hget (h_heap hs') j = hget (h_heap hs) j) /\
      map (read_sel (h_heap hs')) ps = map (read_sel (h_heap hs)) ps.
  Proof.
    intros root hs ps st hs' ps' H Hb.
    exact (caller_cells_unchanged value_eqb cval_eqb synth_name field_def arg_ty tc_obj coerce lit_valid var_coerce taken root hs ps st hs' ps' H Hb).
  Qed.

  (* ... and what the walk leaves in the clone's cells is the functional
     normalisation of the caller's document, with the same synthetic
     definitions: the two theorems above are about what the code-shaped
     algorithm returns. *)
  Theorem C06_normalize_in_place_refines :
    forall root (hs : @hst L) (ps : list (@psel L)) st hs' ps',
      hnormalize value_eqb cval_eqb synth_name field_def arg_ty tc_obj coerce lit_valid var_coerce taken root hs ps = (st, hs', ps') ->
      Forall (fun i => i < h_next hs) (flat_map pids ps) ->
      normalize' root (map (read_sel (h_heap hs)) ps) = (st, map (read_sel (h_heap hs')) ps').
  Proof.
    intros root hs ps st hs' ps' H Hb.
    exact (hnormalize_refines value_eqb cval_eqb synth_name field_def arg_ty tc_obj coerce lit_valid var_coerce taken root hs ps st hs' ps' H Hb).
  Qed.
End NormalizeStatements.
Print Assumptions C06_normalize_transparent.
Print Assumptions C06_normalize_validation_preserved.
Print Assumptions C06_original_unchanged.
Print Assumptions C06_normalize_in_place_refines.

(* Prepared plans (Cache/Prepared.v): one plan executed any number of times,
   with any variables and roots, the lazily filled slots carried from one
   execution to the next (or filled by anyone else, consistently): every
   execution returns what an execution on a fresh plan returns.  An execution
   is any program that reads the plan and asks for slots whose content is a
   function of the immutable plan and the slot key. *)
Theorem C06_prepared_reuse :
  forall (S SP V Root Res : Type) (init_slot : S -> slot -> SP) (body : S -> V -> Root -> @prog SP Res)
         (s : S) (runs : list (V * Root)) (m : @memo SP),
    consistent init_slot s m ->
    fst (exec_many init_slot body s m runs) = map (fun vr => fresh_exec init_slot body s (fst vr) (snd vr)) runs /\
    consistent init_slot s (snd (exec_many init_slot body s m runs)).
Proof. intros. apply exec_many_fresh. assumption. Qed.
Print Assumptions C06_prepared_reuse.

(* ---- non-vacuity: the hypotheses are satisfiable and the model moves ---- *)

Example C06_lru_is_a_policy : forall R, victim_ok (@last_key R).
Proof. intros R es. apply last_key_present. Qed.

Example C06_runner_hash_ok :
  (forall a b, run_hash a = run_hash b -> a = b) /\ (forall a, firstn 4 (run_hash a) <> raw_tag).
Proof.
  split; [intros a b H; injection H as H; exact H|].
  intros a H. unfold run_hash, raw_tag in H. simpl in H. discriminate H.
Qed.

Definition ex_cfg : cfg := mkCfg false 1 0 false 1024 65536.
Definition ex_r1 : req := mkReq 1 [] [123; 97; 125] RParseErr.          (* {a} *)
Definition ex_r2 : req := mkReq 1 [] [123; 98; 125] RParseErr.          (* {b} *)
Definition ex_r1' : req := mkReq 2 [] [123; 97; 125] RParseErr.         (* {a} under another schema *)

(* MaxEntries = 1: miss, hit, miss (evicts), miss again, other schema misses *)
Example C06_nonvacuous_history :
  let res := run run_hash (fun _ r => rq_query r) (fun _ => true) (fun _ => 0) 0 (@last_key bytes) ex_cfg
                 [OGet ex_r1; OGet ex_r1; OGet ex_r2; OGet ex_r1; OGet ex_r1'; OReset; OGet ex_r1] in
  map (@o_hit _ _) (snd res) = [Some false; Some true; Some false; Some false; Some false; Some false] /\
  nlen (entries (fst res)) = 1 /\ hits (fst res) = 1 /\ misses (fst res) = 5.
Proof. vm_compute. repeat split. Qed.

(* operation names that mimic the length prefix or carry a NUL are kept apart *)
Example C06_nonvacuous_key :
  lenprefix [97] [49; 58; 98] <> lenprefix [97; 49] [58; 98] /\
  [97] ++ 0 :: [49; 58; 98] <> [97; 0] ++ 0 :: [58; 98].
Proof. split; intro H; vm_compute in H; discriminate H. Qed.

(* normalisation does extract, share and avoid taken names:
   {f(n:1) x:f(n:1) g(p:[1,$v]) @skip(if:$v)} with $5 and __pcv0 (= 100) taken *)
Example C06_nonvacuous_normalize :
  let fd := fun (_ : otype) (_ : name) => Some (@None otype) in
  let at_ := fun (_ : otype) (_ _ : name) => Some 7 in
  let veqb := fun (a b : @value N) => match a, b with VScalar x, VScalar y => x =? y | _, _ => false end in
  let co := fun (_ : ty) (v : @value N) (e : name -> option N) => match v with VScalar l => Some l | VVar x => e x | _ => None end in
  let res := normalize (cval:=N) veqb N.eqb (fun k => 100 + k) fd at_ (fun _ => None)
                       co (fun _ _ => true) (fun _ c => Some c) [5; 100] 0
                       [Field None 1 [(9, VScalar 1)] [] []; Field (Some 3) 1 [(9, VScalar 1)] [] [];
                        Field None 2 [(8, VList [VScalar 1; VVar 5])] [(4, [(6, VVar 5)])] []] in
  snd res = [Field None 1 [(9, VVar 101)] [] []; Field (Some 3) 1 [(9, VVar 101)] [] [];
             Field None 2 [(8, VList [VScalar 1; VVar 5])] [(4, [(6, VVar 5)])] []] /\
  n_synth (fst res) = [(101, (7, 1))].
Proof. vm_compute. split; reflexivity. Qed.

(* prepared plans: the second execution finds the slot filled and returns the same *)
Example C06_nonvacuous_prepared :
  let body := fun (s : N) (v : N) (_ : unit) => Need (SP:=N) (Res:=N) 3 (fun sp => Ret (sp + v)) in
  exec_many (fun s sl => s + sl) body 10 [] [(1, tt); (2, tt)] = ([14; 15], [(3, 13)]).
Proof. vm_compute. reflexivity. Qed.

(* the clone gets new cells; the caller's cell 0 keeps its literal *)
Example C06_nonvacuous_heap :
  let fd := fun (_ : otype) (_ : name) => Some (@None otype) in
  let at_ := fun (_ : otype) (_ _ : name) => Some 7 in
  let veqb := fun (a b : @value N) => match a, b with VScalar x, VScalar y => x =? y | _, _ => false end in
  let co := fun (_ : ty) (v : @value N) (e : name -> option N) => match v with VScalar l => Some l | VVar x => e x | _ => None end in
  let hs := mkH [(0, (9, VScalar 1))] 1 in
  let '(st, hs', ps') := hnormalize (cval:=N) veqb N.eqb (fun k => 100 + k) fd at_ (fun _ => None) co (fun _ _ => true)
                                    (fun _ c => Some c) [] 0 hs [PField None 1 [0] [] []] in
  hget (h_heap hs') 0 = (9, VScalar 1) /\ map (read_sel (h_heap hs')) ps' = [Field None 1 [(9, VVar 100)] [] []].
Proof. vm_compute. split; reflexivity. Qed.

(* ---- constants generated from the source (harness/gen.go writes Gen/Consts.v from
   plan_cache.go before every check run; these are re-proved then) ---- *)
From GQL Require Gen.Consts Tables.CacheDefaults.

(* The defaults of NewPlanCache in plan_cache.go are the model's; the linked library reports the
   same (harness cases carry the linked values as c_defmax / c_defq). *)
Theorem C06_gen_defaults :
  Gen.Consts.default_plan_cache_max_entries = Tables.CacheDefaults.model_default_max_entries /\
  Gen.Consts.default_plan_cache_max_query_bytes = Tables.CacheDefaults.model_default_max_query_bytes /\
  Gen.Consts.linked_plan_cache_max_entries = Gen.Consts.default_plan_cache_max_entries /\
  Gen.Consts.linked_plan_cache_max_query_bytes = Gen.Consts.default_plan_cache_max_query_bytes.
Proof.
  repeat split;
  first [ vm_compute; reflexivity
        | fail 1 "generated-table obligation C06_gen_defaults no longer holds against the regenerated table: defaultPlanCacheMaxEntries / defaultPlanCacheMaxQueryBytes of plan_cache.go (Gen/Consts.v) are not the defaults of the cache model (Tables/CacheDefaults.v)" ].
Qed.
Print Assumptions C06_gen_defaults.

(* C06_bound for a cache built without MaxEntries: the bound is the constant of the source, and
   it is a bound (positive). *)
Theorem C06_gen_default_bound :
  forall (R A : Type) hash (fresh : cfg -> req -> R) ok (synth : req -> A) no_synth victim,
    victim_ok victim ->
    forall c h, (c_max c <= 0)%Z -> c_defmax c = Gen.Consts.default_plan_cache_max_entries ->
      nlen (entries (fst (run hash fresh ok synth no_synth victim c h))) <= Gen.Consts.default_plan_cache_max_entries /\
      0 < Gen.Consts.default_plan_cache_max_entries.
Proof.
  intros R A hash fresh ok synth no_synth victim HV c h Hm Hd.
  split; [|first [ vm_compute; reflexivity
                 | fail 1 "generated-table obligation C06_gen_default_bound no longer holds against the regenerated table: defaultPlanCacheMaxEntries of plan_cache.go (Gen/Consts.v) is not positive" ]].
  pose proof (C06_bound R A hash fresh ok synth no_synth victim HV c h) as B.
  unfold eff_max in B. apply Z.leb_le in Hm. rewrite Hm, Hd in B. exact B.
Qed.
Print Assumptions C06_gen_default_bound.

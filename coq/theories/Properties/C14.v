(* Property C14 -- AST traversal visits every node once, in order, honouring skip and break.
   Statements only; proofs live in Proofs/Visitor*.v. *)
From Coq Require Import List NArith Bool.
From GQL Require Import Visitor.VisitorTree Visitor.VisitorWalk Visitor.VisitorLoop
     Visitor.VisitorKeysSpec Gen.VisitorKeys Visitor.TypeInfo Visitor.TypeInfoPre
     Proofs.VisitorWalkProofs Proofs.VisitorLoopProofs
     Proofs.VisitorTypeInfoProofs Visitor.VisitorOrder Proofs.VisitorOrderProofs.
Import ListNotations.

(* The iterative loop of visitor.Visit, as written (explicit stack, keys, index, path,
   ancestors, inSlice), delivers exactly the events of the plain recursive walk -- phase,
   selected function, node, key, parent, path, ancestors -- for every key table, every
   visitor form (any selection function), every policy and every tree: any run that ends,
   ends with the walk ... *)
Theorem C14_loop_is_walk : forall keys_of sel pol t fuel evs replaced rebuilt,
  visit_loop keys_of sel pol fuel t = Done evs replaced rebuilt ->
  evs = walk_events keys_of sel pol t.
Proof. intros * H. exact (proj1 (visit_loop_is_walk keys_of sel pol t fuel evs replaced rebuilt H)). Qed.
Print Assumptions C14_loop_is_walk.

(* ... and every run ends within loop_fuel t iterations (two per visited node, two per
   non-empty list, one per absent child). *)
Theorem C14_loop_terminates : forall keys_of sel pol t fuel,
  (loop_fuel keys_of t <= fuel)%nat ->
  visit_loop keys_of sel pol fuel t = Done (walk_events keys_of sel pol t) false false.
Proof. exact visit_loop_terminates. Qed.
Print Assumptions C14_loop_terminates.

(* A traversal whose callbacks request no edits (continue / skip / break only) never rebuilds
   a node from edits and returns no replacement. *)
Theorem C14_no_edit_identity : forall keys_of sel pol t fuel evs replaced rebuilt,
  visit_loop keys_of sel pol fuel t = Done evs replaced rebuilt ->
  replaced = false /\ rebuilt = false.
Proof. intros * H. exact (proj2 (visit_loop_is_walk keys_of sel pol t fuel evs replaced rebuilt H)). Qed.
Print Assumptions C14_no_edit_identity.

(* The walk of a node: its enter event; on break nothing follows; on skip nothing more for
   this node (no descendant, no leave) and the traversal goes on; otherwise the children, in
   key-table order (fields looked up by name; lists element by element), then its leave. *)
Theorem C14_walk_shape : forall keys_of sel pol c key n,
  walk keys_of sel pol c key n =
  match act sel pol n PEnter with
  | Break => (emit sel PEnter c key n, true)
  | Skip => (emit sel PEnter c key n, false)
  | Continue =>
    seq (emit sel PEnter c key n, false)
        (seq (wkeys keys_of sel pol (w_inner c key (Some (g_id n))) (g_slots n) (keys_of (g_kind n)))
             (leave_tr sel pol c key n))
  end.
Proof. exact VisitorWalkProofs.walk_unfold. Qed.
Print Assumptions C14_walk_shape.

Theorem C14_skip_drops_subtree_and_leave : forall keys_of sel pol c key n,
  act sel pol n PEnter = Skip ->
  walk keys_of sel pol c key n = (emit sel PEnter c key n, false).
Proof. exact VisitorWalkProofs.skip_drops_subtree. Qed.
Print Assumptions C14_skip_drops_subtree_and_leave.

Theorem C14_break_stops : forall keys_of sel pol c key n rest,
  (act sel pol n PEnter = Break ->
   seq (walk keys_of sel pol c key n) rest = (emit sel PEnter c key n, true)) /\
  (act sel pol n PLeave = Break ->
   seq (leave_tr sel pol c key n) rest = (emit sel PLeave c key n, true)).
Proof.
  intros. split; [apply VisitorWalkProofs.break_on_enter_stops | apply VisitorWalkProofs.break_on_leave_stops].
Qed.
Print Assumptions C14_break_stops.

(* only a break cuts the traversal short *)
Theorem C14_never_break_never_stops : forall keys_of sel pol,
  (forall id ph, pol id ph <> Break) -> forall n c key, snd (walk keys_of sel pol c key n) = false.
Proof. exact VisitorWalkProofs.never_break_never_stops. Qed.
Print Assumptions C14_never_break_never_stops.

(* without skip and break: enter, children, leave -- once each, properly nested *)
Theorem C14_all_continue_nested : forall keys_of sel pol,
  (forall id ph, pol id ph = Continue) -> forall n c key,
  walk keys_of sel pol c key n
  = (emit sel PEnter c key n
     ++ fst (wkeys keys_of sel pol (w_inner c key (Some (g_id n))) (g_slots n) (keys_of (g_kind n)))
     ++ emit sel PLeave c key n, false).
Proof. exact VisitorWalkProofs.all_continue_nested. Qed.
Print Assumptions C14_all_continue_nested.

(* when every kind has an enter and a leave function and nothing breaks: every node that is
   entered and not skipped is left exactly once, after its subtree, with the same key, parent
   and enclosing nodes; a skipped node is a lone enter; events are properly nested *)
Theorem C14_enter_leave_matched_nested : forall keys_of sel pol,
  (forall kind ph, sel kind ph <> None) -> (forall id ph, pol id ph <> Break) ->
  forall n c key, nested pol (fst (walk keys_of sel pol c key n)).
Proof. exact VisitorWalkProofs.walk_nested. Qed.
Print Assumptions C14_enter_leave_matched_nested.

(* Without a break the events of the walk, read as (phase, node, kind) marks, are the Euler
   tour of the tree by the key table -- a node, its children's tours in key order unless it
   is skipped, the node again -- restricted to the kinds and phases for which the visitor has
   a function. *)
Theorem C14_document_order : forall keys_of sel pol,
  (forall id ph, pol id ph <> Break) -> forall n c key,
  map ev_mark (fst (walk keys_of sel pol c key n)) = shown sel (tour keys_of (skips sel pol) n).
Proof. exact walk_is_tour. Qed.
Print Assumptions C14_document_order.

(* hence: enter events list the nodes that are not below a skipped node in pre-order, leave
   events list those of them that are not skipped themselves in post-order *)
Theorem C14_enter_preorder_leave_postorder : forall keys_of sel pol t,
  (forall id ph, pol id ph <> Break) ->
  enter_ids (walk_events keys_of sel pol t)
  = map g_id (filter (has_fn sel PEnter) (enters keys_of (skips sel pol) t))
  /\ leave_ids (walk_events keys_of sel pol t)
     = map g_id (filter (has_fn sel PLeave) (leaves keys_of (skips sel pol) t))
  /\ Sub (enters keys_of (skips sel pol) t) (preorder keys_of t)
  /\ (forall m, In m (leaves keys_of (skips sel pol) t)
                <-> In m (enters keys_of (skips sel pol) t) /\ skips sel pol m = false).
Proof.
  intros keys_of sel pol t Hnb. split; [apply enter_order; exact Hnb|]. split; [apply leave_order; exact Hnb|].
  split; [apply enters_sub_preorder | intros m; apply left_iff_visited_not_skipped].
Qed.
Print Assumptions C14_enter_preorder_leave_postorder.

(* For a tree whose nodes (those reachable through the key table) have pairwise distinct
   identities and a policy that never breaks: a node that is not below a skipped node is
   entered exactly once (when a function is selected for its kind); it is left exactly once
   when moreover it is not skipped itself; any other identity -- in particular every node
   below a skipped node -- occurs in no enter and no leave event. *)
Theorem C14_exactly_once : forall keys_of sel pol t,
  (forall id ph, pol id ph <> Break) ->
  NoDup (map g_id (preorder keys_of t)) ->
  forall x,
    (count_occ N.eq_dec (enter_ids (walk_events keys_of sel pol t)) x = 1%nat
     <-> In x (map g_id (filter (has_fn sel PEnter) (enters keys_of (skips sel pol) t))))
    /\ (count_occ N.eq_dec (leave_ids (walk_events keys_of sel pol t)) x = 1%nat
        <-> In x (map g_id (filter (has_fn sel PLeave) (leaves keys_of (skips sel pol) t))))
    /\ (~ In x (map g_id (enters keys_of (skips sel pol) t)) ->
        count_occ N.eq_dec (enter_ids (walk_events keys_of sel pol t)) x = 0%nat
        /\ count_occ N.eq_dec (leave_ids (walk_events keys_of sel pol t)) x = 0%nat).
Proof. exact exactly_once. Qed.
Print Assumptions C14_exactly_once.

(* With breaks: the events are a prefix of the events of the same policy with every break
   read as continue, and every node is entered at most once and left at most once. *)
Theorem C14_break_prefix_at_most_once : forall keys_of sel pol t,
  (exists rest, walk_events keys_of sel (unbreak pol) t = walk_events keys_of sel pol t ++ rest)
  /\ (NoDup (map g_id (preorder keys_of t)) ->
      forall x, (count_occ N.eq_dec (enter_ids (walk_events keys_of sel pol t)) x <= 1)%nat
                /\ (count_occ N.eq_dec (leave_ids (walk_events keys_of sel pol t)) x <= 1)%nat).
Proof. intros. split; [apply events_prefix | apply at_most_once]. Qed.
Print Assumptions C14_break_prefix_at_most_once.

(* The wrapper answers "no change" to the loop whatever the sub-visitors answer, so the loop
   hands it the full traversal; through the skipping bookkeeping as coded, a sub-visitor with
   any selection of functions and any policy receives exactly the events it would receive
   alone -- for every tree in which no node is its own descendant. *)
Theorem C14_parallel_projection : forall keys_of t fuel mevs replaced rebuilt,
  tree_ok t = true ->
  visit_loop keys_of par_sel par_pol fuel t = Done mevs replaced rebuilt ->
  forall sel pol, par_observed sel pol mevs = walk_events keys_of sel pol t.
Proof.
  intros * Hok H sel pol.
  rewrite (proj1 (visit_loop_is_walk keys_of par_sel par_pol t fuel mevs replaced rebuilt H)).
  apply VisitorWalkProofs.par_projection. exact Hok.
Qed.
Print Assumptions C14_parallel_projection.

(* VisitWithTypeInfo announces every node of the traversal to the TypeInfo (Enter before the
   sub-visitor's enter callback, Leave after its leave callback, and Leave at once for a node
   the sub-visitor skips); the traversal it is driven by is the walk whose actions are the
   sub-visitor's (C14_loop_is_walk).  What the four stacks and two variables of TypeInfo, as
   coded, report inside every callback is `types_at` of the chain of enclosing nodes -- a
   top-down function of the position alone -- for every schema, document of parsed shape
   (no directive inside a directive, no argument inside an argument), visitor form and
   policy. *)
Theorem C14_typeinfo : forall sch attr sel pol keys_of kind_of t,
  ti_ok false false t = true ->
  (forall i k, In (i, k) (kinds_of t) -> kind_of i = k) ->
  let outer := walk_events keys_of par_sel (twi_pol sel pol kind_of) t in
  ti_run sch attr sel pol ti_init outer
  = flat_map (fun e => match sel (e_kind e) (e_phase e) with
                       | Some _ => [(e_phase e, e_id e, types_at sch attr (chain_of kind_of e))]
                       | None => [] end) outer.
Proof. intros * Hok Hk. exact (typeinfo_reports_types_at sch attr sel pol keys_of kind_of t Hok Hk). Qed.
Print Assumptions C14_typeinfo.

(* the same with the hypothesis "node kind determined by node identity" as a checked
   precondition: kinds_fun t decides that no identity occurs twice in the tree, and the
   id -> kind table of the tree is then the kind function *)
Theorem C14_typeinfo_checked : forall sch attr sel pol keys_of t,
  ti_ok false false t = true -> kinds_fun t = true ->
  let kind_of := kind_of_tree t in
  let outer := walk_events keys_of par_sel (twi_pol sel pol kind_of) t in
  ti_run sch attr sel pol ti_init outer
  = flat_map (fun e => match sel (e_kind e) (e_phase e) with
                       | Some _ => [(e_phase e, e_id e, types_at sch attr (chain_of kind_of e))]
                       | None => [] end) outer.
Proof. intros * Hok Hk. exact (typeinfo_checked sch attr sel pol keys_of t Hok Hk). Qed.
Print Assumptions C14_typeinfo_checked.

(* The validator's composition VisitWithTypeInfo(typeInfo, VisitInParallel(subs...)): the
   traversal is the full one (the parallel wrapper never skips or breaks), TypeInfo is told
   of every node, and each sub-visitor -- dispatched through the skipping marks -- reads, in
   exactly the callbacks of its own walk, types_at of the chain of enclosing nodes. *)
Theorem C14_stacked_typeinfo : forall sch attr sel pol keys_of t,
  tree_ok t = true -> ti_ok false false t = true -> kinds_fun t = true ->
  let kind_of := kind_of_tree t in
  stack_run sch attr sel pol ti_init None (walk_events keys_of par_sel par_pol t)
  = map (fun e => (e_phase e, e_id e, types_at sch attr (chain_of kind_of e)))
        (walk_events keys_of sel pol t).
Proof.
  intros * Ht Hok Hk. apply (stacked_reports_types_at sch attr sel pol keys_of (kind_of_tree t) t Ht Hok).
  intros i k Hin. apply kinds_fun_tbl; assumption.
Qed.
Print Assumptions C14_stacked_typeinfo.

(* The child-key table (Gen/VisitorKeys.v, from QueryDocumentKeys) against the struct
   declarations of language/ast: every kind with a struct has an entry, no key is listed
   twice, every key names a node-valued field, and every node-valued field is listed except
   the exempt ones (keys_complete, Visitor/VisitorKeysSpec.v). *)
Theorem C14_keys_complete :
  keys_complete N.eqb exempt_codes keys_table ast_shape = true.
Proof. vm_compute. reflexivity. Qed.
Print Assumptions C14_keys_complete.

(* non-vacuity: a two-level tree, skip on one child, break on the leave of another *)
Example C14_nonvacuous :
  let t := GNode 0 0 [Many 0 [GNode 1 1 [One 1 (Some (GNode 2 2 []))]; GNode 3 1 []; GNode 4 1 []]] in
  let keys_of := fun k => match k with 0 => [0] | 1 => [1] | _ => [] end%N in
  let sel := fun (_ : N) ph => Some (match ph with PEnter => 4 | PLeave => 5 end)%N in
  let pol := fun id ph => match id, ph with 1%N, PEnter => Skip | 3%N, PLeave => Break | _, _ => Continue end in
  visit_loop keys_of sel pol (loop_fuel keys_of t) t = Done (walk_events keys_of sel pol t) false false
  /\ map (fun e => (e_phase e, e_id e)) (walk_events keys_of sel pol t)
     = [(PEnter, 0); (PEnter, 1); (PEnter, 3); (PLeave, 3)]%N
  /\ tree_ok t = true.
Proof. vm_compute. repeat split. Qed.

(* ---- table generated from the source (harness/gen.go writes Gen/Kinds.v from
   language/kinds/kinds.go before every check run; this is re-proved then) ---- *)
From GQL Require Gen.Kinds.

(* The node kinds of language/kinds are the kinds of the child-key / struct-shape tables: every
   kind constant names its own value, and the values are exactly the kinds that
   Gen/VisitorKeys.v (ast structs and QueryDocumentKeys) numbers. *)
Theorem C14_gen_kinds :
  map snd Gen.Kinds.kinds = map snd kind_names /\ map fst Gen.Kinds.kinds = map snd Gen.Kinds.kinds.
Proof.
  split;
  first [ vm_compute; reflexivity
        | fail 1 "generated-table obligation C14_gen_kinds no longer holds against the regenerated table: the constants of language/kinds/kinds.go (Gen/Kinds.v) are not the kinds of Gen/VisitorKeys.v" ].
Qed.
Print Assumptions C14_gen_kinds.

(* Property C19 -- planning and validation work is polynomial in document size.
   Statements; the proofs are in Proofs/ValidateCost.v and Proofs/ValidateFcBound.v. *)
From Coq Require Import List NArith ZArith String Bool.
From GQL Require Import Exec.Syntax Exec.Exec Validate.VSyntax Validate.Overlap Validate.Rules Validate.Cost Proofs.ValidateCost Proofs.ValidateFcBound.
Import ListNotations.
Open Scope string_scope.

(* The memo tables bound the overlap rule's work, for every schema, document and fuel:
   no (fragment, fragment, flag) entry is ever added twice and every entry names defined
   fragments, so the non-memoised bodies of collectConflictsBetweenFragments (two entries
   each) number at most F * F, F the number of fragment definitions. *)
Theorem C19_memo_bound : forall S D fuel,
  List.length (m_pairs (final_state S D true fuel))
  <= 2 * (List.length (d_frags D) * List.length (d_frags D)).
Proof. exact memo_bound_pairs. Qed.
Print Assumptions C19_memo_bound.

(* ... and the non-memoised bodies of collectConflictsBetweenFieldsAndFragment (one entry
   each) at most 2 * (number of (selection set, fragment name) pairs that occur). *)
Theorem C19_memo_bound_fields_fragment : forall S D fuel (U : list (ptype * N * name)),
  (forall p k g f, In (p, k, g, f) (m_ffs (final_state S D true fuel)) -> In (p, k, g) U) ->
  List.length (m_ffs (final_state S D true fuel)) <= 2 * List.length U.
Proof. exact memo_bound_ffs. Qed.
Print Assumptions C19_memo_bound_fields_fragment.

(* The potential-function invariant behind both: entries are never repeated, the pair set
   is symmetric, an entry stored with flag false is never shadowed. *)
Theorem C19_memo_invariant : forall S D memo fuel, minv D (final_state S D memo fuel).
Proof. exact memo_invariant. Qed.
Print Assumptions C19_memo_invariant.

(* Shared sub-plans: no (parent type, merged selection sets) group is planned twice, so
   the planned groups number at most the distinct keys. *)
Theorem C19_plan_shared : forall S D fuel (U : list pkey),
  (forall k, In k (p_memo (plan_doc S D true fuel)) -> In k U) ->
  List.length (p_memo (plan_doc S D true fuel)) <= List.length U.
Proof.
  intros S D fuel U HU. apply NoDup_incl_length; [|exact HU].
  unfold plan_doc. destruct (d_ops D) as [|o r]; [constructor|]. apply plan_nodup. constructor.
Qed.
Print Assumptions C19_plan_shared.

(* Planning consults the schema only at the object types it reaches: two schemas that
   agree there (same fields, same answers of "does this type condition match this object")
   give the same planning cost -- adding implementers of an interface or members of a
   union, which are other object types, changes nothing. *)
Theorem C19_plan_independent_of_implementers : forall S S' D share fuel (R : name -> Prop),
  (forall T c, R T -> fragment_matches S c T = fragment_matches S' c T) ->
  (forall T nm, R T -> plan_field_ty S T nm = plan_field_ty S' T nm) ->
  (forall T nm t, R T -> plan_field_ty S T nm = Some t -> is_object_ty S (named_of t) = true -> R (named_of t)) ->
  (forall T nm t, R T -> plan_field_ty S T nm = Some t ->
                  is_object_ty S (named_of t) = is_object_ty S' (named_of t)) ->
  (forall ds vars, included S ds vars = included S' ds vars) ->
  s_query S = s_query S' -> s_mutation S = s_mutation S' ->
  R (s_query S) -> (forall m, s_mutation S = Some m -> R m) ->
  plan_doc S D share fuel = plan_doc S' D share fuel.
Proof.
  intros S S' D share fuel R H1 H2 H3 H4 H5 Eq Em Rq Rm. unfold plan_doc.
  destruct (d_ops D) as [|o r]; [reflexivity|]. rewrite <- Eq, <- Em.
  apply (plan_congr S S' D R H1 H2 H3 H4 H5).
  destruct (o_kind o); try exact Rq. destruct (s_mutation S) as [m|] eqn:E; [apply Rm; reflexivity | exact Rq].
Qed.
Print Assumptions C19_plan_independent_of_implementers.

(* findConflict calls of the memoised overlap algorithm, by an amortised analysis (every
   non-memoised body pays for its own field comparisons with the memo entry it adds; the
   comparisons below two fields are bounded by the product of the sizes of their
   sub-selections): with M = max_set_size (field nodes of the largest selection-set tree the
   rule is called on, nested ones included),
     calls <= M*M * (visited selection sets + fields/fragment entries + pair entries). *)
Theorem C19_find_conflict_bound : forall S D fuel,
  fc_calls S D fuel <=
  max_set_size S D * max_set_size S D *
  (List.length (all_sets S D) + List.length (m_ffs (final_state S D true fuel))
   + List.length (m_pairs (final_state S D true fuel))).
Proof. exact fc_calls_bound. Qed.
Print Assumptions C19_find_conflict_bound.

(* ... hence in closed form, with G fragment definitions and any list U of the (selection
   set, fragment name) keys that occur: calls <= M*M*(sets + 2*|U| + 2*G*G). *)
Theorem C19_find_conflict_closed_form : forall S D fuel (U : list (ptype * N * name)),
  (forall p k g f, In (p, k, g, f) (m_ffs (final_state S D true fuel)) -> In (p, k, g) U) ->
  fc_calls S D fuel <=
  max_set_size S D * max_set_size S D *
  (List.length (all_sets S D) + 2 * List.length U + 2 * (List.length (d_frags D) * List.length (d_frags D))).
Proof.
  intros S D fuel U HU. apply (Nat.le_trans _ _ _ (fc_calls_bound S D fuel)). apply Nat.mul_le_mono_l.
  apply Nat.add_le_mono; [apply Nat.add_le_mono_l, (memo_bound_ffs S D fuel U HU) | apply memo_bound_pairs].
Qed.
Print Assumptions C19_find_conflict_closed_form.

(* The fragment-cycle search (NoFragmentCycles) descends into every fragment at most once
   per document: the calls of detectCycleRecursive number at most the fragment definitions. *)
Theorem C19_cycle_search_bound : forall W, cycle_search_calls W <= List.length (w_frags W).
Proof. exact cycle_search_bound. Qed.
Print Assumptions C19_cycle_search_bound.

(* non-vacuity: the chain F1 { x{...F2} y{...F2} }, F2 { a } plans 3 groups with sharing
   and the memo tables are not empty on a document with two spread fragments *)
Definition exS : schema :=
  {| s_types := [("String", TScalar SString);
                 ("Q", TObject [{| f_name := "a"; f_args := []; f_type := TNamed "String" |};
                                {| f_name := "x"; f_args := []; f_type := TNamed "Q" |};
                                {| f_name := "y"; f_args := []; f_type := TNamed "Q" |}] [])];
     s_query := "Q"; s_mutation := None |}.
Definition exD : document :=
  {| d_ops := [{| o_kind := OpQuery; o_name := None; o_vars := [];
                  o_sel := [SSpread 2 "F1" []; SSpread 9 "F2" []] |}];
     d_frags := [{| fr_name := "F1"; fr_cond := "Q";
                    fr_sel := [SField 30 None "x" [] [] [SSpread 34 "F2" []];
                               SField 44 None "y" [] [] [SSpread 48 "F2" []]] |};
                 {| fr_name := "F2"; fr_cond := "Q"; fr_sel := [SField 80 None "a" [] [] []] |}] |}.
Example C19_nonvacuous :
  List.length (p_memo (plan_doc exS exD true 50)) = 3 /\
  p_calls (plan_doc exS exD true 50) = 3%N /\ p_calls (plan_doc exS exD false 50) = 3%N /\
  List.length (m_pairs (final_state exS exD true 50)) = 2.
Proof. repeat split; vm_compute; reflexivity. Qed.

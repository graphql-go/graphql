(* Property C15 -- a subscription delivers one correct result per source event, then closes; after
   cancellation no goroutine of the subscription stays blocked.
   Statements only (proofs: Proofs/ConcSubscription.v), about the labelled transition system
   Conc/SubscriptionLts.v of graphql.Subscribe / ExecuteSubscription: source, forwarder goroutine,
   consumer, canceller; the result channel a rendezvous; sendOneResultAndClose with its capacity.
   All statements quantify over every schedule (every reachable state / every run), every event
   list, every per-event execution function `exec`. `sel k` says whether the send at site k also
   selects on ctx.Done(); the repaired code has `sel k = true` for every site. *)
From Coq Require Import List Arith Bool NArith.
From GQL Require Import Conc.SubscriptionLts Proofs.ConcSubscription.
Import ListNotations.

(* Delivery: in every reachable state of a valid stream subscription the delivered results are, in
   order, one per event, the results of a prefix of the source events (each `exec e`, or - only
   once the context is cancelled - the context error of an execution cut short). *)
Theorem C15_delivery : forall ev res (exec : ev -> res) sel cap es s,
  reach ev res exec sel cap (init ev res FrontOk SetChan es) s ->
  exists taken rest, es = taken ++ rest /\ Forall2 (ok_for ev res exec) taken (out s) /\
    (cancelled s = false -> out s = map (fun e => Normal (exec e)) taken).
Proof. exact delivery_prefix. Qed.
Print Assumptions C15_delivery.

(* ... complete if the forwarder ended because the source closed: every emitted event was delivered. *)
Theorem C15_delivery_complete : forall ev res (exec : ev -> res) sel cap es s,
  reach ev res exec sel cap (init ev res FrontOk SetChan es) s ->
  fwd s = PDone ExitEnd \/ fwd s = PClosing ExitEnd ->
  exists emitted, es = emitted ++ srcq s /\ Forall2 (ok_for ev res exec) emitted (out s) /\
    (cancelled s = false -> out s = map (fun e => Normal (exec e)) emitted).
Proof. exact delivery_complete. Qed.
Print Assumptions C15_delivery_complete.

(* Closing: once the source is closed and the consumer keeps reading, steps of the library and
   deliveries alone lead to a closed result channel and a finished forwarder ... *)
Theorem C15_closes : forall ev res (exec : ev -> res) sel cap, 1 <= cap ->
  forall f su es s, reach ev res exec sel cap (init ev res f su es) s ->
  sclosed s = true -> stopped s = false ->
  exists ls s', run ev res exec sel cap s ls s' /\ Forall (fun l => lib_or_deliver l = true) ls /\
    fwd_done ev res s' = true /\ rclosed s' = true.
Proof. exact closes_after_source_close. Qed.
Print Assumptions C15_closes.

(* ... and the channel is closed by nobody but the terminating forwarder: the consumer never sees
   a close while the forwarder could still send. *)
Theorem C15_closed_only_at_end : forall ev res (exec : ev -> res) sel cap f su es s,
  reach ev res exec sel cap (init ev res f su es) s ->
  (rclosed s = true -> fwd_done ev res s = true) /\ (seen_closed s = true -> fwd_done ev res s = true).
Proof. exact close_inv_reach. Qed.
Print Assumptions C15_closed_only_at_end.

(* One error: a request that fails to parse or validate (sendOneResultAndClose, capacity cap)
   delivers at most the one error result, and exactly it before the consumer sees the close. *)
Theorem C15_one_error : forall ev res (exec : ev -> res) sel cap su es s,
  reach ev res exec sel cap (init ev res FrontFail su es) s ->
  (exists n, out s = firstn n [ErrRes]) /\ (seen_closed s = true -> out s = [ErrRes]).
Proof. exact one_error_front. Qed.
Print Assumptions C15_one_error.

(* One error, failure inside the forwarder (no operation, unknown field, Subscribe resolver error,
   nil source): the same, except that after cancellation the error may be dropped when the send
   watches the context. *)
Theorem C15_one_error_subscribe : forall ev res (exec : ev -> res) sel cap es s,
  reach ev res exec sel cap (init ev res FrontOk SetErr es) s ->
  (out s = [] \/ out s = [ErrRes]) /\
  (seen_closed s = true -> out s = [ErrRes] \/ (out s = [] /\ cancelled s = true /\ sel SErr = true)).
Proof. exact one_error_setup. Qed.
Print Assumptions C15_one_error_subscribe.

(* No stuck goroutine: when every send selects on ctx.Done() and the one-shot channel has a buffer,
   from every reachable cancelled state some finite sequence of library-only steps (no consumer,
   source or canceller step) ends the forwarder with the result channel closed ... *)
Theorem C15_no_stuck_goroutine : forall ev res (exec : ev -> res) sel cap,
  (forall k, sel k = true) -> 1 <= cap ->
  forall f su es s, reach ev res exec sel cap (init ev res f su es) s -> cancelled s = true ->
  exists ls s', run ev res exec sel cap s ls s' /\ Forall (fun l => lib l = true) ls /\
    fwd_done ev res s' = true /\ rclosed s' = true.
Proof. exact no_stuck_after_cancel. Qed.
Print Assumptions C15_no_stuck_goroutine.

(* ... and no infinite library-only run exists: its length is bounded by the measure. *)
Theorem C15_library_runs_finite : forall ev res (exec : ev -> res) sel cap s ls s',
  run ev res exec sel cap s ls s' -> Forall (fun l => lib l = true) ls ->
  length ls + measure ev res s' <= measure ev res s.
Proof. exact lib_run_bounded. Qed.
Print Assumptions C15_library_runs_finite.

(* Witness (the code before fix 89b2746): without the select on the send of the event loop a
   short schedule - an event is emitted, taken and executed, the consumer stops, cancel - reaches a cancelled state in
   which the forwarder is alive and no library step is enabled. *)
Theorem C15_refuted_without_select : forall ev res (exec : ev -> res) sel cap, sel SLoop = false ->
  forall e, exists s, reach ev res exec sel cap (init ev res FrontOk SetChan [e]) s /\ stuck ev res exec sel cap s.
Proof. exact stuck_without_loop_select. Qed.
Print Assumptions C15_refuted_without_select.

(* Witness (the code before fix C15-error-send-ignores-cancel): the same for the error send. *)
Theorem C15_refuted_error_send_without_select : forall ev res (exec : ev -> res) sel cap, sel SErr = false ->
  forall es, exists s, reach ev res exec sel cap (init ev res FrontOk SetErr es) s /\ stuck ev res exec sel cap s.
Proof. exact stuck_without_error_select. Qed.
Print Assumptions C15_refuted_error_send_without_select.

(* Witness (the code before fix C15-subscribe-panic-no-result): a Subscribe resolver that panics with
   a non-error value made the goroutine end without any result; the consumer saw only the close. *)
Theorem C15_refuted_silent_exit : forall ev res (exec : ev -> res) sel cap es,
  exists s, reach ev res exec sel cap (init ev res FrontOk SetSilent es) s /\
            seen_closed s = true /\ out s = [] /\ cancelled s = false.
Proof. exact silent_exit_delivers_nothing. Qed.
Print Assumptions C15_refuted_silent_exit.

(* Observed traces: a trace accepted by the executable acceptor is the visible part of a run of
   the LTS, and the consumer's received values are exactly the ORecv observations. *)
Theorem C15_accepts_sound : forall ev res (exec : ev -> res) sel cap res_eqb ev_eqb,
  (forall a b, res_eqb a b = true -> a = b) ->
  forall s0 os, accepts_obs ev res exec sel cap res_eqb ev_eqb s0 os = true ->
  exists s, orun ev res exec sel cap s0 os s /\ out s = out s0 ++ recvd res os /\
            exists ls, run ev res exec sel cap s0 ls s.
Proof.
  intros ev res exec sel cap res_eqb ev_eqb E s0 os H.
  destruct (accepts_obs_sound ev res exec sel cap res_eqb ev_eqb E s0 os H) as (s & O).
  exists s. split; [exact O|]. split; [apply (orun_out ev res exec sel cap); exact O|].
  apply (orun_is_run ev res exec sel cap) with (os := os). exact O.
Qed.
Print Assumptions C15_accepts_sound.

(* ... and conversely every run of the LTS has its visible trace accepted: a rejected observed
   trace (code 1 of the runner) is not a behaviour of the model. *)
Theorem C15_accepts_complete : forall ev res (exec : ev -> res) sel cap res_eqb ev_eqb,
  (forall a b, res_eqb a b = true -> a = b) -> (forall a, res_eqb a a = true) ->
  (forall a b, ev_eqb a b = true -> a = b) ->
  forall s0 os s, orun ev res exec sel cap s0 os s -> accepts_obs ev res exec sel cap res_eqb ev_eqb s0 os = true.
Proof. exact accepts_obs_complete. Qed.
Print Assumptions C15_accepts_complete.

(* the instance the runner evaluates (events and results are numbers): accepted = trace of the LTS *)
Theorem C15_runner_acceptor_exact : forall (exec : N -> N) sel cap s0 os,
  accepts_obs N N exec sel cap N.eqb N.eqb s0 os = true <-> exists s, orun N N exec sel cap s0 os s.
Proof.
  intros exec sel cap s0 os. split.
  - intros H. apply (accepts_obs_sound N N exec sel cap N.eqb N.eqb) in H; [exact H|]. intros a b E. apply N.eqb_eq. exact E.
  - intros (s & O). apply (accepts_obs_complete N N exec sel cap N.eqb N.eqb) with (s := s); [| | |exact O].
    + intros a b E. apply N.eqb_eq. exact E.
    + intros a. apply N.eqb_refl.
    + intros a b E. apply N.eqb_eq. exact E.
Qed.
Print Assumptions C15_runner_acceptor_exact.

(* schedules as label lists: `accepts` decides exactly the runs *)
Theorem C15_accepts_schedules : forall ev res (exec : ev -> res) sel cap s0 ls,
  accepts ev res exec sel cap s0 ls = true <-> exists s, run ev res exec sel cap s0 ls s.
Proof. exact accepts_iff_run. Qed.
Print Assumptions C15_accepts_schedules.

(* non-vacuity: a complete run with two events, a cancelled run, and an observed trace *)
Example C15_nonvacuous :
  let sel := fun _ : site => true in
  let s0 := init nat nat FrontOk SetChan [1; 2] in
  match exec_trace nat nat (fun x => x + 10) sel 1 s0
       [LSetup; LEmit; LTake; LExec; LDeliver; LEmit; LCloseSrc; LTake; LExec; LDeliver; LEnd; LCloseRes; LObsClosed] with
  | Some s => out s = [Normal 11; Normal 12] /\ seen_closed s = true
  | None => False
  end /\
  accepts_obs nat nat (fun x => x + 10) sel 1 Nat.eqb Nat.eqb s0
       [OEmit; ORecv (Normal 11); OCancel; OStop; OQuiet] = true /\
  accepts_obs nat nat (fun x => x + 10) sel 1 Nat.eqb Nat.eqb s0
       [OEmit; OEmit; ORecv (Normal 12)] = false /\
  accepts_obs nat nat (fun x => x + 10) (fun k => match k with SLoop => false | _ => true end) 1 Nat.eqb Nat.eqb s0
       [OEmit; OStop; OCancel; OQuiet] = true /\
  accepts_obs nat nat (fun x => x + 10) sel 1 Nat.eqb Nat.eqb (init nat nat FrontFail SetChan [])
       [ORecv ErrRes; OClosed; OQuiet] = true.
Proof.
  cbv zeta. split.
  - vm_compute. split; reflexivity.
  - split.
    vm_compute; reflexivity.
    split.
    vm_compute; reflexivity.
    split.
    vm_compute; reflexivity.
    vm_compute; reflexivity.
Qed.

(* ---- constants generated from the source (harness/gen.go writes Gen/Consts.v from
   subscription.go before every check run; these are re-proved then) ---- *)
From Coq Require Import NArith.
From GQL Require Gen.Consts.

(* C15_no_stuck_goroutine and C15_closes for the code as it is: the one-shot channel of
   sendOneResultAndClose has the capacity found in the source, and `every send selects on
   ctx.Done()` is the fact that ExecuteSubscription has no send statement on its result channel
   outside a select with a Done() case. *)
Theorem C15_gen_no_stuck_goroutine : forall ev res (exec : ev -> res),
  let sel := fun _ : site => (Gen.Consts.subscription_result_sends_unguarded =? 0)%N in
  let cap := N.to_nat Gen.Consts.subscription_oneshot_chan_cap in
  forall f su es s, reach ev res exec sel cap (init ev res f su es) s -> cancelled s = true ->
  exists ls s', run ev res exec sel cap s ls s' /\ Forall (fun l => lib l = true) ls /\
    fwd_done ev res s' = true /\ rclosed s' = true.
Proof.
  intros ev res exec sel cap. apply C15_no_stuck_goroutine.
  - intros k.
    first [ vm_compute; reflexivity
          | fail 1 "generated-table obligation C15_gen_no_stuck_goroutine no longer holds against the regenerated table: ExecuteSubscription of subscription.go has a send on its result channel outside a select with a Done() case (Gen/Consts.v)" ].
  - apply Nat.leb_le.
    first [ vm_compute; reflexivity
          | fail 1 "generated-table obligation C15_gen_no_stuck_goroutine no longer holds against the regenerated table: the channel of sendOneResultAndClose in subscription.go has no buffer (Gen/Consts.v)" ].
Qed.
Print Assumptions C15_gen_no_stuck_goroutine.

Theorem C15_gen_closes : forall ev res (exec : ev -> res) sel,
  let cap := N.to_nat Gen.Consts.subscription_oneshot_chan_cap in
  forall f su es s, reach ev res exec sel cap (init ev res f su es) s ->
  sclosed s = true -> stopped s = false ->
  exists ls s', run ev res exec sel cap s ls s' /\ Forall (fun l => lib_or_deliver l = true) ls /\
    fwd_done ev res s' = true /\ rclosed s' = true.
Proof.
  intros ev res exec sel cap. apply C15_closes. apply Nat.leb_le.
  first [ vm_compute; reflexivity
        | fail 1 "generated-table obligation C15_gen_closes no longer holds against the regenerated table: the channel of sendOneResultAndClose in subscription.go has no buffer (Gen/Consts.v)" ].
Qed.
Print Assumptions C15_gen_closes.

(* the forwarder's own result channel is a rendezvous (the model's delivery step), and it has
   sends to guard *)
Theorem C15_gen_result_channel :
  Gen.Consts.subscription_result_send_chan_caps = [0%N] /\
  (0 < Gen.Consts.subscription_result_sends_guarded)%N /\
  Gen.Consts.subscription_oneshot_send_chan_caps = [Gen.Consts.subscription_oneshot_chan_cap].
Proof.
  repeat split;
  first [ vm_compute; reflexivity
        | fail 1 "generated-table obligation C15_gen_result_channel no longer holds against the regenerated table: the channels of ExecuteSubscription / sendOneResultAndClose in subscription.go (Gen/Consts.v) are not one rendezvous channel with guarded sends and one one-shot channel" ].
Qed.
Print Assumptions C15_gen_result_channel.

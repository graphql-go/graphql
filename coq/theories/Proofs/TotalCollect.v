(* C09: unconditional termination of CollectFields (Exec.collect / Exec.collect_all)
   under the fuel bounds of Total/CollectBound.v, fuel monotonicity, growth of the
   visited set, and a non-vacuity example with a self-spreading fragment. *)
From Coq Require Import List String Bool Lia NArith.
From GQL Require Import Exec.Syntax Exec.Coerce Exec.Exec Total.CollectBound Proofs.CollectProofs
     Proofs.TotalCoerce.
Import ListNotations.
Open Scope string_scope.
Open Scope list_scope.

Definition vincl (v1 v2 : list name) : Prop :=
  forall x, nmem x v1 = true -> nmem x v2 = true.

Lemma vincl_refl : forall v, vincl v v.
Proof. intros v x Hx. exact Hx. Qed.

Lemma vincl_trans : forall v1 v2 v3, vincl v1 v2 -> vincl v2 v3 -> vincl v1 v3.
Proof. intros v1 v2 v3 H12 H23 x Hx. apply H23, H12, Hx. Qed.

Lemma vincl_cons : forall n v1 v2, vincl v1 v2 -> vincl (n :: v1) (n :: v2).
Proof.
  intros n v1 v2 H12 x Hx. cbn in *. apply orb_true_iff in Hx. apply orb_true_iff.
  destruct Hx as [Hx | Hx]; [left; exact Hx | right; apply H12; exact Hx].
Qed.

Lemma vincl_nil : forall v, vincl [] v.
Proof. intros v x Hx. discriminate Hx. Qed.

Lemma vincl_tail : forall n v, vincl v (n :: v).
Proof. intros n v x Hx. cbn. rewrite Hx. apply orb_true_r. Qed.

Lemma vincl_swap : forall a b v, vincl (a :: b :: v) (b :: a :: v).
Proof.
  intros a b v x Hx. cbn in *.
  destruct (String.eqb x a), (String.eqb x b); cbn in *; auto.
Qed.

Lemma csize_cons : forall s r, csize (s :: r) = sel_csize s + csize r.
Proof. reflexivity. Qed.

Lemma sel_csize_pos : forall s, 1 <= sel_csize s.
Proof. intros s. destruct s; cbn; lia. Qed.

Lemma unvisited_size_antitone : forall fs v1 v2,
  vincl v1 v2 -> unvisited_size fs v2 <= unvisited_size fs v1.
Proof.
  induction fs as [| f r IHr]; intros v1 v2 Hincl; cbn; [lia|].
  pose proof (IHr _ _ (vincl_cons (fr_name f) _ _ Hincl)) as Hr.
  destruct (nmem (fr_name f) v1) eqn:E1; [rewrite (Hincl _ E1); lia|].
  destruct (nmem (fr_name f) v2); lia.
Qed.

Lemma unvisited_size_le_total : forall D v, unvisited_size (d_frags D) v <= frag_total D.
Proof. intros D v. apply unvisited_size_antitone, vincl_nil. Qed.

Lemma unvisited_size_expand : forall fs nm f visited,
  find_fragment nm fs = Some f ->
  nmem nm visited = false ->
  csize (fr_sel f) + unvisited_size fs (nm :: visited) <= unvisited_size fs visited.
Proof.
  induction fs as [| f0 r IHr]; intros nm f visited Hfind Hnm; cbn in Hfind |- *; [discriminate|].
  rewrite (String.eqb_sym (fr_name f0) nm).
  destruct (String.eqb nm (fr_name f0)) eqn:Enm; cbn.
  - apply String.eqb_eq in Enm. injection Hfind as <-. subst nm. rewrite Hnm.
    pose proof (unvisited_size_antitone r _ _ (vincl_tail (fr_name f0) (fr_name f0 :: visited))). lia.
  - assert (Hnm' : nmem nm (fr_name f0 :: visited) = false) by (cbn; rewrite Enm; exact Hnm).
    pose proof (IHr nm f _ Hfind Hnm').
    pose proof (unvisited_size_antitone r _ _ (vincl_swap nm (fr_name f0) visited)). lia.
Qed.

(* one step (Proofs/CollectProofs.v): the visited set grows, and a fragment body that is
   entered is paid for by the node entered or by [unvisited_size] *)
Lemma step_cost : forall S D vars obj x v,
  match step S D vars obj x v with
  | Pass v1 => vincl v v1
  | Add _ _ => True
  | Enter body v1 =>
    vincl v v1 /\
    csize body + unvisited_size (d_frags D) v1 + 1 <= sel_csize x + unvisited_size (d_frags D) v
  end.
Proof.
  intros S D vars obj [id al nm args ds sub | id nm ds | id tc ds sub] v; cbn [step gstep dirs_of].
  - destruct (included S ds vars); [exact I | apply vincl_refl].
  - destruct (included S ds vars && negb (nmem nm v)) eqn:Ec; [| apply vincl_refl].
    destruct (find_fragment nm (d_frags D)) as [f |] eqn:Ef; [| apply vincl_refl].
    destruct (fragment_matches S (Some (fr_cond f)) obj); [| apply vincl_tail].
    split; [apply vincl_tail|]. apply andb_true_iff in Ec. destruct Ec as [_ Hv].
    pose proof (unvisited_size_expand _ _ _ _ Ef (proj1 (negb_true_iff _) Hv)). cbn. lia.
  - destruct (included S ds vars && fragment_matches S tc obj); [| apply vincl_refl].
    split; [apply vincl_refl|]. cbn [sel_csize]. fold (csize sub). lia.
Qed.

Lemma collect_visited_grows : forall S D vars obj fuel sels visited g g' v',
  collect fuel S D vars obj sels visited g = Some (g', v') ->
  forall x, nmem x visited = true -> nmem x v' = true.
Proof.
  intros S D vars obj.
  apply (collect_ind S D vars obj (fun _ v _ _ v' => vincl v v')); [intros; apply vincl_refl|].
  intros x rest v g g' v' H. pose proof (step_cost S D vars obj x v) as Hs.
  destruct (step S D vars obj x v) as [v1 | k o | body v1];
    [exact (vincl_trans _ _ _ Hs H) | exact H | destruct H as (g1 & v2 & H1 & H2)].
  exact (vincl_trans _ _ _ (proj1 Hs) (vincl_trans _ _ _ H1 H2)).
Qed.

(* termination for any visited set, and fuel monotonicity ([more], Proofs/TotalCoerce.v) *)
Lemma collect_fuel : forall S D vars obj fuel fuel', fuel <= fuel' -> forall sels visited g,
  more (csize sels + unvisited_size (d_frags D) visited + 1 <= fuel)
       (collect fuel S D vars obj sels visited g) (collect fuel' S D vars obj sels visited g).
Proof.
  intros S D vars obj. induction fuel as [|n IH]; intros fuel' Hle sels visited g.
  { split; [lia | intros r H; discriminate H]. }
  destruct fuel' as [|n']; [lia|]. specialize (IH n' ltac:(lia)).
  destruct sels as [|x rest]; [apply more_some|]. rewrite !collect_step, csize_cons.
  pose proof (sel_csize_pos x) as Hpos.
  assert (Hrest : forall v1 g1, vincl visited v1 ->
            more (sel_csize x + csize rest + unvisited_size (d_frags D) visited + 1 <= Datatypes.S n)
                 (collect n S D vars obj rest v1 g1) (collect n' S D vars obj rest v1 g1)).
  { intros v1 g1 Hv. apply (more_weaken (IH rest v1 g1)).
    pose proof (unvisited_size_antitone (d_frags D) _ _ Hv). lia. }
  pose proof (step_cost S D vars obj x visited) as Hs.
  destruct (step S D vars obj x visited) as [v1 | k o | body v1];
    [exact (Hrest _ _ Hs) | apply Hrest, vincl_refl | destruct Hs as [Hv Hs]].
  apply more_bind; [apply (more_weaken (IH body v1 g)); lia|].
  intros [g1 v2] Hc1. apply Hrest.
  exact (vincl_trans _ _ _ Hv (collect_visited_grows _ _ _ _ _ _ _ _ _ _ Hc1)).
Qed.

Lemma collect_terminates : forall S D vars obj fuel sels visited g,
  collect_bound D sels <= fuel -> collect fuel S D vars obj sels visited g <> None.
Proof.
  intros S D vars obj fuel sels visited g Hfuel. unfold collect_bound in Hfuel.
  pose proof (unvisited_size_le_total D visited).
  apply (collect_fuel S D vars obj fuel fuel (le_n _)). lia.
Qed.

Lemma collect_all_terminates_each : forall S D vars obj fuel sets visited g,
  Forall (fun s => collect_bound D s <= fuel) sets ->
  exists g', collect_all fuel S D vars obj sets visited g = Some g'.
Proof.
  intros S D vars obj fuel sets. induction sets as [| s r IHr]; intros visited g Hsets; cbn; [eauto|].
  apply Forall_cons_iff in Hsets. destruct Hsets as [Hs Hr].
  destruct (collect fuel S D vars obj s visited g) as [[g1 v1] |] eqn:Hc1; [apply IHr, Hr|].
  destruct (collect_terminates _ _ _ _ _ _ _ _ Hs Hc1).
Qed.

Lemma collect_all_terminates : forall S D vars obj fuel sets visited g,
  collect_all_bound D sets <= fuel -> collect_all fuel S D vars obj sets visited g <> None.
Proof.
  intros S D vars obj fuel sets visited g Hfuel.
  destruct (collect_all_terminates_each S D vars obj fuel sets visited g) as [g' Hc];
    [| rewrite Hc; discriminate].
  apply Forall_forall. intros s Hs. unfold collect_all_bound in Hfuel. unfold collect_bound.
  pose proof (in_split _ _ Hs) as (l1 & l2 & ->).
  rewrite map_app, list_sum_app in Hfuel. cbn in Hfuel. lia.
Qed.

Lemma collect_fuel_mono : forall S D vars obj fuel fuel' sels visited g r,
  collect fuel S D vars obj sels visited g = Some r ->
  fuel <= fuel' ->
  collect fuel' S D vars obj sels visited g = Some r.
Proof.
  intros S D vars obj fuel fuel' sels visited g r Hc Hle.
  exact (proj2 (collect_fuel S D vars obj fuel fuel' Hle sels visited g) r Hc).
Qed.

Lemma collect_all_fuel_mono : forall S D vars obj fuel fuel' sets visited g r,
  collect_all fuel S D vars obj sets visited g = Some r ->
  fuel <= fuel' ->
  collect_all fuel' S D vars obj sets visited g = Some r.
Proof.
  intros S D vars obj fuel fuel'.
  induction sets as [| s rest IHr]; intros visited g r Hc Hle; cbn [collect_all] in *; [exact Hc|].
  destruct (collect fuel S D vars obj s visited g) as [[g1 v1] |] eqn:E1; [| discriminate].
  rewrite (collect_fuel_mono _ _ _ _ _ _ _ _ _ _ E1 Hle). exact (IHr _ _ _ Hc Hle).
Qed.

(* a fragment that spreads itself on the same level:
   fragment F on Q { ...F x }   with the operation   { ...F }  *)
Definition ex_schema : schema :=
  {| s_types := [("String", TScalar SString);
                 ("Q", TObject [{| f_name := "x"; f_args := []; f_type := TNamed "String" |}] [])];
     s_query := "Q";
     s_mutation := None |}.

Definition ex_frag_F : fragment :=
  {| fr_name := "F"; fr_cond := "Q";
     fr_sel := [SSpread 20%N "F" []; SField 25%N None "x" [] [] []] |}.

Definition ex_sels : list selection := [SSpread 2%N "F" []].

Definition ex_doc : document :=
  {| d_ops := [{| o_kind := OpQuery; o_name := None; o_vars := []; o_sel := ex_sels |}];
     d_frags := [ex_frag_F] |}.

Example collect_same_level_cycle_example :
  collect (collect_bound ex_doc ex_sels) ex_schema ex_doc [] "Q" ex_sels [] []
  = Some ([("x", [{| oc_id := 25%N; oc_name := "x"; oc_args := []; oc_sub := [] |}])], ["F"]).
Proof. vm_compute. reflexivity. Qed.

(* The type map built by the reducer is closed under reference: every type
   entered during a successful traversal has all its references in the map.
   From that and the checks every entry passed: the closure clause of
   Consistent on the public view, and the facts about a schema that NewSchema
   and AppendType establish (built). *)
From Coq Require Import List NArith Bool.
From GQL Require Import Base.Bytes Types.Schema Types.Consistent Proofs.TypesReduce Proofs.TypesNames.
Import ListNotations.
Open Scope N_scope.

Definition ids (tm : tmap) : list N := map snd tm.

(* the references a definition makes, as the reducer walks them *)
Definition out_refs (defs : list (N * tdef)) (id : N) : list tref :=
  match find_def defs id with
  | Some (DObject _ _ _ _) => map TNamed (interfaces_of defs id) ++ field_refs (fields_of defs id)
  | Some (DInterface _ _ _) => field_refs (fields_of defs id)
  | Some (DUnion _ _ _) => map TNamed (members_of defs id)
  | Some (DInput _ fs) => map snd (match define_input_field_map defs fs with Some l => l | None => [] end)
  | _ => []
  end.

Lemma follow_out_refs defs id d l : find_def defs id = Some d -> follow defs d = Some (l, true) -> out_refs defs id = l.
Proof.
  intros Ed H. unfold out_refs, interfaces_of, fields_of, members_of. rewrite Ed.
  destruct d as [| ? ifs fs ?| ? fs ?| ? ms rt| |? fs]; cbn [follow] in H.
  - inversion H; reflexivity.
  - destruct (define_interfaces defs ifs); [|discriminate]. destruct (define_field_map defs fs); inversion H; reflexivity.
  - destruct (define_field_map defs fs); inversion H; reflexivity.
  - destruct (define_union_types defs ms rt); inversion H; reflexivity.
  - inversion H; reflexivity.
  - destruct (define_input_field_map defs fs); inversion H; reflexivity.
Qed.

Lemma edge_out_refs defs x i : edge defs x i -> exists t, In t (out_refs defs x) /\ target_of defs t = TgtTo i.
Proof. intros (d & l & t & Ed & Ef & Ht & Hi). exists t. rewrite (follow_out_refs defs x d l Ed Ef). auto. Qed.

Lemma entry_in_ids (tm : tmap) n i : In (n, i) tm -> In i (ids tm).
Proof. exact (in_map snd tm (n, i)). Qed.

Lemma in_ids_entry tm i : In i (ids tm) -> exists n, In (n, i) tm.
Proof. intros H. apply in_map_iff in H. destruct H as [[n j] [E H]]. simpl in E. subst. exists n. exact H. Qed.

Lemma good_entry defs tm i : tm_good defs tm -> In i (ids tm) -> In (name_of defs i, i) tm.
Proof.
  intros Hg Hi. destruct (in_ids_entry tm i Hi) as [n Hn]. rewrite (good_name_of defs tm n i (tm_good_ok _ _ Hg) Hn). exact Hn.
Qed.

Lemma good_name_inj defs tm i j : tm_good defs tm -> In i (ids tm) -> In j (ids tm) ->
  name_of defs i = name_of defs j -> i = j.
Proof.
  intros Hg Hi Hj E. pose proof (good_entry defs tm i Hg Hi) as Ei. pose proof (good_entry defs tm j Hg Hj) as Ej.
  rewrite E in Ei. exact (nodup_fst_inj tm _ i j (proj1 Hg) Ei Ej).
Qed.

Definition tgt_in (defs : list (N * tdef)) (tm : tmap) (t : tref) : Prop :=
  match target_of defs t with
  | TgtSkip => True
  | TgtBad => False
  | TgtTo i => In i (ids tm)
  end.

Definition done (defs : list (N * tdef)) (tm : tmap) (id : N) : Prop :=
  forall t, In t (out_refs defs id) -> tgt_in defs tm t.

Definition post (defs : list (N * tdef)) (tm tm' : tmap) : Prop :=
  incl (ids tm) (ids tm') /\ forall x, In x (ids tm') -> In x (ids tm) \/ done defs tm' x.

Lemma tgt_in_mono defs tm tm' t : incl (ids tm) (ids tm') -> tgt_in defs tm t -> tgt_in defs tm' t.
Proof. unfold tgt_in. destruct (target_of defs t); auto. Qed.

Lemma tgt_in_to defs tm t i : tgt_in defs tm t -> target_of defs t = TgtTo i -> In i (ids tm).
Proof. unfold tgt_in. intros H E. rewrite E in H. exact H. Qed.

Lemma done_mono defs tm tm' x : incl (ids tm) (ids tm') -> done defs tm x -> done defs tm' x.
Proof. intros Hi Hd t Ht. exact (tgt_in_mono _ _ _ _ Hi (Hd t Ht)). Qed.

Lemma post_refl defs tm : post defs tm tm.
Proof. split; [apply incl_refl|auto]. Qed.

Lemma post_trans defs tm tm1 tm2 : post defs tm tm1 -> post defs tm1 tm2 -> post defs tm tm2.
Proof.
  intros [I1 P1] [I2 P2]. split.
  - exact (incl_tran I1 I2).
  - intros x Hx. destruct (P2 x Hx) as [H1|Hd]; auto.
    destruct (P1 x H1) as [H0|Hd]; auto. right. exact (done_mono _ _ _ _ I2 Hd).
Qed.

Section Closed.
  Variable defs : list (N * tdef).

  Lemma fold_post {A} (step : tmap -> A -> res tmap) (g : A -> tref) :
    (forall tm x tm', step tm x = OK tm' -> post defs tm tm' /\ tgt_in defs tm' (g x)) ->
    forall l tm tm', fold_res step l tm = OK tm' -> post defs tm tm' /\ forall x, In x l -> tgt_in defs tm' (g x).
  Proof.
    intros Hstep. induction l as [|x r IHl]; intros tm tm' H; simpl in H.
    - inversion H; subst. split; [apply post_refl|intros x []].
    - destruct (step tm x) as [tm1| |] eqn:E; try discriminate.
      destruct (IHl tm1 tm' H) as [Hp2 Hr]. destruct (Hstep tm x tm1 E) as [Hp1 Ht]. split.
      + exact (post_trans _ _ _ _ Hp1 Hp2).
      + intros u [Hu|Hu]; [subst u|exact (Hr u Hu)]. exact (tgt_in_mono _ _ _ _ (proj1 Hp2) Ht).
  Qed.

  Lemma reduce_post_step (f : nat)
    (IH : forall tm id tm', visit defs f tm id = OK tm' -> post defs tm tm' /\ In id (ids tm')) :
    forall tm t tm', reduce defs f tm t = OK tm' -> post defs tm tm' /\ tgt_in defs tm' t.
  Proof.
    intros tm t tm' H. unfold reduce in H. unfold tgt_in. destruct (target_of defs t) as [| |i]; try discriminate.
    - inversion H; subst. split; [apply post_refl|exact I].
    - exact (IH tm i tm' H).
  Qed.

  Lemma visit_post : forall fuel tm id tm', visit defs fuel tm id = OK tm' ->
    post defs tm tm' /\ In id (ids tm').
  Proof.
    induction fuel as [|f IH]; intros tm id tm' H; [discriminate|]. rewrite visit_eq in H.
    destruct (find_def defs id) as [d|] eqn:Ed; [|discriminate].
    destruct (ctor_err d); [discriminate|].
    destruct (tm_find (def_name d) tm) as [id'|] eqn:Et.
    - destruct (id' =? id) eqn:Ei; inversion H; subst. apply N.eqb_eq in Ei. subst id'.
      split; [apply post_refl|exact (entry_in_ids _ _ _ (tm_find_some _ _ _ Et))].
    - destruct (follow defs d) as [[l [|]]|] eqn:Ef; try discriminate;
        destruct (fold_res _ l _) as [tm2| |] eqn:E2; inversion H; subst.
      destruct (fold_post _ (fun t => t) (reduce_post_step f IH) _ _ _ E2) as [[Hi Hp] Hr].
      rewrite <- (follow_out_refs _ _ _ _ Ed Ef) in Hr. split; [split|].
      + intros x Hx. apply Hi. right. exact Hx.
      + intros x Hx. destruct (Hp x Hx) as [[Heq|H0]|Hd]; auto. simpl in Heq. subst x. right. exact Hr.
      + apply Hi. left. reflexivity.
  Qed.

  Lemma add_type_post : forall fuel tm t tm', add_type defs fuel tm t = OK tm' ->
    post defs tm tm' /\ tgt_in defs tm' (norm t).
  Proof.
    intros fuel tm t tm' H. rewrite add_type_eq in H. destruct (type_err defs (norm t)); [discriminate|].
    exact (reduce_post_step fuel (visit_post fuel) _ _ _ H).
  Qed.

  Lemma add_types_post : forall fuel ts tm tm', fold_res (add_type defs fuel) ts tm = OK tm' ->
    post defs tm tm' /\ forall t, In t ts -> tgt_in defs tm' (norm t).
  Proof. intro fuel. exact (fold_post _ norm (add_type_post fuel)). Qed.
End Closed.

Definition closed (defs : list (N * tdef)) (tm : tmap) : Prop := forall x, In x (ids tm) -> done defs tm x.

Lemma post_closed defs tm tm' : closed defs tm -> post defs tm tm' -> closed defs tm'.
Proof.
  intros Hc [Hi Hp] x Hx. destruct (Hp x Hx) as [H0|Hd]; auto.
  exact (done_mono _ _ _ _ Hi (Hc x H0)).
Qed.

Lemma closed_nil defs : closed defs [].
Proof. intros x []. Qed.

Lemma closed_edge defs tm x t i : closed defs tm -> In x (ids tm) -> In t (out_refs defs x) ->
  target_of defs t = TgtTo i -> In i (ids tm).
Proof. intros Hc Hx Ht. exact (tgt_in_to _ _ _ _ (Hc x Hx t Ht)). Qed.

Lemma norm_target : forall defs t0 i, target_of defs (norm t0) = TgtTo i ->
  wf_ref (norm t0) = true /\ get_named (norm t0) = Some i.
Proof.
  induction t0 as [|j|t IH|t IH]; intros i H; simpl in *.
  - discriminate.
  - destruct (find_def defs j) as [d|]; try discriminate. destruct (ctor_err d); try discriminate.
    inversion H; subst. auto.
  - destruct (norm t) eqn:En; try discriminate; apply IH; exact H.
  - destruct (norm t) as [|j|u|u] eqn:En; simpl in *; try discriminate.
    + destruct (IH i H) as [Hw Hg]. auto.
    + destruct (IH i H) as [Hw Hg]. simpl in Hw. rewrite Hw. auto.
Qed.

Lemma target_skip defs : forall t, target_of defs t = TgtSkip -> t = TNil.
Proof.
  induction t as [|j|t IH|t IH]; intros H; simpl in H; auto.
  - destruct (find_def defs j) as [d|]; [destruct (ctor_err d)|]; discriminate.
  - destruct t; try discriminate; apply IH in H; discriminate.
  - destruct t; try discriminate; apply IH in H; discriminate.
Qed.

(* a reference as the lazy initialisers store it: normalised, of the kind the position allows *)
Definition stored (typ : list (N * tdef) -> tref -> bool) (defs : list (N * tdef)) (t : tref) : Prop :=
  (exists t0, t = norm t0) /\ typ defs t = true.

Definition field_stored (defs : list (N * tdef)) (f : vfield) : Prop :=
  stored is_output_type defs (vf_type f) /\ forall a, In a (vf_args f) -> stored is_input_type defs (snd a).

(* the step define_args and define_ifields share: the type normalised, not nil, an input type *)
Lemma input_entry defs t0 (n : name) (rest : option (list (name * tref))) l :
  match norm t0 with
  | TNil => None
  | t => if negb (is_input_type defs t) then None else match rest with Some l' => Some ((n, t) :: l') | None => None end
  end = Some l ->
  exists l', rest = Some l' /\ l = (n, norm t0) :: l' /\ stored is_input_type defs (norm t0).
Proof.
  intro H. destruct (norm t0) eqn:En; try discriminate; cbv zeta in H; destruct (is_input_type defs _) eqn:Ei; try discriminate;
    destruct rest as [l'|]; inversion H; exists l'; (split; [reflexivity|split; [reflexivity|split; [exists t0; symmetry; exact En|exact Ei]]]).
Qed.

Lemma define_args_spec defs : forall args l, define_args defs args = Some l ->
  forall a, In a l -> stored is_input_type defs (snd a).
Proof.
  induction args as [|[an [|t0]] r IH]; intros l H x Hx; cbn [define_args] in H.
  - inversion H; subst. destruct Hx.
  - destruct (negb (valid_name an)); discriminate.
  - destruct (negb (valid_name an)); [discriminate|]. apply input_entry in H. destruct H as (l' & Er & -> & Hs).
    destruct Hx as [<-|Hx]; [exact Hs|exact (IH l' Er x Hx)].
Qed.

Lemma define_fields_spec defs : forall fs l, define_fields defs fs = Some l -> forall f, In f l -> field_stored defs f.
Proof.
  induction fs as [|[fn [|t0 args]] r IH]; intros l H x Hx; cbn [define_fields] in H.
  - inversion H; subst. destruct Hx.
  - exact (IH l H x Hx).
  - assert (E : exists al l', is_output_type defs (norm t0) = true /\ define_args defs args = Some al
                  /\ define_fields defs r = Some l' /\ l = VF fn (norm t0) al :: l').
    { destruct (norm t0); try discriminate; destruct (type_err defs _); try discriminate;
        destruct (is_output_type defs _); try discriminate; destruct (negb (valid_name fn)); try discriminate;
        destruct (define_args defs args) as [al|]; try discriminate;
        destruct (define_fields defs r) as [l'|]; inversion H; eauto 6. }
    destruct E as (al & l' & Eo & Ea & Er & ->). destruct Hx as [<-|Hx]; [|exact (IH l' Er x Hx)].
    split; [split; [exists t0; reflexivity|exact Eo]|exact (define_args_spec defs args al Ea)].
Qed.

Lemma define_ifields_spec defs : forall fs l, define_ifields defs fs = Some l ->
  forall a, In a l -> stored is_input_type defs (snd a).
Proof.
  induction fs as [|[fn [|t0]] r IH]; intros l H x Hx; cbn [define_ifields] in H.
  - inversion H; subst. destruct Hx.
  - exact (IH l H x Hx).
  - destruct (negb (valid_name fn)); [exact (IH l H x Hx)|]. apply input_entry in H. destruct H as (l' & Er & -> & Hs).
    destruct Hx as [<-|Hx]; [exact Hs|exact (IH l' Er x Hx)].
Qed.

Lemma define_input_field_map_spec defs fs l : define_input_field_map defs fs = Some l ->
  forall a, In a l -> stored is_input_type defs (snd a).
Proof. unfold define_input_field_map. destruct fs; [discriminate|]. apply define_ifields_spec. Qed.

Lemma fields_of_stored defs i f : In f (fields_of defs i) -> field_stored defs f.
Proof.
  unfold fields_of, define_field_map. destruct (find_def defs i) as [[| ? ? fs ?| ? fs ?| | |]|]; try (intros []);
    (destruct fs; [intros []|]); (destruct (define_fields defs _) as [l|] eqn:E; [|intros []]); exact (define_fields_spec _ _ _ E f).
Qed.

Lemma interfaces_of_kind defs i j : In j (interfaces_of defs i) -> has_kind defs KInterface j = true.
Proof.
  unfold interfaces_of, define_interfaces. destruct (find_def defs i) as [[| ? r ? ?| | | |]|]; try (intros []).
  destruct r as [|l0|]; try (intros []). destruct (define_ids l0) as [ids0|]; [|intros []].
  destruct (forallb (has_kind defs KInterface) ids0) eqn:E; [|intros []]. exact (proj1 (forallb_forall _ _) E j).
Qed.

Lemma members_of_kind defs i j : In j (members_of defs i) -> has_kind defs KObject j = true.
Proof.
  unfold members_of, define_union_types. destruct (find_def defs i) as [[| | | ? r rt| |]|]; try (intros []).
  destruct r as [|[|x l0]|]; try (intros []). destruct (define_ids (x :: l0)) as [ids0|]; [|intros []].
  destruct (forallb (has_kind defs KObject) ids0) eqn:E; [|intros []]. destruct (_ || _); [|intros []].
  exact (proj1 (forallb_forall _ _) E j).
Qed.

Lemma vfind_view defs : forall tm i, In i (ids tm) ->
  exists n, vfind (view_types defs tm) i = Some (VT n i (vdef_of defs i)).
Proof.
  induction tm as [|[m j] r IH]; intros i Hi; simpl in *; [destruct Hi|].
  destruct (j =? i) eqn:E.
  - apply N.eqb_eq in E. subst j. exists m. reflexivity.
  - destruct Hi as [Hi|Hi]; [subst j; rewrite N.eqb_refl in E; discriminate|]. exact (IH i Hi).
Qed.

Lemma vfind_view_some defs : forall tm i vt, vfind (view_types defs tm) i = Some vt ->
  In i (ids tm) /\ vt_def vt = vdef_of defs i.
Proof.
  induction tm as [|[m j] r IH]; intros i vt H; simpl in *; [discriminate|].
  destruct (j =? i) eqn:E.
  - apply N.eqb_eq in E. subst j. inversion H. split; [left; reflexivity|reflexivity].
  - destruct (IH i vt H). split; [right|]; assumption.
Qed.

Lemma tgt_named_in defs tm j : tgt_in defs tm (TNamed j) -> In j (ids tm).
Proof.
  unfold tgt_in. simpl. destruct (find_def defs j) as [d|]; [|intros []].
  destruct (ctor_err d); [intros []|auto].
Qed.

Lemma ref_ok_view defs tm (allowed : vdef -> bool) (typ : list (N * tdef) -> tref -> bool) t :
  (typ defs t = true -> exists i, get_named t = Some i /\ allowed (vdef_of defs i) = true) ->
  stored typ defs t -> tgt_in defs tm t -> ref_ok (view_types defs tm) allowed t = true.
Proof.
  intros Hall [[t0 ->] Hi] Ht. destruct (Hall Hi) as (i' & Hg' & Ha). unfold tgt_in in Ht.
  destruct (target_of defs (norm t0)) as [| |i] eqn:Etg; try contradiction.
  - apply target_skip in Etg. rewrite Etg in Hg'. discriminate.
  - destruct (norm_target defs t0 i Etg) as [Hw Hg]. unfold ref_ok. rewrite Hw, Hg. simpl.
    destruct (vfind_view defs tm i Ht) as [n Hv]. rewrite Hv. simpl. congruence.
Qed.

Lemma vdef_input defs i d : find_def defs i = Some d -> is_input_kind (kind_of d) = true -> vkind_input (vdef_of defs i) = true.
Proof. intros Hd Hk. unfold vdef_of. rewrite Hd. destruct d; simpl in *; auto; discriminate. Qed.
Lemma vdef_output defs i d : find_def defs i = Some d -> is_output_kind (kind_of d) = true -> vkind_output (vdef_of defs i) = true.
Proof. intros Hd Hk. unfold vdef_of. rewrite Hd. destruct d; simpl in *; auto; discriminate. Qed.

Lemma ref_ok_input defs tm t : stored is_input_type defs t -> tgt_in defs tm t ->
  ref_ok (view_types defs tm) vkind_input t = true.
Proof.
  apply ref_ok_view. unfold is_input_type. intro H. destruct (get_named t) as [i|]; [|discriminate].
  exists i. destruct (find_def defs i) as [d|] eqn:Ed; [|discriminate]. split; [reflexivity|exact (vdef_input defs i d Ed H)].
Qed.

Lemma ref_ok_output defs tm t : stored is_output_type defs t -> tgt_in defs tm t ->
  ref_ok (view_types defs tm) vkind_output t = true.
Proof.
  apply ref_ok_view. unfold is_output_type. intro H. destruct (get_named t) as [i|]; [|discriminate].
  exists i. destruct (find_def defs i) as [d|] eqn:Ed; [|discriminate]. split; [reflexivity|exact (vdef_output defs i d Ed H)].
Qed.

Lemma in_field_refs f fs t : In f fs -> (t = vf_type f \/ In t (map snd (vf_args f))) -> In t (field_refs fs).
Proof.
  intros Hf Ht. unfold field_refs. apply in_flat_map. exists f. split; auto.
  apply in_or_app. destruct Ht as [Ht|Ht]; [right; left; auto|left; exact Ht].
Qed.

Lemma fields_ok_view defs tm (fs : list vfield) :
  (forall f, In f fs -> field_stored defs f) -> (forall t, In t (field_refs fs) -> tgt_in defs tm t) ->
  forallb (field_ok (view_types defs tm)) fs = true.
Proof.
  intros Hs Ht. apply forallb_forall. intros f Hf. destruct (Hs f Hf) as (Ho & Ha).
  unfold field_ok. apply andb_true_iff. split.
  - apply ref_ok_output; auto. apply Ht. apply (in_field_refs f); auto.
  - apply forallb_forall. intros a Hain. apply ref_ok_input; auto.
    apply Ht. apply (in_field_refs f); auto. right. apply in_map. exact Hain.
Qed.

Lemma has_kind_interface defs i : has_kind defs KInterface i = true -> vdef_of defs i = VInterface (fields_of defs i).
Proof. unfold has_kind, vdef_of. destruct (find_def defs i) as [[]|]; try discriminate. reflexivity. Qed.
Lemma has_kind_object defs i : has_kind defs KObject i = true ->
  vdef_of defs i = VObject (interfaces_of defs i) (fields_of defs i).
Proof. unfold has_kind, vdef_of. destruct (find_def defs i) as [[]|]; try discriminate. reflexivity. Qed.

Lemma abstract_vdef defs a : (vkind_interface (vdef_of defs a) = true \/ exists ms, vdef_of defs a = VUnion ms) ->
  is_abstract defs a = true.
Proof. unfold is_abstract, has_kind, vdef_of. destruct (find_def defs a) as [[]|]; intros [H|[ms H]]; try discriminate; reflexivity. Qed.

Lemma ids_ok_view defs tm allowed (l : list N) :
  (forall j, In j l -> allowed (vdef_of defs j) = true) ->
  (forall t, In t (map TNamed l) -> tgt_in defs tm t) ->
  forallb (id_ok (view_types defs tm) allowed) l = true.
Proof.
  intros Hk Ht. apply forallb_forall. intros j Hj. unfold id_ok.
  assert (Hin : In j (ids tm)). { apply (tgt_named_in defs). apply Ht. apply in_map. exact Hj. }
  destruct (vfind_view defs tm j Hin) as [n Hv]. rewrite Hv. simpl. exact (Hk j Hj).
Qed.

Lemma good_closed_type_ok defs tm : tm_good defs tm -> closed defs tm ->
  forall vt, In vt (view_types defs tm) -> type_ok (view_types defs tm) vt = true.
Proof.
  intros [_ Hall] Hc vt Hin. unfold view_types in Hin. apply in_map_iff in Hin.
  destruct Hin as [[n i] [Heq Hin]]. subst vt. destruct (Hall n i Hin) as (d & Hd & _).
  pose proof (Hc i (entry_in_ids _ _ _ Hin)) as Hdone. unfold done, out_refs in Hdone.
  unfold type_ok, vdef_of. cbn [vt_def snd]. rewrite Hd in *. destruct d as [| | | | |? fs]; auto.
  - apply andb_true_iff. split.
    + apply ids_ok_view; [intros j Hj; rewrite (has_kind_interface _ _ (interfaces_of_kind defs i j Hj)); reflexivity|].
      intros t Ht. apply Hdone, in_or_app. left. exact Ht.
    + apply fields_ok_view; [exact (fields_of_stored defs i)|]. intros t Ht. apply Hdone, in_or_app. right. exact Ht.
  - apply fields_ok_view; [exact (fields_of_stored defs i)|exact Hdone].
  - apply ids_ok_view; [|exact Hdone]. intros j Hj. rewrite (has_kind_object _ _ (members_of_kind defs i j Hj)). reflexivity.
  - destruct (define_input_field_map defs fs) as [l|] eqn:Ef; [|reflexivity].
    apply forallb_forall. intros a Ha.
    apply ref_ok_input; [exact (define_input_field_map_spec defs fs l Ef a Ha)|]. apply Hdone, in_map, Ha.
Qed.

Lemma root_is_vobject defs tm q : root_err defs (Some q) = false -> In q (ids tm) ->
  is_vobject (view_types defs tm) q = true.
Proof.
  intros Hr Hin. unfold is_vobject, id_ok. destruct (vfind_view defs tm q Hin) as [n Hv]. rewrite Hv. simpl.
  unfold root_err in Hr. unfold vdef_of. destruct (find_def defs q) as [d|]; try discriminate.
  destruct d; try discriminate. reflexivity.
Qed.

Definition invariants (S : schema) : Prop :=
  tm_good (s_defs S) (s_tm S) /\ closed (s_defs S) (s_tm S) /\ check_implementations S = true.

Inductive built (c : config) : schema -> Prop :=
| Built tm : config_ok c = true -> invariants (schema_of c tm) ->
    (forall t, In t (initial_types c) -> tgt_in (c_defs c) tm (norm t)) -> built c (schema_of c tm).

Lemma new_schema_built fuel c sch : new_schema_fuel fuel c = OK sch -> built c sch.
Proof.
  intros H. pose proof (new_schema_fuel_good _ _ _ H) as Hg. apply new_schema_fuel_tm in H.
  destruct H as (Hc & tm & -> & Hf & Hi). destruct (add_types_post _ _ _ _ _ Hf) as [Hp Hr].
  constructor; auto. split; [exact Hg|]. split; [exact (post_closed _ _ _ (closed_nil _) Hp)|exact Hi].
Qed.

Lemma append_type_built fuel c S t S' : built c S -> append_type_fuel fuel S t = OK S' ->
  built c S' /\ incl (ids (s_tm S)) (ids (s_tm S')).
Proof.
  intros [tm Hc (Hg & Hcl & _) Hr] H. apply append_type_fuel_tm in H. destruct H as (tm' & -> & Ha & Hi).
  destruct (add_type_post _ _ _ _ _ Ha) as [Hp _]. split; [|exact (proj1 Hp)].
  apply (Built c tm' Hc).
  - split; [exact (add_type_good _ _ _ _ _ Hg Ha)|]. split; [exact (post_closed _ _ _ Hcl Hp)|exact Hi].
  - intros u Hu. exact (tgt_in_mono _ _ _ _ (proj1 Hp) (Hr u Hu)).
Qed.

Lemma append_types_built fuel c : forall ts S S', built c S -> append_types_fuel fuel S ts = OK S' ->
  built c S' /\ incl (ids (s_tm S)) (ids (s_tm S')).
Proof.
  induction ts as [|t r IH]; intros S S' HB H; simpl in H.
  - inversion H; subst. split; [exact HB|apply incl_refl].
  - destruct (append_type_fuel fuel S t) as [S1| |] eqn:E; try discriminate.
    destruct (append_type_built _ _ _ _ _ HB E) as [HB1 I1]. destruct (IH S1 S' HB1 H) as [HB' I'].
    split; [exact HB'|exact (incl_tran I1 I')].
Qed.

Lemma built_invariants c S : built c S -> invariants S.
Proof. intros [tm _ Hi _]. exact Hi. Qed.

Lemma built_root c S r q : built c S -> In r [c_query c; c_mutation c; c_subscription c] -> r = Some q ->
  is_vobject (v_types (view_of S)) q = true.
Proof.
  intros [tm Hc _ Hr] Hin ->. apply (root_is_vobject (c_defs c) tm); [exact (config_ok_roots c _ Hc Hin)|].
  apply (tgt_named_in (c_defs c)). apply (Hr (TNamed q)). unfold initial_types.
  destruct Hin as [E|[E|[E|[]]]]; rewrite E; rewrite ?in_app_iff; simpl; auto.
Qed.

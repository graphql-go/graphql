(* The boolean checks are the relations of the Spec: isTypeSubTypeOf decides
   subtype, the interface check decides implements_field (for the schema's
   check and for the oracle's alike), and the oracle consistentb decides
   Consistent. *)
From Coq Require Import List NArith Bool.
From GQL Require Import Base.Bytes Types.Schema Types.Consistent Proofs.TypesReduce Proofs.TypesNames.
Import ListNotations.
Open Scope N_scope.

Lemma tref_eqb_eq : forall a b, tref_eqb a b = true <-> a = b.
Proof.
  induction a as [|i|a IH|a IH]; destruct b as [|j|b|b]; simpl; split; intro H;
    try reflexivity; try discriminate.
  - apply N.eqb_eq in H. subst. reflexivity.
  - inversion H; subst. apply N.eqb_refl.
  - apply IH in H. subst. reflexivity.
  - inversion H; subst. apply IH. reflexivity.
  - apply IH in H. subst. reflexivity.
  - inversion H; subst. apply IH. reflexivity.
Qed.

Lemma tref_eqb_refl : forall a, tref_eqb a a = true.
Proof. intro a. apply tref_eqb_eq. reflexivity. Qed.

Lemma is_equal_type_eq : forall a b, is_equal_type a b = true <-> a = b.
Proof.
  intros a b. rewrite <- tref_eqb_eq. revert b.
  induction a as [|i|a IH|a IH]; destruct b as [|j|b|b]; simpl; try reflexivity; apply IH.
Qed.

Lemma sub_sound poss : forall a b, is_type_sub_type_of poss a b = true -> subtype poss a b.
Proof.
  induction a as [|i|a IH|a IH]; intros b H.
  - destruct (tref_eqb TNil b) eqn:E; [apply tref_eqb_eq in E; subst; apply st_refl|].
    destruct b; simpl in *; discriminate.
  - destruct (tref_eqb (TNamed i) b) eqn:E; [apply tref_eqb_eq in E; subst; apply st_refl|].
    destruct b as [|j|b|b]; simpl in *; try discriminate. rewrite E in H. apply st_possible. exact H.
  - destruct (tref_eqb (TList a) b) eqn:E; [apply tref_eqb_eq in E; subst; apply st_refl|].
    destruct b as [|j|b|b]; simpl in *; try discriminate. rewrite E in H. apply st_list. apply IH. exact H.
  - destruct (tref_eqb (TNonNull a) b) eqn:E; [apply tref_eqb_eq in E; subst; apply st_refl|].
    destruct b as [|j|b|b]; simpl in H, E; [apply st_nonnull_l; auto ..|].
    rewrite E in H. apply st_nonnull. apply IH. exact H.
Qed.

Lemma sub_complete poss : forall a b, subtype poss a b -> is_type_sub_type_of poss a b = true.
Proof.
  intros a b H. induction H as [t|a b H IH|a b Hb H IH|a b H IH|o a H].
  - destruct t; simpl; rewrite ?N.eqb_refl, ?tref_eqb_refl; reflexivity.
  - simpl. destruct (tref_eqb a b); auto.
  - destruct b; simpl in *; try discriminate; auto.
  - simpl. destruct (tref_eqb a b); auto.
  - simpl. destruct (o =? a); auto.
Qed.

Lemma sub_reflect poss a b : is_type_sub_type_of poss a b = true <-> subtype poss a b.
Proof. split; [apply sub_sound|apply sub_complete]. Qed.

Lemma assoc_name_in {A} : forall (l : list (name * A)) n x, assoc_name n l = Some x -> In (n, x) l.
Proof.
  induction l as [|[m y] r IH]; simpl; intros n x H; try discriminate.
  destruct (bytes_eqb m n) eqn:E.
  - apply bytes_eqb_eq in E. inversion H; subst. left; reflexivity.
  - right. exact (IH n x H).
Qed.

(* the per-field interface check, over any test eqt for "the identical type":
   assertObjectImplementsInterface uses isEqualType, the oracle uses tref_eqb *)
Lemma implements_field_reflect (eqt : tref -> tref -> bool) poss ofs jf :
  (forall a b, eqt a b = true <-> a = b) ->
  match find_field (vf_name jf) ofs with
  | None => false
  | Some f =>
    is_type_sub_type_of poss (vf_type f) (vf_type jf)
    && forallb (fun ja => match assoc_name (fst ja) (vf_args f) with Some t => eqt (snd ja) t | None => false end) (vf_args jf)
    && forallb (fun oa => match assoc_name (fst oa) (vf_args jf) with Some _ => true | None => negb (is_non_null (snd oa)) end) (vf_args f)
  end = true <-> implements_field poss ofs jf.
Proof.
  intro Heq. unfold implements_field. destruct (find_field (vf_name jf) ofs) as [f|]; [|split; [discriminate|intros (f & Hf & _); discriminate]].
  rewrite !andb_true_iff, !forallb_forall, sub_reflect. split.
  - intros [[H1 H2] H3]. exists f. split; [reflexivity|]. split; [exact H1|]. split.
    + intros an at' Hin. specialize (H2 (an, at') Hin). simpl in H2.
      destruct (assoc_name an (vf_args f)) as [t|]; [|discriminate]. apply Heq in H2. subst. reflexivity.
    + intros an at' Hin Hnone. specialize (H3 (an, at') Hin). simpl in H3.
      rewrite Hnone in H3. apply negb_true_iff in H3. exact H3.
  - intros (f' & Hf & Hs & Ha & Hb). inversion Hf; subst f'. split; [split; [exact Hs|]|].
    + intros [an at'] Hin. simpl. rewrite (Ha an at' Hin). apply Heq. reflexivity.
    + intros [an at'] Hin. simpl. destruct (assoc_name an (vf_args jf)) eqn:E; auto. rewrite (Hb an at' Hin E). reflexivity.
Qed.

Lemma field_implements_iff poss ofs jf : field_implements poss ofs jf = true <-> implements_field poss ofs jf.
Proof. exact (implements_field_reflect is_equal_type poss ofs jf is_equal_type_eq). Qed.

Lemma implements_fieldb_iff ts ofs jf : implements_fieldb ts ofs jf = true <-> implements_field (possible ts) ofs jf.
Proof.
  apply (implements_field_reflect (fun a b => tref_eqb b a)). intros a b. rewrite tref_eqb_eq. split; congruence.
Qed.

(* every object of the schema implements each interface it declares, with
   respect to the schema's own IsPossibleType table *)
Lemma check_implementations_sound S : check_implementations S = true ->
  forall o i jf, In o (objects_of S) -> In i (interfaces_of (s_defs S) o) -> In jf (fields_of (s_defs S) i) ->
    implements_field (abstract_possible S) (fields_of (s_defs S) o) jf.
Proof.
  unfold check_implementations, assert_object_implements_interface. rewrite forallb_forall.
  intros H o i jf Ho Hi Hjf. specialize (H o Ho). rewrite forallb_forall in H. specialize (H i Hi).
  rewrite forallb_forall in H. apply field_implements_iff. exact (H jf Hjf).
Qed.

Lemma same_set_iff ts a row :
  same_set row (possible ts a) (map vt_id ts) = true <-> (forall o, In o row <-> possible ts a o = true).
Proof.
  unfold same_set. rewrite andb_true_iff, !forallb_forall. split.
  - intros [H1 H2] o. split; [apply H1|].
    intros Hp. assert (Hin : In o (map vt_id ts)).
    { unfold possible in Hp. destruct (vfind ts a); try discriminate. destruct (vfind ts o) as [vo|] eqn:E; try discriminate.
      destruct (vfind_some_in ts o vo E) as [Hi He]. rewrite <- He. apply in_map. exact Hi. }
    pose proof (H2 o Hin) as Hx. rewrite Hp in Hx. simpl in Hx. apply memN_in. exact Hx.
  - intros H. split.
    + intros o Ho. apply H. exact Ho.
    + intros o _. destruct (possible ts a o) eqn:E; auto. simpl. apply memN_in. apply H. exact E.
Qed.

(* clause cs_possible of Consistent, for one abstract type *)
Definition possible_rows (V : view) (vt : vtype) : Prop :=
  exists row row2, assocN (vt_id vt) (v_poss V) = Some row /\ assocN (vt_id vt) (v_isposs V) = Some row2
    /\ NoDup row
    /\ (forall o, In o row <-> possible (v_types V) (vt_id vt) o = true)
    /\ (forall o, In o row2 <-> possible (v_types V) (vt_id vt) o = true).

Lemma possibleb_row_iff V vt : possibleb_row V vt = true <->
  ((vkind_interface (vt_def vt) = true \/ exists ms, vt_def vt = VUnion ms) -> possible_rows V vt).
Proof.
  unfold possibleb_row.
  assert (Hrows : match assocN (vt_id vt) (v_poss V), assocN (vt_id vt) (v_isposs V) with
                  | Some row, Some row2 =>
                    nodupN row && same_set row (possible (v_types V) (vt_id vt)) (map vt_id (v_types V))
                    && same_set row2 (possible (v_types V) (vt_id vt)) (map vt_id (v_types V))
                  | _, _ => false
                  end = true <-> possible_rows V vt).
  { unfold possible_rows.
    destruct (assocN (vt_id vt) (v_poss V)) as [row|]; [destruct (assocN (vt_id vt) (v_isposs V)) as [row2|]|].
    - rewrite !andb_true_iff, nodupN_sound, !same_set_iff. split.
      + intros [[H1 H2] H3]. exists row, row2. auto.
      + intros (r & r2 & E1 & E2 & H). inversion E1; inversion E2; subst. tauto.
    - split; [discriminate|intros (r & r2 & _ & E & _); discriminate].
    - split; [discriminate|intros (r & r2 & E & _); discriminate]. }
  destruct (vt_def vt) as [|ifs fs|fs|ms| | |];
    try (split; [intros _ [H|[ms H]]; discriminate|reflexivity]);
    rewrite Hrows; (split; [auto|intro H; apply H; simpl; eauto]).
Qed.

Theorem consistentb_iff V : consistentb V = true <-> Consistent V.
Proof.
  unfold consistentb. rewrite !andb_true_iff, nodup_names_sound, !forallb_forall. split.
  - intros ((((((((C1 & C2) & C3) & C4) & C5) & C6) & C7) & C8) & C9). constructor; auto.
    + destruct (v_query V) as [q|]; [exists q; auto|discriminate].
    + intros m Hm. rewrite Hm in C5. exact C5.
    + intros m Hm. rewrite Hm in C6. exact C6.
    + intros n Hn. apply mem_name_in. exact (C7 n Hn).
    + intros vt ifs fs i jf Hin Hd Hi Hjf. specialize (C8 vt Hin). unfold implementsb in C8. rewrite Hd in C8.
      rewrite forallb_forall in C8. specialize (C8 i Hi). rewrite forallb_forall in C8.
      apply implements_fieldb_iff. exact (C8 jf Hjf).
    + intros vt Hin. apply possibleb_row_iff. exact (C9 vt Hin).
  - intros [C1 C2 C3 [q [Hq Hqo]] C5 C6 C7 C8 C9]. repeat split; auto.
    + rewrite Hq. exact Hqo.
    + destruct (v_mutation V); simpl; auto.
    + destruct (v_subscription V); simpl; auto.
    + intros n Hn. apply mem_name_in. exact (C7 n Hn).
    + intros vt Hin. unfold implementsb. destruct (vt_def vt) eqn:Ed; auto.
      rewrite forallb_forall. intros i Hi. rewrite forallb_forall. intros jf Hjf.
      apply implements_fieldb_iff. eauto.
    + intros vt Hin. apply possibleb_row_iff. exact (C9 vt Hin).
Qed.

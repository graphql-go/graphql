(* The schema's PossibleTypes / IsPossibleType tables are the possible types
   declared on the view; every object implements its interfaces with respect
   to them; hence the view of a schema built by NewSchema and AppendType is
   Consistent. *)
From Coq Require Import List NArith Bool.
From GQL Require Import Base.Bytes Types.Schema Types.Consistent Proofs.TypesReduce Proofs.TypesNames
  Proofs.TypesClosed Proofs.TypesImpl Proofs.TypesMain.
Import ListNotations.
Open Scope N_scope.

Lemma define_ids_spec : forall l ids0, define_ids l = Some ids0 -> NoDup ids0 /\ forall i, In i ids0 <-> In (Some i) l.
Proof.
  induction l as [|[j|] r IH]; simpl; intros ids0 H; try discriminate.
  - inversion H; subst. split; [constructor|]. intros i; split; intros [].
  - destruct (define_ids r) as [l'|]; try discriminate. destruct (memN j l') eqn:E; try discriminate.
    inversion H; subst. destruct (IH l' eq_refl) as [Hnd Hiff]. split.
    + constructor; auto. intros Hin. apply memN_in in Hin. congruence.
    + intros i. simpl. rewrite Hiff. split; intros [Hx|Hx]; auto; left; congruence.
Qed.

Lemma members_nodup defs a : NoDup (members_of defs a).
Proof.
  unfold members_of. destruct (find_def defs a) as [d|]; [|constructor]. destruct d; try constructor.
  unfold define_union_types. destruct types as [|l|]; try constructor. destruct l as [|x l]; try constructor.
  destruct (define_ids (x :: l)) as [ids0|] eqn:E; try constructor.
  match goal with |- NoDup (match (if ?b then _ else _) with _ => _ end) => destruct b end; try constructor.
  exact (proj1 (define_ids_spec _ _ E)).
Qed.

(* the subtype relation only looks at the possible-type relation on the named types the two references end in *)
Lemma subtype_ext (p1 p2 : N -> N -> bool) x b :
  subtype p1 x b ->
  (forall o a, get_named x = Some o -> get_named b = Some a -> p1 a o = true -> p2 a o = true) ->
  subtype p2 x b.
Proof.
  intros H. induction H as [t|a b H IH|a b Hb H IH|a b H IH|o a H]; intros Hp.
  - apply st_refl.
  - apply st_nonnull. apply IH. exact Hp.
  - apply st_nonnull_l; auto.
  - apply st_list. apply IH. exact Hp.
  - apply st_possible. apply Hp; auto.
Qed.

Lemma find_field_in : forall fs n f, find_field n fs = Some f -> In f fs.
Proof.
  induction fs as [|g r IH]; simpl; intros n f H; try discriminate.
  destruct (bytes_eqb (vf_name g) n).
  - inversion H; subst. left; reflexivity.
  - right. exact (IH n f H).
Qed.

Lemma assocN_map_key {A} (g : N -> A) : forall (l : list N) a, In a l -> assocN a (map (fun x => (x, g x)) l) = Some (g a).
Proof.
  induction l as [|x r IH]; simpl; intros a Hin; [contradiction|].
  destruct (x =? a) eqn:E.
  - apply N.eqb_eq in E. subst. reflexivity.
  - destruct Hin as [Hin|Hin]; [subst; rewrite N.eqb_refl in E; discriminate|]. exact (IH a Hin).
Qed.

Section View.
  Variable S : schema.
  Let defs := s_defs S.
  Let tm := s_tm S.
  Let ts := view_types defs tm.
  Hypothesis Hg : tm_good defs tm.
  Hypothesis Hc : closed defs tm.

  Lemma in_objects o : In o (objects_of S) <-> In o (ids tm) /\ has_kind defs KObject o = true.
  Proof. unfold objects_of. rewrite filter_In. reflexivity. Qed.

  Lemma members_in_map a o : In a (ids tm) -> In o (members_of defs a) -> In o (ids tm) /\ has_kind defs KObject o = true.
  Proof.
    intros Ha Ho. split; [|exact (members_of_kind defs a o Ho)]. apply (tgt_named_in defs), (Hc a Ha). revert Ho.
    unfold out_refs, members_of. destruct (find_def defs a) as [[]|]; try (intros []). apply in_map.
  Qed.

  (* PossibleTypes(a), for an abstract type of the map, is what the declarations say *)
  Lemma possible_types_spec a o : In a (ids tm) -> is_abstract defs a = true ->
    (In o (possible_types S a) <-> possible ts a o = true).
  Proof.
    intros Ha Hab. unfold possible. destruct (vfind_view defs tm a Ha) as [n Hv]. fold ts in Hv. rewrite Hv. simpl.
    unfold possible_types. fold defs. unfold is_abstract, has_kind in Hab. unfold vdef_of at 1.
    destruct (find_def defs a) as [d|] eqn:Ed; [|discriminate].
    destruct d as [| |na fs rt|na ms rt| |]; try discriminate; clear Hab.
    - unfold implementations. rewrite filter_In, in_objects. fold defs. split.
      + intros [[Ho Hk] Hm]. destruct (vfind_view defs tm o Ho) as [m Hvo]. fold ts in Hvo. rewrite Hvo. simpl.
        rewrite (has_kind_object defs o Hk). exact Hm.
      + intros H. destruct (vfind ts o) as [vo|] eqn:Evo; try discriminate.
        destruct (vfind_view_some defs tm o vo Evo) as [Ho Edo]. rewrite Edo in H.
        unfold vdef_of in H. unfold has_kind. destruct (find_def defs o) as [d|] eqn:Eo; try discriminate.
        destruct d; try discriminate. auto.
    - split.
      + intros Hm. destruct (members_in_map a o Ha Hm) as [Ho Hk].
        destruct (vfind_view defs tm o Ho) as [m Hvo]. fold ts in Hvo. rewrite Hvo. simpl.
        rewrite (has_kind_object defs o Hk). apply memN_in. exact Hm.
      + intros H. destruct (vfind ts o) as [vo|]; try discriminate.
        destruct (vt_def vo); try discriminate. apply memN_in. exact H.
  Qed.

  Lemma possible_types_in_map a o : In a (ids tm) -> In o (possible_types S a) -> In o (ids tm) /\ has_kind defs KObject o = true.
  Proof.
    intros Ha Ho. unfold possible_types in Ho. fold defs in Ho. destruct (find_def defs a) as [d|] eqn:Ed; [|destruct Ho].
    destruct d; try destruct Ho.
    - unfold implementations in Ho. apply filter_In in Ho. destruct Ho as [Ho _]. apply in_objects. exact Ho.
    - apply (members_in_map a o Ha Ho).
  Qed.

  Lemma assoc_name_map_first {A} (g : name * N -> A) (p : name * N -> bool) n i :
    NoDup (map fst tm) -> In (n, i) tm -> p (n, i) = true ->
    assoc_name n (map (fun e => (fst e, g e)) (filter p tm)) = Some (g (n, i)).
  Proof.
    generalize tm. induction tm0 as [|[m j] r IH]; simpl; intros Hnd Hin Hp; [contradiction|].
    inversion Hnd as [|x y Hni Hnd']; subst.
    destruct Hin as [Hin|Hin].
    - inversion Hin; subst. rewrite Hp. simpl. rewrite bytes_eqb_refl. reflexivity.
    - destruct (p (m, j)); simpl; [|exact (IH Hnd' Hin Hp)].
      rewrite bytes_eqb_false; [exact (IH Hnd' Hin Hp)|].
      intros ->. apply Hni. exact (in_map fst _ _ Hin).
  Qed.

  (* IsPossibleType(a, o) for types of the map is membership in PossibleTypes(a) *)
  Lemma is_possible_type_spec a o : In a (ids tm) -> is_abstract defs a = true -> In o (ids tm) ->
    (is_possible_type S a o = true <-> In o (possible_types S a)).
  Proof.
    intros Ha Hab Ho. unfold is_possible_type, possible_type_map. fold defs tm.
    pose proof (good_entry defs tm a Hg Ha) as Hea.
    rewrite (assoc_name_map_first (fun e => map (name_of defs) (possible_types S (snd e)))
               (fun e => is_abstract defs (snd e)) (name_of defs a) a (proj1 Hg) Hea Hab). simpl.
    rewrite mem_name_in, in_map_iff. split.
    - intros (o' & E & Ho'). destruct (possible_types_in_map a o' Ha Ho') as [Hin _].
      rewrite (good_name_inj defs tm o o' Hg Ho Hin (eq_sym E)). exact Ho'.
    - intros H. exists o. auto.
  Qed.

  Lemma abstract_possible_spec a o : In a (ids tm) -> In o (ids tm) ->
    (abstract_possible S a o = true <-> possible ts a o = true).
  Proof.
    intros Ha Ho. unfold abstract_possible. fold defs. split.
    - intros H. apply andb_true_iff in H. destruct H as [H H3]. apply andb_true_iff in H. destruct H as [H1 H2].
      apply possible_types_spec; auto. apply is_possible_type_spec; auto.
    - intros H. assert (Hab : is_abstract defs a = true).
      { apply abstract_vdef. unfold possible in H. destruct (vfind_view defs tm a Ha) as [n Hv]. fold ts in Hv. rewrite Hv in H. simpl in H.
        destruct (vfind ts o) as [vo|]; [|discriminate]. destruct (vdef_of defs a); try discriminate; [left; reflexivity|right; eauto]. }
      apply possible_types_spec in H; auto. destruct (possible_types_in_map a o Ha H) as [_ Hk].
      rewrite Hab, Hk. simpl. apply is_possible_type_spec; auto.
  Qed.

  Lemma possible_types_nodup a : NoDup (possible_types S a).
  Proof.
    unfold possible_types. fold defs. destruct (find_def defs a) as [d|] eqn:Ed; [|constructor].
    destruct d; try constructor.
    - unfold implementations, objects_of. apply NoDup_filter. apply NoDup_filter. exact (good_nodup_ids defs tm (tm_good_ok _ _ Hg)).
    - apply members_nodup.
  Qed.

  (* clause cs_possible of Consistent *)
  Lemma view_possible : forall vt, In vt ts ->
    (vkind_interface (vt_def vt) = true \/ exists ms, vt_def vt = VUnion ms) ->
    possible_rows (view_of S) vt.
  Proof.
    intros vt Hin Hk. unfold ts, view_types in Hin. apply in_map_iff in Hin.
    destruct Hin as [[n a] [Heq Hin]]. subst vt. simpl in *.
    pose proof (entry_in_ids tm n a Hin) as Ha.
    pose proof (abstract_vdef defs a Hk) as Hab.
    exists (possible_types S a), (filter (is_possible_type S a) (objects_of S)).
    assert (Hf : In a (filter (is_abstract defs) (map snd tm))) by (apply filter_In; auto).
    fold defs tm.
    split; [exact (assocN_map_key (possible_types S) _ a Hf)|].
    split; [exact (assocN_map_key (fun a => filter (is_possible_type S a) (objects_of S)) _ a Hf)|].
    split; [apply possible_types_nodup|]. split.
    - intros o. apply possible_types_spec; auto.
    - intros o. rewrite filter_In, in_objects. split.
      + intros [[Ho _] Hp]. apply possible_types_spec; auto. apply is_possible_type_spec; auto.
      + intros H. apply possible_types_spec in H; auto. destruct (possible_types_in_map a o Ha H) as [Ho Hk'].
        split; auto. apply is_possible_type_spec; auto.
  Qed.

  Lemma field_leaf_in_map x f i : In x (ids tm) -> In f (fields_of defs x) -> get_named (vf_type f) = Some i -> In i (ids tm).
  Proof.
    intros Hx Hf Hgn. destruct (proj1 (proj1 (fields_of_stored defs x f Hf))) as [t0 Hn].
    assert (Hin : In (vf_type f) (out_refs defs x)).
    { revert Hf. unfold out_refs, fields_of. destruct (find_def defs x) as [[]|]; try (intros []);
        intro Hf; [apply in_or_app; right|]; apply (in_field_refs f); auto. }
    pose proof (Hc x Hx _ Hin) as Ht. unfold tgt_in in Ht. rewrite Hn in *.
    destruct (target_of defs (norm t0)) as [| |j] eqn:Etg; try contradiction.
    - apply target_skip in Etg. rewrite Etg in Hgn. discriminate.
    - destruct (norm_target defs t0 j Etg) as [_ Hgj]. rewrite Hgj in Hgn. inversion Hgn; subst. exact Ht.
  Qed.

  Lemma interface_in_map o i : In o (ids tm) -> In i (interfaces_of defs o) -> In i (ids tm) /\ has_kind defs KInterface i = true.
  Proof.
    intros Ho Hi. split; [|exact (interfaces_of_kind defs o i Hi)]. apply (tgt_named_in defs), (Hc o Ho). revert Hi.
    unfold out_refs, interfaces_of. destruct (find_def defs o) as [[]|]; try (intros []). intro Hi. apply in_or_app. left. apply in_map, Hi.
  Qed.

  Hypothesis Himpl : check_implementations S = true.

  Lemma view_implements : forall vt ifs fs i jf, In vt ts -> vt_def vt = VObject ifs fs -> In i ifs ->
    In jf (fields_of_view ts i) -> implements_field (possible ts) fs jf.
  Proof.
    intros vt ifs fs i jf Hin Hdef Hi Hjf. unfold ts, view_types in Hin. apply in_map_iff in Hin.
    destruct Hin as [[n o] [Heq Hin]]. subst vt. simpl in Hdef.
    assert (Ho : In o (ids tm)) by exact (entry_in_ids tm n o Hin).
    assert (Hobj : has_kind defs KObject o = true /\ ifs = interfaces_of defs o /\ fs = fields_of defs o).
    { unfold vdef_of in Hdef. unfold has_kind. destruct (find_def defs o) as [d|] eqn:Ed; try discriminate.
      destruct d; try discriminate. inversion Hdef; subst. auto. }
    destruct Hobj as (Hk & Eifs & Efs). subst ifs fs.
    destruct (interface_in_map o i Ho Hi) as [Hiin Hik].
    assert (Efv : fields_of_view ts i = fields_of defs i).
    { unfold fields_of_view. destruct (vfind_view defs tm i Hiin) as [m Hv]. fold ts in Hv. rewrite Hv. simpl.
      rewrite (has_kind_interface defs i Hik). reflexivity. }
    rewrite Efv in Hjf.
    assert (Hoo : In o (objects_of S)) by (apply in_objects; auto).
    destruct (check_implementations_sound S Himpl o i jf Hoo Hi Hjf) as (f & Hf & Hs & Ha & Hb).
    exists f. split; auto. split; auto.
    apply (subtype_ext (abstract_possible S)); auto.
    intros o0 a0 Ho0 Ha0 Hp.
    apply (abstract_possible_spec a0 o0); auto.
    - exact (field_leaf_in_map i jf a0 Hiin Hjf Ha0).
    - exact (field_leaf_in_map o f o0 Ho (find_field_in _ _ _ Hf) Ho0).
  Qed.
End View.

(* everything except the roots and the introspection types, from the reducer's invariants *)
Record core_consistent (V : view) : Prop := {
  cc_unique : NoDup (map vt_name (v_types V));
  cc_names : forall vt, In vt (v_types V) -> valid_name (vt_name vt) = true;
  cc_closed : forall vt, In vt (v_types V) -> type_ok (v_types V) vt = true;
  cc_implements : forall vt ifs fs i jf, In vt (v_types V) -> vt_def vt = VObject ifs fs -> In i ifs ->
      In jf (fields_of_view (v_types V) i) -> implements_field (possible (v_types V)) fs jf;
  cc_possible : forall vt, In vt (v_types V) -> (vkind_interface (vt_def vt) = true \/ exists ms, vt_def vt = VUnion ms) ->
      exists row row2, assocN (vt_id vt) (v_poss V) = Some row /\ assocN (vt_id vt) (v_isposs V) = Some row2
        /\ NoDup row
        /\ (forall o, In o row <-> possible (v_types V) (vt_id vt) o = true)
        /\ (forall o, In o row2 <-> possible (v_types V) (vt_id vt) o = true) }.

Lemma core_of_invariants S : invariants S -> core_consistent (view_of S).
Proof.
  intros (Hg & Hc & Hi). constructor.
  - exact (good_unique_names S Hg).
  - exact (good_valid_names S Hg).
  - rewrite view_of_types. exact (good_closed_type_ok _ _ Hg Hc).
  - rewrite view_of_types. exact (view_implements S Hg Hc Hi).
  - rewrite view_of_types. exact (view_possible S Hg Hc).
Qed.

(* with the library's own definitions next to the user's: the roots are objects
   of the map and the introspection types are there, now and after any AppendType *)
Lemma built_consistent c S : built (with_meta c) S -> Consistent (view_of S).
Proof.
  intros HB. destruct (core_of_invariants S (built_invariants _ _ HB)) as [C1 C2 C3 C4 C5].
  pose proof (fun r q => built_root _ _ r q HB) as Hroot.
  pose proof (meta_present c S HB) as Hmeta. destruct HB as [tm Hok _ _].
  constructor; auto.
  - unfold config_ok in Hok. destruct (c_query (with_meta c)) as [q|] eqn:Eq; [|discriminate].
    exists q. split; [exact Eq|]. exact (Hroot _ q (or_introl eq_refl) eq_refl).
  - intros m Hm. exact (Hroot _ m (or_intror (or_introl eq_refl)) Hm).
  - intros m Hm. exact (Hroot _ m (or_intror (or_intror (or_introl eq_refl))) Hm).
Qed.

Theorem consistent_full fuel c sch : new_schema_fuel fuel (with_meta c) = OK sch -> Consistent (view_of sch).
Proof. intros H. exact (built_consistent c sch (new_schema_built _ _ _ H)). Qed.

(* without the library's own definitions everything but the roots and cs_meta holds *)
Theorem consistent_core fuel c sch : new_schema_fuel fuel c = OK sch -> core_consistent (view_of sch).
Proof. intros H. exact (core_of_invariants sch (built_invariants _ _ (new_schema_built _ _ _ H))). Qed.

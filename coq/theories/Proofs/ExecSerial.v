(* C13 / C20: resolver calls are segmented by response key in execution order, and for a
   mutation everything belonging to one top-level field precedes everything of the next. *)
From Coq Require Import List NArith String Bool Lia.
From GQL Require Import Exec.Syntax Exec.Exec Proofs.ExecField Proofs.ExecInv Run.ExecRun.
Import ListNotations.
Open Scope string_scope.
Open Scope list_scope.

(* the call paths recorded while a selection set at p is executed, segmented by response key *)
Inductive Seg (p : path) : list name -> list path -> Prop :=
| Seg_done ks : Seg p ks []
| Seg_cons k ks ps1 ps2 : Forall (prefix (p ++ [PKey k])) ps1 -> Seg p ks ps2 -> Seg p (k :: ks) (ps1 ++ ps2).

Lemma xstep_ok : forall A B C (r : xres A) (rest : st -> xres B) (c : A -> B -> C) z s',
  match r with
  | XOk y t => match rest t with XOk ys u => XOk (c y ys) u | XRaise e u => XRaise e u | XFuel => XFuel end
  | XRaise e t => XRaise e t
  | XFuel => XFuel
  end = XOk z s' ->
  exists y t ys, r = XOk y t /\ rest t = XOk ys s' /\ z = c y ys.
Proof.
  intros A B C [y t|e t|] rest c z s' H; try discriminate. destruct (rest t) as [ys u|e u|] eqn:G; try discriminate.
  injection H as <- <-. exists y, t, ys. auto.
Qed.

Lemma groups_entries : forall (Q : name -> presp -> Prop) E obj src p,
  (forall fuel k occs s y s',
     exec_field fuel (complete fuel E) (dethunk fuel E) E obj src k occs p s = XOk (Some y) s' -> Q k y) ->
  forall fuel g s fs s', exec_groups fuel E obj src g p s = XOk fs s' -> Forall (fun kv => Q (fst kv) (snd kv)) fs.
Proof.
  intros Q E obj src p HQ. induction fuel as [|fuel IH]; intros g s fs s' H; [discriminate|].
  cbn [exec_groups] in H. destruct g as [|[k occs] rest]; [injection H as <- _; constructor|].
  apply xstep_ok in H. destruct H as [y [s1 [ys [Ef [Eg ->]]]]].
  apply IH in Eg. destruct y as [y|]; [|exact Eg].
  constructor; [exact (HQ _ _ _ _ _ _ Ef)|exact Eg].
Qed.

Lemma groups_seg : forall fuel E obj src g p s,
  match exec_groups fuel E obj src g p s with
  | XOk _ s' | XRaise _ s' =>
    exists cs, st_calls s' = st_calls s ++ cs /\ Seg p (map fst g) (map c_path cs)
  | XFuel => True
  end.
Proof.
  induction fuel as [|fuel IH]; intros E obj src g p s; [exact I|].
  cbn [exec_groups]. destruct g as [|[k occs] rest].
  - exists []. rewrite app_nil_r. split; [reflexivity|constructor].
  - pose proof (proj1 (exec_field_inv fuel E obj src k occs p s)) as Hf.
    destruct (exec_field fuel _ _ E obj src k occs p s) as [y s'|e s'|]; auto;
      destruct Hf as [[[cs1 [Hc1 Hp1]] _] _]; apply Forall_map in Hp1.
    + specialize (IH E obj src rest p s').
      destruct (exec_groups fuel E obj src rest p s') as [ys s''|e s''|]; auto;
        destruct IH as [cs2 [Hc2 Hs2]]; exists (cs1 ++ cs2);
        (split; [rewrite Hc2, Hc1, app_assoc; reflexivity|]);
        cbn [map fst]; rewrite map_app; constructor; assumption.
    + exists cs1. split; [exact Hc1|].
      cbn [map fst]. rewrite <- (app_nil_r (map c_path cs1)). constructor; [exact Hp1|constructor].
Qed.

Lemma index_of_app : forall k pre ks i, ~ In k pre ->
  index_of k (pre ++ k :: ks) i = Some (i + N.of_nat (List.length pre))%N.
Proof.
  intros k pre. induction pre as [|x pre IH]; intros ks i H; cbn [app index_of List.length].
  - rewrite String.eqb_refl. f_equal. lia.
  - apply not_in_cons in H. destruct H as [H1 H2]. apply String.eqb_neq in H1.
    rewrite H1, (IH _ _ H2). f_equal. lia.
Qed.

Lemma nondecreasing_weaken : forall l i j, (i <= j)%N -> nondecreasing l j = true -> nondecreasing l i = true.
Proof.
  intros [|[y|] l] i j Hij H; cbn in *; auto.
  apply andb_true_iff in H. destruct H as [H1 H2]. apply andb_true_iff. split; [|exact H2].
  apply N.leb_le. apply N.leb_le in H1. lia.
Qed.

Lemma nondecreasing_block : forall l1 l2 i j,
  (forall x, In x l1 -> x = Some j) -> (i <= j)%N -> nondecreasing l2 j = true ->
  nondecreasing (l1 ++ l2) i = true.
Proof.
  induction l1 as [|x l1 IH]; intros l2 i j Hall Hij H2; cbn [app].
  - eapply nondecreasing_weaken; eassumption.
  - rewrite (Hall x (or_introl eq_refl)). cbn [nondecreasing].
    apply andb_true_iff. split; [apply N.leb_le, Hij|].
    apply (IH l2 j j); [|apply N.le_refl|exact H2]. intros y Hy. apply Hall. right. exact Hy.
Qed.

Lemma seg_serial : forall ks ps, Seg [] ks ps ->
  forall pre, NoDup (pre ++ ks) ->
    nondecreasing (map (top_index (pre ++ ks)) ps) (N.of_nat (List.length pre)) = true.
Proof.
  intros ks ps H. induction H as [ks|k ks ps1 ps2 H1 H2 IH]; intros pre Hn; [reflexivity|].
  rewrite map_app. apply (nondecreasing_block _ _ _ (N.of_nat (List.length pre))); [|apply N.le_refl|].
  - intros x Hx. apply in_map_iff in Hx. destruct Hx as [q [<- Hq]].
    rewrite Forall_forall in H1. destruct (H1 q Hq) as [r ->]. cbn [app top_index].
    rewrite index_of_app; [f_equal; lia|].
    intro Hk. apply (NoDup_remove_2 _ _ _ Hn), in_or_app. left. exact Hk.
  - specialize (IH (pre ++ [k])). rewrite <- app_assoc in IH. cbn [app] in IH.
    eapply nondecreasing_weaken; [|exact (IH Hn)]. rewrite app_length. cbn [List.length]. lia.
Qed.

(* Forcing a response that holds nothing deferred runs no resolver.  Such a response satisfies
   thunks_ok at every path, so what the pass records lies below two paths that are apart. *)
Lemma dethunk_nothunk_calls : forall fuel E q s, thunks q = [] ->
  match dethunk fuel E q s with
  | XOk _ s' => st_calls s' = st_calls s
  | XRaise _ _ => False
  | XFuel => True
  end.
Proof.
  intros fuel E q s Hq.
  destruct (exec_inv fuel) as [_ [_ [_ IHd]]].
  pose proof (IHd E q s [PKey "a"] (thunks_ok_nil _ _ Hq)) as Ha.
  pose proof (IHd E q s [PKey "b"] (thunks_ok_nil _ _ Hq)) as Hb.
  destruct (dethunk fuel E q s) as [q' s'|e s'|]; cbn in Ha, Hb; [|exact Ha|exact I].
  destruct Ha as [[[ca [Ea Fa]] _] _]. destruct Hb as [[[cb [Eb Fb]] _] _].
  rewrite Ea in Eb. apply app_inv_head in Eb. subst cb.
  destruct ca as [|c ca]; [rewrite app_nil_r in Ea; exact Ea|].
  inversion Fa as [|? ? [ra Ha] _]; subst. inversion Fb as [|? ? [rb Hb] _]; subst.
  rewrite Ha in Hb. discriminate.
Qed.

Lemma groups_serial_nothunks : forall fuel E obj src g s fs s',
  en_serial E = true -> exec_groups fuel E obj src g [] s = XOk fs s' ->
  Forall (fun kv => thunks (snd kv) = []) fs.
Proof.
  intros fuel E obj src g s fs s' Hser. apply (groups_entries (fun _ y => thunks y = [])).
  intros fuel0 k occs s0 y s0' H.
  pose proof (proj2 (exec_field_inv fuel0 E obj src k occs [] s0) Hser eq_refl) as Hn.
  rewrite H in Hn. exact Hn.
Qed.

Lemma groups_calls_serial : forall fuel E obj src g, NoDup (map fst g) ->
  match exec_groups fuel E obj src g [] st0 with
  | XOk _ s' | XRaise _ s' => serial_ok (map fst g) (map c_path (st_calls s')) = true
  | XFuel => True
  end.
Proof.
  intros fuel E obj src g Hn. pose proof (groups_seg fuel E obj src g [] st0) as Hseg.
  destruct (exec_groups fuel E obj src g [] st0); auto; destruct Hseg as [cs [-> Hs]]; exact (seg_serial _ _ Hs [] Hn).
Qed.

(* once its call is recorded, ExecuteField only extends the state, below the field's path: the
   call is the first it records (C20_call_record) *)
Lemma field_rest_ext : forall cmp dth ser t nodes occs fp ot s2,
  (forall v, inv1 fp s2 (cmp t nodes occs fp fp v s2)) ->
  (forall q s0, thunks_ok fp q -> invD fp s0 (dth q s0)) ->
  match field_rest cmp dth ser t nodes occs fp ot s2 with
  | XOk _ s' | XRaise _ s' => ext fp s2 s'
  | XFuel => True
  end.
Proof.
  intros cmp dth ser t nodes occs fp [o th] s2 IHc IHd. rewrite field_rest_eq. unfold field_finish.
  pose proof (field_caught_inv cmp t nodes occs fp o th s2 IHc) as H.
  destruct (field_caught cmp t nodes occs fp o th s2) as [y s'|e s'|]; cbn in H; try tauto.
  destruct ser; [|tauto]. destruct H as [H1 H2]. specialize (IHd y s' H2).
  destruct (dth y s') as [y' s''|e s''|]; cbn in IHd; try tauto. eapply ext_trans; [exact H1|tauto].
Qed.

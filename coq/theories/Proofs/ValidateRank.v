(* A document in which no fragment reaches itself through spreads has a rank (acyclic):
   the length of the longest spread chain from a fragment, computed with fuel; by the
   pigeonhole principle the computation is stable after |fragments| steps. *)
From Coq Require Import List Arith Lia Bool String Relations.
From GQL Require Import Exec.Syntax Validate.Overlap Validate.OverlapSpec Validate.OverlapWf
     Proofs.ValidateRules Proofs.ValidateOverlap Proofs.ValidateRun Proofs.ValidateCost Proofs.ValidateL1.
Import ListNotations.
Open Scope string_scope.
Open Scope list_scope.

Lemma list_max_attained : forall l k, list_max l = Datatypes.S k -> In (Datatypes.S k) l.
Proof.
  induction l as [|x r IH]; intros k H; [discriminate|]. simpl in H.
  destruct (Nat.max_spec x (list_max r)) as [[_ E]|[_ E]]; rewrite E in H.
  - right. apply IH. exact H.
  - left. exact H.
Qed.

(* if every value either stays or jumps to the common bound n, so does the maximum *)
Lemma list_max_map_step : forall {A} (f f' : A -> nat) l n,
  (forall x, f' x = f x \/ f' x = n) -> (forall x, f' x <= n) ->
  list_max (map f' l) = list_max (map f l) \/ list_max (map f' l) = n.
Proof.
  intros A f f' l n H Hn. induction l as [|y r IH]; [left; reflexivity|]. simpl.
  pose proof (list_max_map_le f' r n (fun x _ => Hn x)). specialize (Hn y). destruct (H y), IH; lia.
Qed.

Section Rank.
Variable S : schema.
Variable D : document.

Definition edgeD (g h : name) : Prop := exists b, fbody S D g = Some b /\ In h (all_spreads (snd b)).
Definition reachD : name -> name -> Prop := clos_trans name edgeD.
Definition no_cycle : Prop := forall g, ~ reachD g g.

Notation names := (map fr_name (d_frags D)).

Notation lp := (lp D).

Lemma lp_S : forall n g, lp (Datatypes.S n) g =
  match frag D g with None => O | Some fr => Datatypes.S (list_max (map (lp n) (all_spreads (fr_sel fr)))) end.
Proof. reflexivity. Qed.

Lemma lp_le : forall n g, lp n g <= n.
Proof.
  induction n as [|n IH]; intro g; simpl; [lia|]. destruct (frag D g) as [fr|]; [|lia].
  assert (list_max (map (lp n) (all_spreads (fr_sel fr))) <= n); [|lia].
  apply list_max_map_le. intros h _. apply IH.
Qed.

Lemma lp_step : forall n g, lp (Datatypes.S n) g = lp n g \/ lp (Datatypes.S n) g = Datatypes.S n.
Proof.
  induction n as [|n IH]; intro g.
  - simpl. destruct (frag D g) as [fr|]; [right|left; reflexivity].
    assert (list_max (map (fun _ : name => 0) (all_spreads (fr_sel fr))) <= 0); [|lia].
    apply list_max_map_le. intros h _. apply le_n.
  - rewrite (lp_S (Datatypes.S n)), (lp_S n). destruct (frag D g) as [fr|]; [|left; reflexivity].
    destruct (list_max_map_step (lp n) (lp (Datatypes.S n)) (all_spreads (fr_sel fr)) _ IH (lp_le _)) as [E|E];
      rewrite E; [left | right]; reflexivity.
Qed.

Inductive dpath : name -> list name -> Prop :=
| dp1 : forall g fr, frag D g = Some fr -> dpath g [g]
| dpS : forall g fr h l, frag D g = Some fr -> In h (all_spreads (fr_sel fr)) -> dpath h l -> dpath g (g :: l).

Lemma lp_path : forall n g, lp (Datatypes.S n) g = Datatypes.S n -> exists l, dpath g l /\ List.length l = Datatypes.S n.
Proof.
  induction n as [|n IH]; intros g H.
  - simpl in H. destruct (frag D g) as [fr|] eqn:Ef; [|discriminate]. exists [g]. split; [eapply dp1; eauto | reflexivity].
  - rewrite lp_S in H. destruct (frag D g) as [fr|] eqn:Ef; [|discriminate]. injection H as H.
    apply list_max_attained in H. apply in_map_iff in H. destruct H as [h [Eh Hh]].
    destruct (IH h Eh) as [l [Hp Hl]]. exists (g :: l). split; [eapply dpS; eauto | simpl; lia].
Qed.

Lemma frag_edge : forall g fr h, frag D g = Some fr -> In h (all_spreads (fr_sel fr)) -> edgeD g h.
Proof. intros g fr h Ef Hh. exists (resolve S (fr_cond fr), fr_sel fr). split; [apply fbody_frag; exact Ef | exact Hh]. Qed.

Lemma dpath_reach : forall g l, dpath g l -> forall x, In x l -> x = g \/ reachD g x.
Proof.
  intros g l H. induction H as [g fr Ef | g fr h l Ef Hh Hp IH]; intros x Hx.
  - destruct Hx as [Hx|[]]. left. symmetry. exact Hx.
  - destruct Hx as [Hx|Hx]; [left; symmetry; exact Hx|]. right.
    pose proof (frag_edge g fr h Ef Hh) as E.
    destruct (IH x Hx) as [Ex|R]; [subst x; apply t_step; exact E | eapply t_trans; [apply t_step; exact E | exact R]].
Qed.

Lemma dpath_defined : forall g l, dpath g l -> forall x, In x l -> In x names.
Proof.
  intros g l H. induction H as [g fr Ef | g fr h l Ef Hh Hp IH]; intros x Hx.
  - destruct Hx as [Hx|[]]. subst x. apply frag_defined. rewrite Ef. discriminate.
  - destruct Hx as [Hx|Hx]; [subst x; apply frag_defined; rewrite Ef; discriminate | apply IH; exact Hx].
Qed.

Hypothesis Hnc : no_cycle.

Lemma dpath_nodup : forall g l, dpath g l -> NoDup l.
Proof.
  intros g l H. induction H as [g fr Ef | g fr h l Ef Hh Hp IH].
  - constructor; [intros [] | constructor].
  - constructor; [|exact IH]. intro Hin. apply (Hnc g).
    pose proof (frag_edge g fr h Ef Hh) as E.
    destruct (dpath_reach h l Hp g Hin) as [Ex|R]; [subst h; apply t_step; exact E | eapply t_trans; [apply t_step; exact E | exact R]].
Qed.

Lemma lp_stable : forall g, lp (Datatypes.S (List.length names)) g = lp (List.length names) g.
Proof.
  intro g. destruct (lp_step (List.length names) g) as [E|E]; [exact E|]. exfalso.
  destruct (lp_path _ g E) as [l [Hp Hl]].
  pose proof (NoDup_incl_length (dpath_nodup g l Hp) (dpath_defined g l Hp)) as L. lia.
Qed.

Lemma lp_ranked : ranked S D (lp_rank D).
Proof.
  unfold lp_rank. rewrite <- (map_length fr_name). intros g b Eb h Hh.
  apply fbody_some in Eb. destruct Eb as [fr [Ef Eb]]. subst b. unfold bodyf in Hh. simpl in Hh. unfold Occ in Hh.
  rewrite (lp_stable h), lp_S, Ef.
  assert (lp (List.length names) h <= list_max (map (lp (List.length names)) (all_spreads (fr_sel fr)))); [|lia].
  apply list_max_in_le. apply in_map. exact Hh.
Qed.

Theorem rank_exists : acyclic S D.
Proof. exists (lp_rank D). exact lp_ranked. Qed.
End Rank.

Lemma acyclic_no_cycle : forall S D, acyclic S D -> no_cycle S D.
Proof.
  intros S D [rk Hrk] g R.
  assert (G : forall a b, reachD S D a b -> rk b < rk a).
  { intros a b H. induction H as [a b [bd [E Hh]] | a c b H1 IH1 H2 IH2]; [apply (Hrk a bd E b Hh) | lia]. }
  specialize (G g g R). lia.
Qed.

Theorem ranked_b_acyclic : forall S D, ranked_b D = true <-> acyclic S D.
Proof.
  intros S D. split.
  - intro H. exists (lp_rank D). intros g b Eb h Hh.
    apply fbody_some in Eb. destruct Eb as [fr [Ef Eb]]. subst b. unfold bodyf in Hh. simpl in Hh. unfold Occ in Hh.
    destruct (frag_some D g fr Ef) as [Hin En].
    unfold ranked_b in H. rewrite forallb_forall in H. specialize (H fr Hin). rewrite En, Ef in H.
    rewrite forallb_forall in H. specialize (H h Hh). apply Nat.ltb_lt in H. exact H.
  - intro A. pose proof (lp_ranked S D (acyclic_no_cycle S D A)) as R.
    unfold ranked_b. apply forallb_forall. intros f Hf.
    destruct (frag D (fr_name f)) as [fr|] eqn:Ef; [|reflexivity].
    apply forallb_forall. intros h Hh. apply Nat.ltb_lt.
    apply (R (fr_name f) (resolve S (fr_cond fr), fr_sel fr) (fbody_frag S D _ fr Ef) h Hh).
Qed.

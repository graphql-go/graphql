(* C09: the reference executor terminates on every request whose document passes
   the through-field fragment-cycle check, for every oracle, within the fuel
   [request_bound S D inputs] (Total/RequestBound.v).

   The executor has the level structure of [walk] (Proofs/TotalWalk.v): a level is the
   merged CollectFields of the sub-selections of one response key, and the measure m of
   TotalWalk decreases from a level to the next.  The invariant of collect is used with
   more in it: every field node met is a field node of the document (so its argument
   list is at most [doc_args_depth D] deep), and the response keys of a level are
   pairwise different keys of such nodes (so a level has at most [doc_size D] groups). *)
From Coq Require Import List Arith NArith String Bool Lia.
From GQL Require Import Exec.Syntax Exec.Coerce Exec.Exec Exec.Request
     Total.CollectBound Total.FragCycle Total.PlanWalk Total.CoerceBound Total.RequestBound
     Proofs.ExecField Proofs.TotalFragCycle Proofs.TotalCoerce Proofs.TotalCollect Proofs.TotalWalk
     Proofs.TotalDethunk.
From GQL Require Proofs.ExecArgs.
Import ListNotations.
Open Scope list_scope.

Lemma flat_map_length_le :
  forall (A B : Type) (f : A -> list B) (sz : A -> nat) (l : list A),
    (forall x, In x l -> List.length (f x) <= sz x) ->
    List.length (flat_map f l) <= list_sum (map sz l).
Proof.
  intros A B f sz l H. induction l as [|x r IH]; simpl; [lia|].
  rewrite app_length. pose proof (H x (or_introl eq_refl)).
  pose proof (IH (fun y Hy => H y (or_intror Hy))). lia.
Qed.

Lemma sel_fields_length : forall s, List.length (sel_fields s) <= sel_size s.
Proof.
  induction s as [id al nm args ds sub IH | id nm ds | id tc ds sub IH] using selection_ind';
    simpl; try lia; rewrite Forall_forall in IH;
    pose proof (flat_map_length_le _ _ sel_fields sel_size sub IH); lia.
Qed.

Lemma doc_fields_length : forall D, List.length (doc_fields D) <= doc_size D.
Proof.
  intros D. unfold doc_fields, doc_size, sels_fields. rewrite app_length.
  assert (Hs : forall sels, List.length (flat_map sel_fields sels) <= sels_size sels).
  { intros sels. apply flat_map_length_le. intros x _. apply sel_fields_length. }
  pose proof (flat_map_length_le _ _ (fun o => flat_map sel_fields (o_sel o))
                (fun o => sels_size (o_sel o)) (d_ops D) (fun o _ => Hs (o_sel o))).
  pose proof (flat_map_length_le _ _ (fun f => flat_map sel_fields (fr_sel f))
                (fun f => sels_size (fr_sel f)) (d_frags D) (fun f _ => Hs (fr_sel f))).
  lia.
Qed.

Lemma ginv_length : forall keys PO g,
    ginv (fun k => In k keys) PO g -> List.length g <= List.length keys.
Proof.
  intros keys PO g [Hnd Hall]. rewrite <- (map_length fst g).
  apply NoDup_incl_length; [exact Hnd|].
  intros x Hx. apply in_map_iff in Hx. destruct Hx as [kv [<- Hin]].
  rewrite Forall_forall in Hall. exact (proj1 (Hall kv Hin)).
Qed.

Section Levels.
  Variable D : document.
  Variable rk : name -> nat.
  Hypothesis Hrk : rank_respected D rk.

  Let dd := doc_args_depth D.
  Let keys := map fst (doc_fields D).

  Definition small (sels : list selection) : Prop := incl (sels_fields sels) (doc_fields D).

  Lemma small_op : forall op, In op (d_ops D) -> small (o_sel op).
  Proof.
    intros op Hop x Hx. unfold doc_fields. apply in_or_app. left.
    apply in_flat_map. exists op. split; assumption.
  Qed.

  Lemma small_frag : forall f, In f (d_frags D) -> small (fr_sel f).
  Proof.
    intros f Hf x Hx. unfold doc_fields. apply in_or_app. right.
    apply in_flat_map. exists f. split; assumption.
  Qed.

  Lemma doc_field_depth : forall k args, In (k, args) (doc_fields D) -> args_depth args <= dd.
  Proof.
    intros k args Hin.
    exact (in_map_list_max (fun ka : name * list (name * value) => args_depth (snd ka))
                           (k, args) (doc_fields D) Hin).
  Qed.

  (* a node of the level: as in Proofs/TotalWalk.v, and its field nodes are field nodes of the document *)
  Definition Nm (m : nat) (x : selection) : Prop :=
    node (Qm D rk m) (Pm D rk m) x /\ incl (sel_fields x) (doc_fields D).

  Definition POm (m : nat) (o : occ) : Prop :=
    Pm D rk m (oc_sub o) /\ args_depth (oc_args o) <= dd /\ small (oc_sub o).

  Definition Gm (m : nat) (g : groups) : Prop := ginv (fun k => In k keys) (POm m) g.

  Lemma Nm_field : forall m id al nm args ds sub,
      Nm m (SField id al nm args ds sub) ->
      In (match al with Some a => a | None => nm end) keys
      /\ POm m {| oc_id := id; oc_name := nm; oc_args := args; oc_sub := sub |}.
  Proof.
    intros m id al nm args ds sub [H1 H2]. pose proof (H2 _ (in_eq _ _)) as Hin.
    exact (conj (in_map fst _ _ Hin)
                (conj H1 (conj (doc_field_depth _ _ Hin) (fun y Hy => H2 y (in_cons _ y _ Hy))))).
  Qed.

  Lemma small_level : forall m s, lvls (Qm D rk m) (Pm D rk m) s -> small s -> level_all (Nm m) s.
  Proof.
    intros m s H1 H2 x Hx. split; [exact (H1 x Hx)|]. intros e He.
    exact (H2 e (on_level_flat_map _ sel_fields (fun _ _ _ _ => eq_refl) s x Hx e He)).
  Qed.

  Lemma Nm_spread : forall m id nm ds f,
      Nm m (SSpread id nm ds) -> find_fragment nm (d_frags D) = Some f -> level_all (Nm m) (fr_sel f).
  Proof.
    intros m id nm ds f [H1 _] Hfind.
    exact (small_level m _ (frag_closed D rk Hrk m nm f H1 Hfind)
                       (small_frag f (proj1 (CollectProofs.find_fragment_in _ _ _ Hfind)))).
  Qed.

  Definition set_ok (m : nat) (s : list selection) : Prop :=
    state D rk m s /\ sized D s /\ small s.

  Lemma level_groups :
    forall Sc vars fuel m obj sets,
      Forall (set_ok m) sets -> doc_size D + 1 <= fuel ->
      exists g, collect_all fuel Sc D vars obj sets [] [] = Some g /\ Gm m g.
  Proof.
    intros Sc vars fuel m obj sets Hsets Hfuel. rewrite Forall_forall in Hsets.
    destruct (collect_all_terminates_each Sc D vars obj fuel sets [] []) as [g Eg].
    { apply Forall_forall. intros s Hs.
      pose proof (sized_collect_bound D s (proj1 (proj2 (Hsets s Hs)))). lia. }
    exists g. split; [exact Eg|].
    apply (collect_all_inv D (Nm m) (fun k => In k keys) (POm m) (Nm_field m) (Nm_spread m))
      with (3 := Eg); [| apply ginv_nil].
    apply Forall_forall. intros s Hs. destruct (Hsets s Hs) as [H1 [H2 H3]].
    apply small_level; [apply state_lvls; assumption | exact H3].
  Qed.

  Lemma Gm_length : forall m g, Gm m g -> List.length g <= doc_size D.
  Proof.
    intros m g Hg. pose proof (ginv_length keys (POm m) g Hg) as H.
    unfold keys in H. rewrite map_length in H. pose proof (doc_fields_length D). lia.
  Qed.

  Definition occs_ok (m' : nat) (occs : list occ) : Prop :=
    Forall (fun o => set_ok m' (oc_sub o)) occs.

  Lemma occs_ok_sets : forall m' occs, occs_ok m' occs -> Forall (set_ok m') (map oc_sub occs).
  Proof.
    intros m' occs H. apply Forall_forall. intros s Hs. apply in_map_iff in Hs.
    destruct Hs as [o [<- Hin]]. exact (proj1 (Forall_forall _ _) H o Hin).
  Qed.

  Lemma Gm_cons : forall m k occs rest,
      Gm m ((k, occs) :: rest) ->
      Gm m rest
      /\ exists m', m = S m' /\ occs_ok m' occs
                    /\ args_depth (match occs with o :: _ => oc_args o | [] => [] end) <= dd.
  Proof.
    intros m k occs rest [Hnd Hall]. apply Forall_cons_iff in Hall. destruct Hall as [[_ [Hne Hpo]] Hr].
    apply NoDup_cons_iff in Hnd. destruct Hnd as [_ Hnd']. split; [split; assumption|].
    simpl in Hne, Hpo. destruct occs as [|o r]; [congruence|].
    pose proof (Forall_inv Hpo) as Ho. destruct Ho as [[Hm _] [Ha _]].
    destruct m as [|m']; [lia|]. exists m'. split; [reflexivity|]. split; [| exact Ha].
    refine (Forall_impl _ _ Hpo). intros o' [[_ [Hst Hsz]] [_ Hsm]].
    rewrite Nat.sub_1_r in Hst. exact (conj Hst (conj Hsz Hsm)).
  Qed.
End Levels.

(* results that are not out of fuel and whose value satisfies P: [xsat P True False] *)
Definition okx {A : Type} (P : A -> Prop) (r : xres A) : Prop :=
  match r with
  | XOk a _ => P a
  | XRaise _ _ => True
  | XFuel => False
  end.

Lemma okx_nofuel : forall (A : Type) (P : A -> Prop) r, okx P r -> r <> XFuel.
Proof. intros A P r H Heq. subst r. exact H. Qed.

Fixpoint list_depth (t : tyref) : nat :=
  match t with
  | TNamed _ => 0
  | TList t' => S (list_depth t')
  | TNonNull t' => list_depth t'
  end.

Lemma list_depth_lt : forall t, list_depth t < ty_size t.
Proof. induction t; simpl; lia. Qed.

Section Main.
  (* the environment of a request; it is passed on unchanged *)
  Variable E : env.
  Variable rk : name -> nat.
  Let Sc := en_S E.
  Let D := en_D E.
  Hypothesis Hrk : rank_respected D rk.

  Definition W0 : nat := out_width Sc.
  Definition A0 : nat := coerce_bound (in_width Sc) (doc_args_depth D).
  Definition C0 : nat := doc_size D + 1.
  Definition K0 : nat := doc_size D.

  (* budget of m levels: each pays for its response keys, one argument coercion, the
     wrappers of one field type, one CollectFields and four steps in between *)
  Definition lv (m : nat) : nat := m * level_unit Sc D.

  Lemma lv_S : forall m, lv (S m) = lv m + (K0 + A0 + W0 + C0 + 4).
  Proof. intros m. unfold lv. change (level_unit Sc D) with (K0 + A0 + W0 + C0 + 4). lia. Qed.

  (* [val m w q]: below q there are at most m selection-set levels and w List wrappers, which is
     what the dethunk pass has to cross; [fval m q]: the value of a field, with the wrappers of a
     field type, or a deferred value that will be completed to one *)
  Inductive val : nat -> nat -> presp -> Prop :=
  | val_null : forall m w, val m w QNull
  | val_leaf : forall m w v, val m w (QLeaf v)
  | val_list : forall m w l, Forall (val m w) l -> val m (S w) (QList l)
  | val_obj : forall m w fs,
      Forall (fun kv : name * presp => fval m (snd kv)) fs -> val (S m) w (QObj fs)
  with fval : nat -> presp -> Prop :=
  | fval_val : forall m w q, w <= W0 -> val m w q -> fval m q
  | fval_thunk : forall m' t nodes occs p o,
      ty_size t <= W0 -> occs_ok D rk m' occs -> fval (S m') (QThunk t nodes occs p o).

  Definition P_complete (fuel : nat) : Prop :=
    forall m' t nodes occs fpath p v s,
      occs_ok D rk m' occs -> ty_size t + 1 + C0 + lv (S m') <= fuel ->
      okx (val (S m') (list_depth t)) (complete fuel E t nodes occs fpath p v s).

  Definition P_object (fuel : nat) : Prop :=
    forall m' obj occs p src s,
      occs_ok D rk m' occs -> 1 + C0 + lv (S m') <= fuel ->
      okx (fun q => forall w, val (S m') w q) (exec_object fuel E obj occs p src s).

  Definition P_groups (fuel : nat) : Prop :=
    forall m obj src g p s,
      Gm D rk m g -> List.length g + A0 + W0 + C0 + 4 + lv m <= fuel ->
      okx (Forall (fun kv : name * presp => fval m (snd kv))) (exec_groups fuel E obj src g p s).

  Definition P_dv (fuel : nat) : Prop :=
    forall m w q s, val m w q -> w + 1 + lv m <= fuel -> okx (val m w) (dethunk fuel E q s).

  Definition P_df (fuel : nat) : Prop :=
    forall m q s, fval m q -> W0 + C0 + 3 + lv m <= fuel -> okx (fval m) (dethunk fuel E q s).

  Lemma exec_all : forall fuel,
      P_complete fuel /\ P_object fuel /\ P_groups fuel /\ P_dv fuel /\ P_df fuel.
  Proof.
    induction fuel as [|fuel [IHc [IHo [IHg [IHv IHd]]]]]; [repeat split; intros m; intros; lia|].
    assert (Hnull : forall m, fval m QNull) by (intro m; apply (fval_val m 0); [apply Nat.le_0_l | constructor]).
    assert (IHv' : P_dv (S fuel)).
    { intros m w q s Hv Hf. rewrite dethunk_S.
      destruct Hv as [m w | m w v | m w l Hl | m w fs Hfs]; try constructor.
      - eapply xsat_bind; [|intros ys s' H; constructor; exact H].
        apply (xsat_dlist (val m w)); [| exact Hl].
        intros x s0 Hx. apply IHv; [exact Hx | exact (le_S_n _ _ Hf)].
      - eapply xsat_bind; [|intros ys s' H; constructor; exact H].
        apply (xsat_dfields (fval m)); [| exact Hfs].
        intros x s0 Hx. apply IHd; [exact Hx | pose proof (lv_S m); lia]. }
    split; [|split; [|split; [|split; [exact IHv'|]]]].
    - intros m' t nodes occs fpath p v s Hocc Hf.
      rewrite complete_S. destruct t as [n | t' | t']; simpl in Hf; simpl list_depth.
      + destruct (rv_nullish v); [constructor|]. unfold complete_named.
        assert (Hobj : forall rt s1, okx (val (S m') 0) (exec_object fuel E rt occs p v s1)).
        { intros rt s1. eapply xsat_weaken; [| apply (IHo m' rt occs p v s1 Hocc); exact (le_S_n _ _ Hf)].
          intros a Ha. apply Ha. }
        destruct (lookup_type (en_S E) n) as [[k|vals|fs ifs|fs|ms|fs]|]; simpl; try exact I;
          try (destruct (nullish _); constructor); try apply Hobj;
          (destruct (en_tor E v) as [rt|]; [| exact I]);
          (destruct (possible_type (en_S E) n rt); [apply Hobj | exact I]).
      + destruct (rv_nullish v); [constructor|]. destruct v; try exact I.
        eapply xsat_bind; [|intros ys s' H; constructor; exact H].
        apply xsat_items. intros i x s0. apply xsat_catch; [constructor|].
        apply IHc; [exact Hocc | exact (le_S_n _ _ Hf)].
      + eapply xsat_bind; [apply IHc; [exact Hocc | exact (le_S_n _ _ Hf)]|].
        intros [] s' H; solve [exact I | exact H].
    - intros m' obj occs p src s Hocc Hf.
      rewrite exec_object_S.
      destruct (level_groups D rk Hrk Sc (en_vars E) fuel m' obj (map oc_sub occs)) as [g [Eg Hg]];
        [apply occs_ok_sets; exact Hocc | unfold C0 in Hf; lia |].
      fold Sc D. rewrite Eg. eapply xsat_bind; [|intros fs s' H w; constructor; exact H].
      apply IHg; [exact Hg |].
      pose proof (Gm_length D rk m' g Hg). pose proof (lv_S m'). unfold K0, C0 in *. lia.
    - intros m obj src g p s Hg Hf.
      rewrite exec_groups_S. destruct g as [|[k occs] rest]; [constructor|].
      destruct (Gm_cons D rk m k occs rest Hg) as [Hrest [m' [-> [Hocc Had]]]].
      simpl in Hf.
      apply (xsat_bind _ _ (fun y => match y with Some q => fval (S m') q | None => True end)).
      + rewrite exec_field_unfold. cbv zeta.
        destruct (String.eqb _ "__typename"); [apply (fval_val _ 0); [apply Nat.le_0_l | constructor]|].
        destruct (find_field _ (object_fields (en_S E) obj)) as [fd|] eqn:Hff; [| exact I].
        pose proof (find_field_out_width Sc obj _ fd Hff) as How. fold W0 in How.
        destruct (get_argument_values fuel (en_S E) (f_args fd) _ (Some (en_vars E))) as [args|] eqn:Hga.
        2:{ revert Hga. apply (get_argument_values_terminates_uniform Sc (f_args fd) _ _
                                 (in_width Sc) (doc_args_depth D) fuel);
              [exact (find_field_arg_width Sc obj _ fd Hff) | apply le_n | exact Had |].
            unfold A0 in Hf. lia. }
        apply (xsat_field_rest (fval (S m'))); [exact (Hnull _) | intros _; constructor; assumption | |].
        * intro v. pose proof (list_depth_lt (f_type fd)).
          eapply xsat_weaken; [|apply IHc; [exact Hocc | lia]].
          intros a Ha. apply (fval_val _ (list_depth (f_type fd))); [lia | exact Ha].
        * intros y s' Hy. apply IHd; [exact Hy | lia].
      + intros y s' Hy. eapply xsat_bind; [apply (IHg (S m')); [exact Hrest | lia]|].
        intros ys s'' Hys. destruct y; [constructor|]; assumption.
    - intros m q s Hq Hf.
      destruct Hq as [m w q Hw Hv | m' t nodes occs p o Ht Hocc].
      + eapply xsat_weaken; [exact (fun a => fval_val m w a Hw) | apply (IHv' m w q s Hv); lia].
      + rewrite dethunk_S. pose proof (list_depth_lt t) as Hld.
        apply (xsat_bind _ _ (val (S m') (list_depth t))).
        * apply xsat_catch; [constructor|]. destruct o; try exact I.
          apply IHc; [exact Hocc | lia].
        * intros y s' Hy.
          eapply xsat_weaken; [| apply (IHv (S m') (list_depth t) y s' Hy); lia].
          intros a Ha. apply (fval_val _ (list_depth t)); [lia | exact Ha].
  Qed.
End Main.

Theorem request_total_rank :
  forall Sc D rk, rank_respected D rk -> (forall a, rk a <= max_rank D) ->
    forall op inputs root or tor fuel,
      request_bound Sc D inputs <= fuel ->
      request fuel Sc D op inputs root or tor <> RFuel.
Proof.
  intros Sc D rk Hrk HR op inputs root or tor fuel Hfuel.
  unfold request_bound in Hfuel. unfold request.
  destruct (get_operation D op) as [o|] eqn:Hop; [| discriminate].
  destruct (root_type Sc o) as [rt|]; [| discriminate].
  pose proof (ExecArgs.get_operation_in D op o Hop) as Hin.
  pose proof (in_map_list_max (fun o => vars_bound Sc (o_vars o) inputs) o (d_ops D) Hin) as Hvb.
  simpl in Hvb.
  pose proof (get_variable_values_terminates Sc (o_vars o) inputs fuel ltac:(lia)) as Hgv.
  destruct (get_variable_values fuel Sc (o_vars o) inputs) as [[vars|b]|];
    [| discriminate | congruence].
  clear Hgv.
  set (E := {| en_S := Sc; en_D := D; en_vars := vars; en_or := or; en_tor := tor;
               en_serial := match o_kind o with OpMutation => true | _ => false end |}).
  set (M0 := exec_levels D) in *.
  assert (Hb : doc_size D + 1 <= fuel /\ 1 + lv E (S M0) <= fuel).
  { assert (Hu : doc_size D + 1 <= level_unit Sc D) by (unfold level_unit; lia).
    unfold exec_bound in Hfuel. change (lv E (S M0)) with (S M0 * level_unit Sc D). split; lia. }
  pose proof (lv_S E M0) as HlvS.
  destruct (level_groups D rk Hrk Sc vars fuel M0 rt [o_sel o]) as [g [Eg Hg]]; [|lia|].
  { constructor; [| constructor]. split; [| split].
    - apply (op_state D rk (max_rank D) HR o Hin).
    - apply sized_op; exact Hin.
    - apply small_op; exact Hin. }
  simpl in Eg.
  destruct (collect fuel Sc D vars rt (o_sel o) [] []) as [[g' v']|]; [| discriminate].
  injection Eg as ->.
  destruct (exec_all E rk Hrk fuel) as [_ [_ [IHg [IHv _]]]].
  pose proof (Gm_length D rk M0 g Hg) as Hlen.
  pose proof (IHg M0 rt root g [] st0 Hg ltac:(unfold K0, C0 in *; cbn [en_D E] in *; lia)) as Hx.
  destruct (exec_groups fuel E rt root g [] st0) as [fs s1|e s1|]; simpl in Hx;
    [| discriminate | contradiction].
  pose proof (IHv (S M0) 0 (QObj fs) s1 (val_obj E rk M0 0 fs Hx) ltac:(lia)) as Hd.
  destruct (dethunk fuel E (QObj fs) s1) as [q s2|e s2|]; simpl in Hd;
    [discriminate | discriminate | contradiction].
Qed.

Theorem request_total : forall S D op inputs root or tor,
    fragment_cycle_through_field D = false ->
    forall fuel, request_bound S D inputs <= fuel ->
    request fuel S D op inputs root or tor <> RFuel.
Proof.
  intros S D op inputs root or tor Hchk fuel Hfuel.
  destruct (cycle_check_bounded_rank D Hchk) as [rk [Hrk HR]].
  exact (request_total_rank S D rk Hrk HR op inputs root or tor fuel Hfuel).
Qed.

Corollary request_terminates : forall S D op inputs root or tor,
    fragment_cycle_through_field D = false ->
    exists r, request (request_bound S D inputs) S D op inputs root or tor = r /\ r <> RFuel.
Proof.
  intros S D op inputs root or tor Hchk. eexists. split; [reflexivity|].
  apply request_total; [exact Hchk | apply le_n].
Qed.

Print Assumptions request_total.

(* Facts about the error-position recogniser (SynErr/ParseErr.v) that follow from
   its combinators, as one relation between two recognisers:

   Sim f g   wherever f stops -- the rest after success, the rest at the point of
             failure -- that rest is a suffix of the input, and g decides alike on
             every input that agrees with it up to and including the ONE token f was
             looking at when it stopped (one-token lookahead).
   WB f      is Sim f f: f's verdict depends only on the tokens it consumed and that
             one token.
   f [= g    g decides like f wherever f does not run out of fuel; it follows from
             Sim f g, which holds between a production and the same production with
             more fuel.
   Each combinator preserves Sim (hint database [sim]). *)
From Coq Require Import String List Bool.
From GQL Require Import Base.Bytes Syntax.Lexer Syntax.Parser SynErr.LexErr SynErr.ParseErr.
Import ListNotations.

Definition hd_eq (a b : list token) : Prop := hd_error a = hd_error b.

Lemma hd_eq_refl : forall a, hd_eq a a.
Proof. reflexivity. Qed.
Lemma hd_eq_app : forall u r r2, hd_eq r r2 -> hd_eq (u ++ r) (u ++ r2).
Proof. intros [|t u] r r2 H; [exact H|reflexivity]. Qed.
Lemma hd_eq_app_ne : forall u r r2, u <> [] -> hd_eq (u ++ r) (u ++ r2).
Proof. intros [|t u] r r2 H; [contradiction|reflexivity]. Qed.
Lemma hd_eq_nil : forall r, hd_eq [] r -> r = [].
Proof. intros [|t r] H; [reflexivity|discriminate H]. Qed.
Lemma hd_eq_cons : forall t r r2, hd_eq (t :: r) r2 -> exists r2', r2 = t :: r2'.
Proof. intros t r [|t2 r2] H; [discriminate H|]. inversion H; subst. eauto. Qed.

Definition out (e : resE) : option (bool * list token) :=
  match e with OkE r => Some (true, r) | ErrE r => Some (false, r) | FuelE => None end.

Lemma out_ok : forall e r, out e = Some (true, r) -> e = OkE r.
Proof. intros [r'|r'|] r [=]; subst; reflexivity. Qed.
Lemma out_err : forall e r, out e = Some (false, r) -> e = ErrE r.
Proof. intros [r'|r'|] r [=]; subst; reflexivity. Qed.

Definition Sim (f g : R) : Prop := forall ts b r, out (f ts) = Some (b, r) ->
  exists u, ts = u ++ r /\ forall r2, hd_eq r r2 -> out (g (u ++ r2)) = Some (b, r2).
Definition WB (f : R) : Prop := Sim f f.
Definition refines (f g : R) : Prop := forall ts, f ts <> FuelE -> g ts = f ts.
Infix "[=" := refines (at level 70).

Lemma sim_err : forall f g, Sim f g -> forall ts r, f ts = ErrE r -> exists u, ts = u ++ r.
Proof. intros f g S ts r H. destruct (S ts false r) as (u & E & _); [rewrite H; reflexivity | eauto]. Qed.
Lemma sim_lerr : forall f g, Sim f g -> forall u r r2, f (u ++ r) = ErrE r -> hd_eq r r2 -> g (u ++ r2) = ErrE r2.
Proof.
  intros f g S u r r2 H H2. destruct (S (u ++ r) false r) as (u' & E & L); [rewrite H; reflexivity|].
  apply app_inv_tail in E. subst u'. apply out_err, L, H2.
Qed.
Lemma sim_ref : forall f g, Sim f g -> f [= g.
Proof.
  intros f g S ts H. destruct (f ts) as [r|r|] eqn:E; [| |contradiction].
  - destruct (S ts true r) as (u & Eu & L); [rewrite E; reflexivity|]. rewrite Eu at 1. apply out_ok, L, hd_eq_refl.
  - destruct (S ts false r) as (u & Eu & L); [rewrite E; reflexivity|]. rewrite Eu at 1. apply out_err, L, hd_eq_refl.
Qed.

Lemma Sim_okE : Sim okE okE.
Proof. intros ts b r [= <- <-]. exists []. split; reflexivity. Qed.

Lemma Sim_failE : Sim failE failE.
Proof. intros ts b r [= <- <-]. exists []. split; reflexivity. Qed.

Lemma Sim_fuelE : forall g, Sim fuelE g.
Proof. intros g ts b r [=]. Qed.

Lemma Sim_tokE : forall p, Sim (tokE p) (tokE p).
Proof.
  intros p [|t ts] b r H; cbn in H.
  - injection H as <- <-. exists []. split; [reflexivity|]. intros r2 H2. rewrite (hd_eq_nil _ H2). reflexivity.
  - destruct (p t) eqn:P; injection H as <- <-.
    + exists [t]. split; [reflexivity|]. intros r2 _. cbn. rewrite P. reflexivity.
    + exists []. split; [reflexivity|]. intros r2 H2. destruct (hd_eq_cons _ _ _ H2) as [r2' ->].
      cbn. rewrite P. reflexivity.
Qed.

Lemma Sim_endE : Sim endE endE.
Proof.
  intros [|t ts] b r [= <- <-]; exists []; (split; [reflexivity|]); intros r2 H2.
  - rewrite (hd_eq_nil _ H2). reflexivity.
  - destruct (hd_eq_cons _ _ _ H2) as [r2' ->]. reflexivity.
Qed.

Lemma Sim_seqE : forall f f' g g', Sim f f' -> Sim g g' -> Sim (f ;;; g) (f' ;;; g').
Proof.
  intros f f' g g' Sf Sg ts b r H. unfold seqE in *.
  destruct (f ts) as [m|a|] eqn:Ef; [| |discriminate H].
  - destruct (Sf ts true m) as (u1 & -> & L1); [rewrite Ef; reflexivity|].
    destruct (Sg m b r H) as (u2 & -> & L2).
    exists (u1 ++ u2). split; [apply app_assoc|]. intros r2 H2.
    rewrite <- app_assoc, (out_ok _ _ (L1 _ (hd_eq_app u2 _ _ H2))). apply L2, H2.
  - injection H as <- <-. destruct (Sf ts false a) as (u & -> & L); [rewrite Ef; reflexivity|].
    exists u. split; [reflexivity|]. intros r2 H2. rewrite (out_err _ _ (L _ H2)). reflexivity.
Qed.

Lemma Sim_caseE : forall sel sel', (forall o, Sim (sel o) (sel' o)) -> Sim (caseE sel) (caseE sel').
Proof.
  intros sel sel' S ts b r H. destruct (S (hd_error ts) ts b r H) as (u & E & L).
  exists u. split; [exact E|]. intros r2 H2. unfold caseE.
  replace (hd_error (u ++ r2)) with (hd_error ts); [exact (L r2 H2)|]. rewrite E. exact (hd_eq_app u r r2 H2).
Qed.

Lemma Sim_if : forall (c : bool) f f' g g', Sim f f' -> Sim g g' -> Sim (if c then f else g) (if c then f' else g').
Proof. intros [|]; trivial. Qed.

Lemma Sim_ifE : forall p f f' g g', Sim f f' -> Sim g g' -> Sim (ifE p f g) (ifE p f' g').
Proof. intros p f f' g g' Sf Sg. apply Sim_caseE. intros [t|]; [apply Sim_if|]; assumption. Qed.

(* productions handled by unfolding them: not recursive, and without a lemma of their own below *)
Create HintDb synE.
#[export] Hint Unfold parse_nameE expectE expect_kwE anyE optE parse_variableE parse_objfieldE
  parse_argumentE parse_directiveE parse_fieldE parse_fragment_nameE parse_fragmentE parse_selectionE
  parse_optypeE parse_defaultE parse_vardefE parse_vardefsE parse_fragment_definitionE
  descE parse_optypedefE parse_schemaE scalar_bodyE parse_argdefsE
  parse_implementsE interface_bodyE union_bodyE parse_enumvaldefE enum_bodyE input_bodyE
  parse_extendE directive_bodyE parse_tsdE : synE.

Create HintDb sim.
#[export] Hint Resolve Sim_okE Sim_failE Sim_fuelE Sim_tokE Sim_endE Sim_seqE Sim_if Sim_ifE : sim.

Lemma fuel_le_ind : forall P : nat -> nat -> Prop,
  (forall m, P O m) -> (forall n m, (n <= m)%nat -> P n m -> P (S n) (S m)) ->
  forall n m, (n <= m)%nat -> P n m.
Proof.
  intros P H0 HS. induction n as [|n IH]; intros [|m] H; [apply H0 | apply H0 | inversion H |].
  apply le_S_n in H. auto.
Qed.

Lemma Sim_manyE : forall item item' close, Sim item item' ->
  forall n m, (n <= m)%nat -> Sim (manyE n item close) (manyE m item' close).
Proof. intros item item' close Si. apply fuel_le_ind; cbn [manyE]; autounfold with synE; auto with sim. Qed.
#[export] Hint Resolve Sim_manyE : sim.

Lemma Sim_many1E : forall item item' close, Sim item item' ->
  forall n m, (n <= m)%nat -> Sim (many1E n item close) (many1E m item' close).
Proof. intros item item' close Si. apply fuel_le_ind; cbn [many1E]; auto with sim. Qed.

Lemma Sim_reverseE : forall open item item' close ne, Sim item item' ->
  forall n m, (n <= m)%nat -> Sim (reverseE n open item close ne) (reverseE m open item' close ne).
Proof. intros open item item' close ne Si n m Hm. unfold reverseE, expectE. auto using Sim_many1E with sim. Qed.

Lemma Sim_whileE : forall k item item', Sim item item' ->
  forall n m, (n <= m)%nat -> Sim (whileE n k item) (whileE m k item').
Proof. intros k item item' Si. apply fuel_le_ind; cbn [whileE]; auto with sim. Qed.

Lemma Sim_sep_byE : forall sep item item', Sim item item' ->
  forall n m, (n <= m)%nat -> Sim (sep_byE n sep item) (sep_byE m sep item').
Proof. intros sep item item' Si. apply fuel_le_ind; cbn [sep_byE]; autounfold with synE; auto 6 with sim. Qed.
#[export] Hint Resolve Sim_many1E Sim_reverseE Sim_whileE Sim_sep_byE : sim.

Lemma Sim_parse_valueE : forall c n m, (n <= m)%nat -> Sim (parse_valueE n c) (parse_valueE m c).
Proof.
  intro c. apply fuel_le_ind; [auto with sim|]. intros n m Hm IH. cbn [parse_valueE].
  apply Sim_caseE. intros [t|]; [destruct (tk t)|]; autounfold with synE; auto 6 with sim.
Qed.

Lemma Sim_parse_typeE : forall n m, (n <= m)%nat -> Sim (parse_typeE n) (parse_typeE m).
Proof.
  apply fuel_le_ind; [auto with sim|]. intros n m Hm IH. cbn [parse_typeE].
  apply Sim_caseE. intros [t|]; [destruct (tk t)|]; autounfold with synE; auto 6 with sim.
Qed.
#[export] Hint Resolve Sim_parse_valueE Sim_parse_typeE : sim.

Lemma Sim_parse_argumentsE : forall n m, (n <= m)%nat -> Sim (parse_argumentsE n) (parse_argumentsE m).
Proof. intros n m Hm. unfold parse_argumentsE. autounfold with synE. auto 8 with sim. Qed.
#[export] Hint Resolve Sim_parse_argumentsE : sim.

Lemma Sim_parse_directivesE : forall n m, (n <= m)%nat -> Sim (parse_directivesE n) (parse_directivesE m).
Proof. intros n m Hm. unfold parse_directivesE. autounfold with synE. auto with sim. Qed.
#[export] Hint Resolve Sim_parse_directivesE : sim.

Lemma Sim_parse_selsetE : forall n m, (n <= m)%nat -> Sim (parse_selsetE n) (parse_selsetE m).
Proof.
  apply fuel_le_ind; [auto with sim|]. intros n m Hm IH. cbn [parse_selsetE].
  autounfold with synE. auto 20 with sim.
Qed.
#[export] Hint Resolve Sim_parse_selsetE : sim.

Lemma Sim_parse_operationE : forall n m, (n <= m)%nat -> Sim (parse_operationE n) (parse_operationE m).
Proof. intros n m Hm. unfold parse_operationE. autounfold with synE. auto 20 with sim. Qed.
#[export] Hint Resolve Sim_parse_operationE : sim.

(* met several times below *)
Lemma Sim_parse_ivdefE : forall n m, (n <= m)%nat -> Sim (parse_ivdefE n) (parse_ivdefE m).
Proof. intros n m Hm. unfold parse_ivdefE. autounfold with synE. auto 12 with sim. Qed.
#[export] Hint Resolve Sim_parse_ivdefE : sim.

Lemma Sim_parse_fielddefE : forall n m, (n <= m)%nat -> Sim (parse_fielddefE n) (parse_fielddefE m).
Proof. intros n m Hm. unfold parse_fielddefE. autounfold with synE. auto 12 with sim. Qed.
#[export] Hint Resolve Sim_parse_fielddefE : sim.

Lemma Sim_objdef_bodyE : forall n m, (n <= m)%nat -> Sim (objdef_bodyE n) (objdef_bodyE m).
Proof. intros n m Hm. unfold objdef_bodyE. autounfold with synE. auto 12 with sim. Qed.
#[export] Hint Resolve Sim_objdef_bodyE : sim.

Lemma Sim_tsd_kwE : forall d n m, (n <= m)%nat -> Sim (tsd_kwE n d) (tsd_kwE m d).
Proof.
  intros d n m Hm. apply Sim_caseE. intros [k|]; cbv zeta; repeat apply Sim_if; autounfold with synE; auto 25 with sim.
Qed.
#[export] Hint Resolve Sim_tsd_kwE : sim.

Theorem Sim_parse_documentE : forall n m, (n <= m)%nat -> Sim (parse_documentE n) (parse_documentE m).
Proof. intros n m Hm. unfold parse_documentE, parse_definitionE. autounfold with synE. auto 8 with sim. Qed.

Corollary WB_parse_documentE : forall fuel, WB (parse_documentE fuel).
Proof. intro fuel. apply Sim_parse_documentE, le_n. Qed.

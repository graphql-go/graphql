(* C08: print -> lex -> derive -> parse for type-system definitions, and for whole documents
   of any kind.  Same scheme as Proofs/SyntaxRoundTrip.v: for every nonterminal, from a
   derivation whose tokens carry well-formed lexemes, (a) the layout is well-formed and
   (b) any token list with the signatures of the layout's token pieces derives a node that is
   equal up to locations and empty descriptions (DESIGN Appendix A). *)
From Coq Require Import String List NArith Bool.
From GQL Require Import Base.Bytes Syntax.Lexer Syntax.Ast Syntax.Parser Syntax.Grammar Syntax.Printer
  Proofs.SyntaxSound Proofs.SyntaxComplete Proofs.SyntaxCompleteSDL Proofs.SyntaxUtf8 Proofs.SyntaxBlock
  Proofs.SyntaxRender Proofs.SyntaxLayoutWf Proofs.SyntaxRoundTrip.
Import ListNotations.
Open Scope N_scope.

Lemma P0_blk : forall d s X, blk_okb s = true -> P0 X -> P0 (PBlk d s :: X).
Proof. intros d s X Hs HX L H. cbn [app]. unfold wf0. cbn [layout_wfb]. rewrite Hs. apply HX. exact H. Qed.

Definition tsep (k : tkind) : layout := [PSep [32]; PTok k []; PSep [32]].

Lemma ljoinL_ne_cons : forall a b l sep, ljoinL_ne (a :: b :: l) sep = a ++ sep ++ ljoinL_ne (b :: l) sep.
Proof. reflexivity. Qed.

Lemma ljoinL_ne_P1 : forall k l, is_punct k = true -> Forall P1 l -> P1 (ljoinL_ne l (tsep k)).
Proof.
  intros k l Hk H. induction H as [|a l Ha Hl IH]; [apply P1_nil|].
  destruct l as [|b l']; [exact Ha|].
  rewrite ljoinL_ne_cons.
  unfold tsep in *. cbn [app] in *. auto 10 with lay.
Qed.

(* Item (sep Item)*, the separator printed between spaces *)
Section SepLists.
  Context {A : Type}.
  Variable I : list token -> A -> Prop.
  Variable lay : A -> layout.
  Variable g : A -> gt.
  Variable k : tkind.
  Hypothesis Hk : is_punct k = true.
  Hypothesis lay_nonnil : forall a, lay a <> [].
  Hypothesis item_rt : forall p a, I p a -> toks_wf p -> RT I lay g a.

  Lemma ljoinL_map : forall l, ljoinL (map lay l) (tsep k) = ljoinL_ne (map lay l) (tsep k).
  Proof.
    intro l. unfold ljoinL. rewrite (filter_map_id A lay l lay_nonnil). reflexivity.
  Qed.

  Lemma ljoinL_nonnil : forall l, l <> [] -> ljoinL (map lay l) (tsep k) <> [].
  Proof.
    intros l H. rewrite ljoinL_map. destruct l as [|a [|b l']]; [contradiction|cbn; apply lay_nonnil|].
    cbn [map]. rewrite ljoinL_ne_cons. intro X. apply app_eq_nil in X. destruct X as [X _]. apply (lay_nonnil a X).
  Qed.

  Lemma sep_items : forall p l, DSep I k p l -> toks_wf p -> l <> [] /\ Forall (RT I lay g) l.
  Proof.
    intros p l D. induction D as [p a Hpa|p a s ps l Hpa Ks Dl IH]; intro W; (split; [discriminate|]).
    - constructor; [apply (item_rt p a Hpa W)|constructor].
    - wfs W. constructor; [apply (item_rt p a Hpa); assumption|apply IH; assumption].
  Qed.

  Lemma sepl_reloc : forall l, Forall (RT I lay g) l -> l <> [] ->
    Reads (ltoks (ljoinL (map lay l) (tsep k))) (fun ts => exists l', DSep I k ts l' /\ gnl (gs g l') = gnl (gs g l)).
  Proof.
    intros l H. induction H as [|a l [_ Ha] Hl IH]; intros Hne; [contradiction|]. rewrite ljoinL_map.
    destruct l as [|b l'].
    - cbn [map ljoinL_ne]. apply (reads_last Ha); intros ts a' Da Ea.
      exists [a']. split; [apply DSep_one; exact Da|]. unfold gs. cbn [map glist gnl]. rewrite Ea. reflexivity.
    - change (ljoinL_ne (map lay (a :: b :: l')) (tsep k)) with (lay a ++ tsep k ++ ljoinL_ne (map lay (b :: l')) (tsep k)).
      rewrite ltoks_app. unfold tsep. cbn [app ltoks]. rewrite (tokval_punct k Hk), <- ljoinL_map.
      apply (reads_rb Ha); intros t1 a' Da Ea. apply reads_tok; intros s' Ks Vs.
      apply (reads_imp _ _ _ (IH ltac:(discriminate))). intros t2 (l2 & D2 & E2).
      exists (a' :: l2). split; [apply DSep_cons; assumption|]. apply gs_inj in E2. unfold gs. cbn [map glist gnl] in *. rewrite Ea, E2. reflexivity.
  Qed.

  Lemma sepl_rt : forall p l, DSep I k p l -> toks_wf p ->
    l <> [] /\ RT (DSep I k) (fun l => ljoinL (map lay l) (tsep k)) (gs g) l.
  Proof.
    intros p l D W. destruct (sep_items p l D W) as [Hne E]. split; [exact Hne|]. split.
    - apply ljoinL_ne_P1; [exact Hk|]. apply filter_Forall. apply (items_P1 I lay g l E).
    - exact (sepl_reloc l E Hne).
  Qed.
End SepLists.

Lemma Nm_nonnil : forall n, Nm n <> []. Proof. intro n. discriminate. Qed.
Lemma lay_named_nonnil : forall n, lay_named n <> []. Proof. intro n. discriminate. Qed.

Definition gn_descr (d : descr) : gt := g_descr (norm_descr d).

Lemma descr_rt : forall p d, DDescr p d -> toks_wf p -> P0 (lay_descr d ++ nl) /\ Rb DDescr lay_descr gn_descr d.
Proof.
  intros p d D W.
  assert (None' : forall d0, gnl (gn_descr None) = gnl (gn_descr d0) -> lay_descr d0 = [] -> P0 (lay_descr d0 ++ nl) /\ Rb DDescr lay_descr gn_descr d0).
  { intros d0 E L. unfold Rb. rewrite L. split; [unfold nl; auto with lay|]. apply reads_nil. exists None. split; [constructor|exact E]. }
  destruct D as [|t K]; [apply None'; reflexivity|].
  apply toks_wf_cons in W. destruct W as [Wt _]. unfold tok_wf in Wt.
  assert (Wa : str_okb (tval t) = true) by (destruct K as [K|K]; rewrite K in Wt; exact Wt). clear Wt K.
  destruct (tval t) as [|c v] eqn:Ev; [apply None'; reflexivity|]. unfold Rb. cbn [lay_descr is_nil].
  destruct (printable_as_block (c :: v)) eqn:Pb; (split; [unfold nl; cbn [app]|cbn [ltoks tokval]; apply reads_tok; intros t' K' V'; apply reads_nil]).
  - apply P0_blk; [unfold blk_okb; rewrite Pb, Wa; reflexivity|auto with lay].
  - exists (Some (tval t', tokloc t')). split; [constructor; right; exact K'|]. rewrite V'. reflexivity.
  - apply P0_wordy; auto with lay.
  - exists (Some (tval t', tokloc t')). split; [constructor; left; exact K'|]. rewrite V'. reflexivity.
Qed.

Lemma with_desc_P1 : forall d body, P0 (lay_descr d ++ nl) -> P1 body -> P1 (with_desc d body).
Proof.
  intros d body Hd Hb. unfold with_desc, lwrap. destruct (is_nil (lay_descr d)); [exact Hb|].
  rewrite app_nil_l. apply P1_app0; [exact Hd|exact Hb].
Qed.
Lemma with_desc_nl_P1 : forall d body, P0 (lay_descr d ++ nl) -> P1 body -> P1 (with_desc_nl d body).
Proof.
  intros d body Hd Hb. unfold with_desc_nl, lwrap. destruct (is_nil (lay_descr d)); [exact Hb|].
  unfold nl at 1. cbn [app]. apply P1_sep; [reflexivity|]. apply P1_app0; [exact Hd|exact Hb].
Qed.
#[export] Hint Resolve with_desc_P1 with_desc_nl_P1 : lay.
Lemma ltoks_with_desc : forall d body, ltoks (with_desc d body) = ltoks (lay_descr d) ++ ltoks body.
Proof. intros d body. unfold with_desc. rewrite ltoks_app, ltoks_lwrap_sep by reflexivity. reflexivity. Qed.
Lemma ltoks_with_desc_nl : forall d body, ltoks (with_desc_nl d body) = ltoks (lay_descr d) ++ ltoks body.
Proof. intros d body. unfold with_desc_nl. rewrite ltoks_app, ltoks_lwrap_sep by reflexivity. reflexivity. Qed.

Definition gn_ivdef (i : ivdef) : gt := g_ivdef (norm_ivdef i).
Lemma ljoin_hd_nonnil : forall a l sep, a <> [] -> ljoin (a :: l) sep <> [].
Proof.
  intros a l sep H. destruct a as [|x a']; [contradiction|]. unfold ljoin. cbn [filter is_nil negb].
  destruct (filter (fun x => negb (is_nil x)) l); discriminate.
Qed.
Lemma lay_ivdef_nonnil : forall i, lay_ivdef i <> [].
Proof.
  intro i. unfold lay_ivdef, with_desc_nl. intro X. apply app_eq_nil in X. destruct X as [_ X].
  revert X. apply ljoin_hd_nonnil. unfold Nm. discriminate.
Qed.

Lemma ivdef_rt : forall p i, DIVDef p i -> toks_wf p -> RT DIVDef lay_ivdef gn_ivdef i.
Proof.
  intros p i D W. destruct D as [pdsc dsc n c pt t pv dv pd dirs Dd Kn Kc Dt Dv Ddir]. wfs W.
  destruct (descr_rt _ _ Dd ltac:(assumption)) as [Pdsc Rdsc]. destruct (type_rt _ _ Dt ltac:(assumption)) as [Pt Rt].
  destruct (optdefault_rt (T EQUALS ++ sp) pv dv ltac:(pieces; auto with lay) eq_refl Dv ltac:(assumption)) as [Pv Rv].
  destruct (dirs_rt _ _ Ddir ltac:(assumption)) as [Pd Rd].
  unfold RT, Rb, lay_ivdef. cbn [iv_desc iv_name iv_type iv_default iv_dirs]. split.
  - pieces. auto 10 with lay.
  - rewrite ltoks_with_desc_nl, ltoks_ljoin. cbn [flat_map]. rewrite app_nil_r. pieces. apply (reads_rb Rdsc); intros tdsc dsc' Ddsc' Edsc.
    apply reads_tok; intros n' Kn' Vn'. apply reads_tok; intros c' Kc' Vc'. apply (reads_rb Rt); intros tt' t' Dt' Et.
    apply (reads_rb Rv); intros tv dv' Dv' Ev. apply (reads_last Rd); intros tl dirs' Dd' Ed.
    eexists. split; [constructor; eassumption|]. unfold gn_ivdef, norm_ivdef, g_ivdef. cbn [iv_desc iv_name iv_type iv_default iv_dirs iv_loc].
    rewrite !gnl_gl. cbn [map]. gsimp.
    unfold gn_descr in Edsc. rewrite Vn', Edsc, Et, Ev, Ed. reflexivity.
Qed.

(* argument definitions are printed on one line, or one per line when some argument carries a block-string description *)
Lemma ltoks_argdefs : forall l, ltoks (lay_argdefs l) = ltoks (lwrap (T PAREN_L) (ljoin (map lay_ivdef l) comma_sp) (T PAREN_R)).
Proof.
  intro l. unfold lay_argdefs. cbv zeta. destruct (has_arg_desc (map lay_ivdef l)) eqn:H; [|reflexivity].
  assert (Hne : l <> []) by (intros ->; discriminate H).
  rewrite !lwrap_ne; [|apply ljoin_map_nonnil; [apply lay_ivdef_nonnil|exact Hne]|discriminate].
  rewrite !ltoks_app, ltoks_lindent, !ltoks_app, !ltoks_ljoin. reflexivity.
Qed.

Lemma argdefs_rt : forall p l, DArgDefs p l -> toks_wf p -> RT DArgDefs lay_argdefs (gs gn_ivdef) l.
Proof.
  intros p l D W. pose proof (fun q a (_ : (length q < length p)%nat) => ivdef_rt q a) as Hi.
  destruct (optdelim_rt DIVDef lay_ivdef gn_ivdef PAREN_L PAREN_R comma_sp p l eq_refl eq_refl eq_refl eq_refl lay_ivdef_nonnil D W Hi) as [P R].
  pose proof (items_P1 _ _ _ l (optdelim_items DIVDef lay_ivdef gn_ivdef _ _ p l D W Hi)) as E1. split.
  - unfold lay_argdefs. cbv zeta. destruct (has_arg_desc (map lay_ivdef l)); [|exact P].
    apply lwrap_P1; unfold nl, T; cbn [app]; auto with lay.
  - intros ts Hts. rewrite ltoks_argdefs in Hts. exact (R ts Hts).
Qed.
Lemma argdefs_SF : forall l, SF (lay_argdefs l).
Proof. intro l. unfold lay_argdefs. cbv zeta. destruct (has_arg_desc (map lay_ivdef l)); apply lwrap_SF; apply SFs_punct; reflexivity. Qed.
#[export] Hint Resolve argdefs_SF : lay.

Definition gn_fielddef (f : fielddef) : gt := g_fielddef (norm_fielddef f).
Lemma map_gn_ivdef : forall l, map g_ivdef (map norm_ivdef l) = map gn_ivdef l.
Proof. intro l. rewrite map_map. reflexivity. Qed.

Lemma fielddef_rt : forall p f, DFieldDef p f -> toks_wf p -> RT DFieldDef lay_fielddef gn_fielddef f.
Proof.
  intros p f D W. destruct D as [pdsc dsc n pa args c pt t pd dirs Dd Kn Da Kc Dt Ddir]. wfs W.
  destruct (descr_rt _ _ Dd ltac:(assumption)) as [Pdsc Rdsc]. destruct (argdefs_rt _ _ Da ltac:(assumption)) as [Pa Ra].
  destruct (type_rt _ _ Dt ltac:(assumption)) as [Pt Rt]. destruct (dirs_rt _ _ Ddir ltac:(assumption)) as [Pd Rd].
  unfold RT, Rb, lay_fielddef, gn_fielddef, norm_fielddef, g_fielddef. cbn [fd_desc fd_name fd_args fd_type fd_dirs fd_loc]. split.
  - pieces. apply with_desc_nl_P1; [exact Pdsc|]. apply P1_wordy; auto with lay.
    apply P1_app1; auto with lay. apply P1_punct; [reflexivity|]. apply P1_sep; [reflexivity|]. apply P1_app1; auto with lay.
  - rewrite ltoks_with_desc_nl. pieces. rewrite ltoks_app. cbn [ltoks tokval]. rewrite ltoks_app, ltoks_lwrap_sep by reflexivity.
    apply (reads_rb Rdsc); intros tdsc dsc' Ddsc' Edsc. apply reads_tok; intros n' Kn' Vn'. apply (reads_rb Ra); intros ta args' Da' Ea.
    apply reads_tok; intros c' Kc' Vc'. apply (reads_rb Rt); intros tt' t' Dt' Et. apply (reads_last Rd); intros tl dirs' Dd' Ed.
    eexists. split; [constructor; eassumption|]. cbn [fd_desc fd_name fd_args fd_type fd_dirs fd_loc]. rewrite !gnl_gl, !map_gn_ivdef. cbn [map].
    gsimp.
    unfold gn_descr, gs in *. rewrite Vn', Edsc, Ea, Et, Ed. reflexivity.
Qed.

Lemma optypedef_rt : forall p o, DOpTypeDef p o -> toks_wf p -> RT DOpTypeDef lay_optypedef g_optypedef o.
Proof.
  intros p o D W. destruct D as [k op c t Kk Ho Kc Kt]. wfs W.
  unfold RT, Rb, lay_optypedef, g_optypedef. cbn [ot_op ot_type ot_loc]. split; [pieces; auto 10 with lay|].
  pieces. apply reads_tok; intros k' Kk' Vk'. apply reads_tok; intros c' Kc' Vc'. apply reads_tok; intros t' Kt' Vt'. apply reads_nil.
  eexists. split; [constructor; try eassumption; rewrite Vk'; apply optype_of_name|]. cbn [ot_op ot_type ot_loc]. gsimp. rewrite Vt'. reflexivity.
Qed.

Definition gn_enumval (v : enumvaldef) : gt := g_enumval (norm_enumval v).

Lemma enumval_rt : forall p v, DEnumValDef p v -> toks_wf p -> RT DEnumValDef lay_enumval gn_enumval v.
Proof.
  intros p v D W. destruct D as [pdsc dsc n pd dirs Dd Kn Ddir]. wfs W.
  destruct (descr_rt _ _ Dd ltac:(assumption)) as [Pdsc Rdsc]. destruct (dirs_rt _ _ Ddir ltac:(assumption)) as [Pd Rd].
  unfold RT, Rb, lay_enumval, gn_enumval, norm_enumval, g_enumval. cbn [ev_desc ev_name ev_dirs ev_loc]. split.
  - pieces. auto 10 with lay.
  - rewrite ltoks_with_desc_nl, ltoks_ljoin. cbn [flat_map]. rewrite app_nil_r. pieces. apply (reads_rb Rdsc); intros tdsc dsc' Ddsc' Edsc.
    apply reads_tok; intros n' Kn' Vn'. apply (reads_last Rd); intros tl dirs' Dd' Ed.
    eexists. split; [constructor; eassumption|]. cbn [ev_desc ev_name ev_dirs ev_loc]. rewrite !gnl_gl. cbn [map]. gsimp.
    unfold gn_descr in Edsc. rewrite Vn', Edsc, Ed. reflexivity.
Qed.

Definition lay_impl (ifs : list named) : layout := lwrap (Kw "implements" ++ sp) (ljoinL (map lay_named ifs) (tsep AMP)) [].

Lemma impl_rt : forall p ifs, DImplements p ifs -> toks_wf p -> RT DImplements lay_impl (gs g_named) ifs.
Proof.
  intros p ifs D W. destruct D as [|i pa p l Ki Vi Hpa Ds].
  - split; [apply P1_nil|]. apply reads_nil. exists []. split; [constructor|reflexivity].
  - apply toks_wf_cons in W. destruct W as [_ W]. apply toks_wf_app in W. destruct W as [_ W].
    destruct (sepl_rt DNamed lay_named g_named AMP eq_refl lay_named_nonnil named_rt p l Ds W) as (Hne & Pl & Rl).
    unfold RT, Rb, lay_impl. rewrite lwrap_ne, app_nil_r by (apply ljoinL_nonnil; [apply lay_named_nonnil|exact Hne]). split.
    + pieces. auto with lay.
    + rewrite ltoks_app. pieces. apply reads_tok; intros i' Ki' Vi'. apply (reads_last Rl); intros tl l' Dl' El.
      exists l'. split; [|exact El]. apply (DImpl_some i' []); auto.
Qed.

Definition gn_objdef (o : objdef) : gt := g_objdef (norm_objdef o).
Lemma map_gn_fielddef : forall l, map g_fielddef (map norm_fielddef l) = map gn_fielddef l.
Proof. intro l. rewrite map_map. reflexivity. Qed.

Lemma objdef_rt : forall p o, DObjDef p o -> toks_wf p -> RT DObjDef lay_objdef gn_objdef o.
Proof.
  intros p o D W. destruct D as [pdsc dsc k n pi ifs pd dirs pf fs Dd Kk Vk Kn Di Ddir Df]. wfs W.
  destruct (descr_rt _ _ Dd ltac:(assumption)) as [Pdsc Rdsc]. destruct (impl_rt _ _ Di ltac:(assumption)) as [Pi Ri].
  destruct (dirs_rt _ _ Ddir ltac:(assumption)) as [Pd Rd].
  destruct (block_rt DFieldDef lay_fielddef gn_fielddef false pf fs Df ltac:(assumption) (fun q a _ => fielddef_rt q a)) as [Pf Rf].
  unfold RT, Rb, lay_objdef, gn_objdef, norm_objdef, g_objdef. cbn [ob_desc ob_name ob_ifaces ob_dirs ob_fields ob_loc].
  change (lwrap (Kw "implements" ++ sp) _ []) with (lay_impl ifs). split.
  - pieces. auto 10 with lay.
  - rewrite ltoks_with_desc, ltoks_ljoin. cbn [flat_map]. rewrite app_nil_r. pieces. apply (reads_rb Rdsc); intros tdsc dsc' Ddsc' Edsc.
    apply reads_tok; intros k' Kk' Vk'. apply reads_tok; intros n' Kn' Vn'. apply (reads_rb Ri); intros ti ifs' Di' Ei.
    apply (reads_rb Rd); intros td dirs' Dd' Ed. apply (reads_last Rf); intros tl fs' Df' Ef.
    eexists. split; [constructor; eassumption|]. cbn [ob_desc ob_name ob_ifaces ob_dirs ob_fields ob_loc]. rewrite !gnl_gl, !map_gn_fielddef.
    cbn [map]. gsimp.
    unfold gn_descr, gs in *. rewrite Vn', Edsc, Ei, Ed, Ef. reflexivity.
Qed.

Definition gn_def (d : definition) : gt := g_def (norm_def d).

Lemma map_gn_enumval : forall l, map g_enumval (map norm_enumval l) = map gn_enumval l.
Proof. intro l. rewrite map_map. reflexivity. Qed.

Lemma lay_union_eq : forall dsc n dirs ms l, lay_def (DUnion dsc n dirs ms l) =
  with_desc dsc (ljoin [Kw "union"; Nm n; lay_dirs dirs; T EQUALS ++ sp ++ ljoinL (map lay_named ms) (tsep PIPE)] [32]).
Proof. reflexivity. Qed.
Lemma lay_directive_eq : forall dsc n args locs l, lay_def (DDirective dsc n args locs l) =
  with_desc dsc (Kw "directive" ++ sp ++ T AT ++ Nm n ++ lay_argdefs args ++ sp ++ Kw "on" ++ sp ++ ljoinL (map Nm locs) (tsep PIPE)).
Proof. reflexivity. Qed.

(* the tokens of  description? keyword name directives body  *)
Ltac named_def := rewrite ltoks_with_desc, ltoks_ljoin; cbn [flat_map]; rewrite app_nil_r; pieces.

Lemma typesystem_rt : forall p d, DTypeSystem p d -> toks_wf p -> RT DTypeSystem lay_def gn_def d.
Proof.
  intros p d D W.
  destruct D as [k pd dirs po ots Kk Vk Ddir Do
                |pdsc dsc k n pd dirs Dd Kk Vk Kn Ddir
                |p o Do
                |pdsc dsc k n pd dirs pf fs Dd Kk Vk Kn Ddir Df
                |pdsc dsc k n pd dirs e pm ms Dd Kk Vk Kn Ddir Ke Dm
                |pdsc dsc k n pd dirs pv vs Dd Kk Vk Kn Ddir Dv
                |pdsc dsc k n pd dirs pf fs Dd Kk Vk Kn Ddir Df
                |k p o Kk Vk Do
                |pdsc dsc k a n pa args o pl locs Dd Kk Vk Ka Kn Da Ko Vo Dl];
    try (wfs W; destruct (descr_rt _ _ Dd ltac:(assumption)) as [Pdsc Rdsc]);
    try destruct (dirs_rt _ _ Ddir ltac:(assumption)) as [Pd Rd]; unfold RT, Rb, gn_def.
  - wfs W. destruct (dirs_rt _ _ Ddir ltac:(assumption)) as [Pd Rd].
    destruct (block_rt DOpTypeDef lay_optypedef g_optypedef true po ots Do ltac:(assumption) (fun q a _ => optypedef_rt q a)) as [Po Ro].
    cbn [lay_def norm_def]. split; [pieces; auto 10 with lay|].
    rewrite ltoks_ljoin. cbn [flat_map]. rewrite app_nil_r. pieces. apply reads_tok; intros k' Kk' Vk'.
    apply (reads_rb Rd); intros td dirs' Dd' Ed. apply (reads_last Ro); intros tl ots' Do' Eo.
    eexists. split; [constructor; eassumption|]. cbn [norm_def g_def]. fold g_optypedef. rewrite !gnl_gl. cbn [map]. unfold gs in Eo. rewrite Ed, Eo.
    reflexivity.
  - cbn [lay_def norm_def]. split; [pieces; auto 10 with lay|].
    named_def. apply (reads_rb Rdsc); intros tdsc dsc' Ddsc' Edsc. apply reads_tok; intros k' Kk' Vk'. apply reads_tok; intros n' Kn' Vn'.
    apply (reads_last Rd); intros tl dirs' Dd' Ed.
    eexists. split; [constructor; eassumption|]. cbn [norm_def g_def]. rewrite !gnl_gl. cbn [map]. gsimp. unfold gn_descr in Edsc.
    rewrite Vn', Edsc, Ed. reflexivity.
  - destruct (objdef_rt _ _ Do W) as [Po Ro]. split; [exact Po|]. intros ts Hts. destruct (Ro ts Hts) as (o' & Do' & Eo).
    exists (DObject o'). split; [constructor; exact Do'|exact Eo].
  - destruct (block_rt DFieldDef lay_fielddef gn_fielddef false pf fs Df ltac:(assumption) (fun q a _ => fielddef_rt q a)) as [Pf Rf].
    cbn [lay_def norm_def]. split; [pieces; auto 10 with lay|].
    named_def. apply (reads_rb Rdsc); intros tdsc dsc' Ddsc' Edsc. apply reads_tok; intros k' Kk' Vk'. apply reads_tok; intros n' Kn' Vn'.
    apply (reads_rb Rd); intros td dirs' Dd' Ed. apply (reads_last Rf); intros tl fs' Df' Ef.
    eexists. split; [constructor; eassumption|]. cbn [norm_def g_def]. rewrite !gnl_gl, !map_gn_fielddef. cbn [map]. gsimp.
    unfold gn_descr, gs in *. rewrite Vn', Edsc, Ed, Ef. reflexivity.
  - destruct (sepl_rt DNamed lay_named g_named PIPE eq_refl lay_named_nonnil named_rt pm ms Dm ltac:(assumption)) as (Hne & Pm & Rm).
    rewrite lay_union_eq. cbn [norm_def]. split; [pieces; auto 10 with lay|].
    named_def. apply (reads_rb Rdsc); intros tdsc dsc' Ddsc' Edsc. apply reads_tok; intros k' Kk' Vk'. apply reads_tok; intros n' Kn' Vn'.
    apply (reads_rb Rd); intros td dirs' Dd' Ed. apply reads_tok; intros e' Ke' Ve'. apply (reads_last Rm); intros tl ms' Dm' Em.
    eexists. split; [constructor; eassumption|]. cbn [norm_def g_def]. rewrite !gnl_gl. cbn [map]. gsimp. unfold gn_descr, gs in *.
    rewrite Vn', Edsc, Ed, Em. reflexivity.
  - destruct (block_rt DEnumValDef lay_enumval gn_enumval false pv vs Dv ltac:(assumption) (fun q a _ => enumval_rt q a)) as [Pf Rf].
    cbn [lay_def norm_def]. split; [pieces; auto 10 with lay|].
    named_def. apply (reads_rb Rdsc); intros tdsc dsc' Ddsc' Edsc. apply reads_tok; intros k' Kk' Vk'. apply reads_tok; intros n' Kn' Vn'.
    apply (reads_rb Rd); intros td dirs' Dd' Ed. apply (reads_last Rf); intros tl vs' Dv' Ev.
    eexists. split; [constructor; eassumption|]. cbn [norm_def g_def]. rewrite !gnl_gl, !map_gn_enumval. cbn [map]. gsimp.
    unfold gn_descr, gs in *. rewrite Vn', Edsc, Ed, Ev. reflexivity.
  - destruct (block_rt DIVDef lay_ivdef gn_ivdef false pf fs Df ltac:(assumption) (fun q a _ => ivdef_rt q a)) as [Pf Rf].
    cbn [lay_def norm_def]. split; [pieces; auto 10 with lay|].
    named_def. apply (reads_rb Rdsc); intros tdsc dsc' Ddsc' Edsc. apply reads_tok; intros k' Kk' Vk'. apply reads_tok; intros n' Kn' Vn'.
    apply (reads_rb Rd); intros td dirs' Dd' Ed. apply (reads_last Rf); intros tl fs' Df' Ef.
    eexists. split; [constructor; eassumption|]. cbn [norm_def g_def]. rewrite !gnl_gl, !map_gn_ivdef. cbn [map]. gsimp.
    unfold gn_descr, gs in *. rewrite Vn', Edsc, Ed, Ef. reflexivity.
  - wfs W. destruct (objdef_rt _ _ Do ltac:(assumption)) as [Po Ro]. cbn [lay_def norm_def]. split; [pieces; auto with lay|].
    pieces. apply reads_tok; intros k' Kk' Vk'. apply (reads_last Ro); intros tl o' Do' Eo.
    eexists. split; [constructor; eassumption|]. cbn [norm_def g_def]. rewrite !gnl_gl. cbn [map]. unfold gn_objdef in Eo. rewrite Eo. reflexivity.
  - destruct (argdefs_rt _ _ Da ltac:(assumption)) as [Pa Ra].
    destruct (sepl_rt DName Nm g_name PIPE eq_refl Nm_nonnil name_rt pl locs Dl ltac:(assumption)) as (Hne & Pl & Rl).
    rewrite lay_directive_eq. cbn [norm_def]. split.
    + pieces. auto 20 with lay.
    + rewrite ltoks_with_desc. pieces. rewrite ltoks_app. cbn [ltoks tokval]. apply (reads_rb Rdsc); intros tdsc dsc' Ddsc' Edsc.
      apply reads_tok; intros k' Kk' Vk'. apply reads_tok; intros a' Ka' Va'. apply reads_tok; intros n' Kn' Vn'.
      apply (reads_rb Ra); intros ta args' Da' Ea. apply reads_tok; intros o' Ko' Vo'. apply (reads_last Rl); intros tl locs' Dl' El.
      eexists. split; [constructor; eassumption|]. cbn [norm_def g_def]. rewrite !gnl_gl, !map_gn_ivdef. cbn [map]. gsimp.
      unfold gn_descr, gs in *. rewrite Vn', Edsc, Ea, El. reflexivity.
Qed.

Lemma def_rt_all : forall p d, DDefinition p d -> toks_wf p -> RT DDefinition lay_def gn_def d.
Proof.
  intros p d D W. destruct D as [p o Do|p f Df|p d Dt].
  - destruct (op_rt _ _ Do W) as [Po Ro]. split; [exact Po|]. intros ts Hts. destruct (Ro ts Hts) as (o' & Do' & Eo).
    exists (DOp o'). split; [apply DD_op; exact Do'|exact Eo].
  - destruct (frag_rt _ _ Df W) as [Pf Rf]. split; [exact Pf|]. intros ts Hts. destruct (Rf ts Hts) as (f' & Df' & Ef).
    exists (DFrag f'). split; [apply DD_frag; exact Df'|exact Ef].
  - destruct (typesystem_rt _ _ Dt W) as [Pt Rt]. split; [exact Pt|]. intros ts Hts. destruct (Rt ts Hts) as (d' & Dt' & Et).
    exists d'. split; [apply DD_ts; exact Dt'|exact Et].
Qed.

(* equality up to locations and empty descriptions *)
Definition erase_loc_descr (d : document) : gt := erase_loc (norm_doc d).

Theorem doc_rt_all : forall ts d, Derives ts d -> toks_wf ts ->
  layout_wfb (lay_doc d) = true /\
  forall tx e, map sig tx = ltoks (lay_doc d) -> tk e = EOF ->
    exists d', Derives (tx ++ [e]) d' /\ erase_loc_descr d' = erase_loc_descr d.
Proof.
  intros ts d D W. destruct D as [p defs e0 Ds Hne Ke]. apply toks_wf_app in W. destruct W as [W _].
  destruct (star_rt DDefinition lay_def gn_def [10; 10] p defs eq_refl Ds W (fun q a _ => def_rt_all q a)) as [P R].
  unfold lay_doc. cbn [doc_defs]. split.
  - assert (P0' : P0 (ljoin (map lay_def defs) [10; 10] ++ [PSep [10]])) by (apply P0_app1; auto with lay).
    specialize (P0' [] eq_refl). rewrite app_nil_r in P0'. exact P0'.
  - intros tx e Htx Ke'. rewrite ltoks_app in Htx. cbn [ltoks] in Htx. rewrite app_nil_r in Htx.
    destruct (R tx Htx) as (defs' & D' & E'). exists (mkdoc defs' (span (tx ++ [e]))). split.
    + constructor; [exact D'|apply (gs_nonnil _ _ _ _ E' Hne)|exact Ke'].
    + apply gs_inj in E'. unfold erase_loc_descr, erase_loc, norm_doc, gn_def, g_doc in *. cbn [doc_defs doc_loc]. rewrite !gnl_gl, !map_map.
      rewrite !map_map in E'. rewrite E'. reflexivity.
Qed.

(* the printer writes nothing for an empty description *)
Lemma lay_descr_norm : forall d, lay_descr (norm_descr d) = lay_descr d.
Proof. intros [[[|c s] l]|]; reflexivity. Qed.
Lemma lay_ivdef_norm : forall i, lay_ivdef (norm_ivdef i) = lay_ivdef i.
Proof. intro i. unfold lay_ivdef, norm_ivdef. cbn [iv_desc iv_name iv_type iv_default iv_dirs]. unfold with_desc_nl. rewrite lay_descr_norm. reflexivity. Qed.
Lemma map_lay_norm : forall A (lay : A -> layout) norm, (forall a, lay (norm a) = lay a) -> forall l, map lay (map norm l) = map lay l.
Proof. intros A lay norm H l. rewrite map_map. apply map_ext. exact H. Qed.
Lemma lay_fielddef_norm : forall f, lay_fielddef (norm_fielddef f) = lay_fielddef f.
Proof.
  intro f. unfold lay_fielddef, norm_fielddef, lay_argdefs. cbn [fd_desc fd_name fd_args fd_type fd_dirs]. unfold with_desc_nl.
  rewrite lay_descr_norm, (map_lay_norm _ _ _ lay_ivdef_norm). reflexivity.
Qed.
Lemma lay_objdef_norm : forall o, lay_objdef (norm_objdef o) = lay_objdef o.
Proof.
  intro o. unfold lay_objdef, norm_objdef. cbn [ob_desc ob_name ob_ifaces ob_dirs ob_fields]. unfold with_desc.
  rewrite lay_descr_norm, (map_lay_norm _ _ _ lay_fielddef_norm). reflexivity.
Qed.
Lemma lay_enumval_norm : forall v, lay_enumval (norm_enumval v) = lay_enumval v.
Proof. intro v. unfold lay_enumval, norm_enumval. cbn [ev_desc ev_name ev_dirs]. unfold with_desc_nl. rewrite lay_descr_norm. reflexivity. Qed.
Lemma print_norm_doc : forall d, print_doc (norm_doc d) = print_doc d.
Proof.
  intro d. unfold print_doc, lay_doc, norm_doc. cbn [doc_defs]. rewrite map_lay_norm; [reflexivity|].
  intros [o|f|dirs ots l|ds n dirs l|o|ds n dirs fs l|ds n dirs ts l|ds n dirs vs l|ds n dirs fs l|o l|ds n args locs l];
    cbn [norm_def lay_def]; unfold with_desc, lay_argdefs; try reflexivity.
  - rewrite lay_descr_norm. reflexivity.
  - apply lay_objdef_norm.
  - rewrite lay_descr_norm, (map_lay_norm _ _ _ lay_fielddef_norm). reflexivity.
  - rewrite lay_descr_norm. reflexivity.
  - rewrite lay_descr_norm, (map_lay_norm _ _ _ lay_enumval_norm). reflexivity.
  - rewrite lay_descr_norm, (map_lay_norm _ _ _ lay_ivdef_norm). reflexivity.
  - rewrite lay_objdef_norm. reflexivity.
  - rewrite lay_descr_norm, (map_lay_norm _ _ _ lay_ivdef_norm). reflexivity.
Qed.

(* print, lex, parse: any document whose tokens carry well-formed lexemes *)
Theorem roundtrip_tokens : forall ts d, parse_tokens ts = Ok d -> toks_wf ts ->
  exists d', parse (print_doc d) = Ok (d', false) /\ erase_loc_descr d' = erase_loc_descr d /\ print_doc d' = print_doc d.
Proof.
  intros ts d Hp W. apply parse_tokens_sound in Hp.
  destruct (doc_rt_all ts d Hp W) as [Lw R].
  pose proof (lex_flat_layout (lay_doc d) Lw) as Hl.
  destruct (R (ptoks 0 (lay_doc d)) (eof_tok (nlen (flat (lay_doc d)))) (sig_ptoks _ _) eq_refl) as (d' & D' & Ed).
  exists d'. split; [|split; [exact Ed|]].
  - unfold parse, print_doc. rewrite Hl. rewrite (parse_tokens_complete _ _ D'). reflexivity.
  - rewrite <- (print_norm_doc d'), <- (print_norm_doc d). apply print_ignores_locations. exact Ed.
Qed.

(* on executable documents nothing is normalised *)
Lemma norm_doc_exec : forall d, exec_only d = true -> norm_doc d = d.
Proof.
  intros [defs l] E. unfold norm_doc. cbn [doc_defs doc_loc]. f_equal. unfold exec_only in E. cbn [doc_defs] in E.
  induction defs as [|a defs IH]; [reflexivity|]. cbn [forallb] in E. apply andb_true_iff in E. destruct E as [Ea Ed].
  cbn [map]. rewrite (IH Ed). destruct a; try discriminate Ea; reflexivity.
Qed.

(* whether a definition is executable shows in the tag of its tree, which normalisation keeps *)
Lemma is_exec_tag : forall a, is_exec a = match gnl (gn_def a) with G t _ _ _ _ => (t =? 22) || (t =? 23) end.
Proof. destruct a; reflexivity. Qed.
Lemma exec_only_erased : forall d' d, erase_loc_descr d' = erase_loc_descr d -> exec_only d' = exec_only d.
Proof.
  intros [defs' l'] [defs l] H. unfold erase_loc_descr, erase_loc, norm_doc, exec_only, g_doc in *. cbn [doc_defs doc_loc] in *.
  rewrite !gnl_gl in H. injection H as H. rewrite !map_map in H.
  revert defs H. induction defs' as [|a defs' IH]; intros [|b defs] H; try discriminate H; [reflexivity|].
  cbn [map] in H. injection H as Ha H. cbn [forallb]. rewrite (IH defs H), !is_exec_tag. unfold gn_def. rewrite Ha. reflexivity.
Qed.

(* executable documents: equality up to locations alone *)
Theorem roundtrip_exec_tokens : forall ts d, parse_tokens ts = Ok d -> exec_only d = true -> toks_wf ts ->
  exists d', parse (print_doc d) = Ok (d', false) /\ erase_loc d' = erase_loc d /\ print_doc d' = print_doc d.
Proof.
  intros ts d Hp E W. destruct (roundtrip_tokens ts d Hp W) as (d' & P' & Ed & Pd).
  exists d'. split; [exact P'|]. split; [|exact Pd].
  pose proof (exec_only_erased d' d Ed) as E'. rewrite E in E'.
  unfold erase_loc_descr in Ed. rewrite (norm_doc_exec d E), (norm_doc_exec d' E') in Ed. exact Ed.
Qed.

(* C08: print -> lex -> derive -> parse for executable documents.
   For every nonterminal X: from a derivation D_X p x whose tokens carry well-formed lexemes,
   (a) the layout lay_X x is well-formed (so C08_lex_layout applies to the printed text), and
   (b) any token list with the signatures of the layout's token pieces derives an x' that equals
       x up to locations ([RT]).  The printer does not look at locations, so x' prints as x does. *)
From Coq Require Import String List NArith Bool Lia Wf_nat.
From GQL Require Import Base.Bytes Syntax.Lexer Syntax.Ast Syntax.Parser Syntax.Grammar Syntax.Printer
  Proofs.SyntaxUtf8 Proofs.SyntaxRender Proofs.SyntaxLayoutWf.
Import ListNotations.
Open Scope N_scope.

Definition sig (t : token) : tkind * bytes := (tk t, tval t).
Fixpoint ltoks (A : layout) : list (tkind * bytes) :=
  match A with
  | [] => []
  | PSep _ :: r => ltoks r
  | PTok k v :: r => (k, tokval k v) :: ltoks r
  | PBlk _ s :: r => (BLOCK_STRING, s) :: ltoks r
  end.

(* a string value the printer's quoting is proved to preserve: valid UTF-8 *)
Definition str_ok (v : bytes) : bool := str_okb v.
Definition tok_wf (t : token) : bool :=
  match tk t with
  | NAME => name_ok (tval t)
  | INT => num_okb (tval t) false
  | FLOAT => num_okb (tval t) true
  | STRING | BLOCK_STRING => str_ok (tval t)
  | _ => true
  end.
Definition toks_wf (p : list token) : Prop := forallb tok_wf p = true.

(* equality up to locations: the kind/field/value trees agree once every Loc is zeroed *)
Fixpoint gnl (g : gt) : gt := match g with G t a _ _ kids => G t a 0 0 (map gnl kids) end.

Lemma ltoks_app : forall A B, ltoks (A ++ B) = ltoks A ++ ltoks B.
Proof. induction A as [|[k v|s|d s] A IH]; intro B; cbn [app ltoks]; [reflexivity|rewrite IH; reflexivity|apply IH|rewrite IH; reflexivity]. Qed.

Lemma sig_ptoks : forall A pos, map sig (ptoks pos A) = ltoks A.
Proof. induction A as [|[k v|s|d s] A IH]; intro pos; cbn [ptoks ltoks map]; [reflexivity|rewrite IH; reflexivity|apply IH|rewrite IH; reflexivity]. Qed.

Lemma ltoks_ljoin_ne : forall l sep, ltoks (ljoin_ne l sep) = flat_map ltoks l.
Proof.
  induction l as [|a l IH]; intro sep; [reflexivity|]. destruct l as [|b l'].
  - cbn [ljoin_ne flat_map]. rewrite app_nil_r. reflexivity.
  - rewrite ljoin_ne_cons, ltoks_app. cbn [ltoks]. rewrite IH. reflexivity.
Qed.
Lemma ltoks_ljoin : forall l sep, ltoks (ljoin l sep) = flat_map ltoks l.
Proof.
  intros l sep. unfold ljoin. rewrite ltoks_ljoin_ne. induction l as [|a l IH]; [reflexivity|].
  cbn [filter flat_map]. destruct a as [|x a']; cbn [is_nil negb]; [exact IH|]. cbn [flat_map]. rewrite IH. reflexivity.
Qed.
Lemma ltoks_lindent : forall A, ltoks (lindent A) = ltoks A.
Proof. induction A as [|[k v|s|d s] A IH]; cbn [lindent map ltoks]; [reflexivity|unfold lindent in IH; rewrite IH; reflexivity|apply IH|unfold lindent in IH; rewrite IH; reflexivity]. Qed.
Lemma lwrap_ne : forall a m b, m <> [] -> lwrap a m b = a ++ m ++ b.
Proof. intros a [|x m] b H; [contradiction|reflexivity]. Qed.

Lemma toks_wf_app : forall p q, toks_wf (p ++ q) -> toks_wf p /\ toks_wf q.
Proof. intros p q H. unfold toks_wf in *. rewrite forallb_app in H. apply andb_true_iff in H. exact H. Qed.
Lemma toks_wf_cons : forall t p, toks_wf (t :: p) -> tok_wf t = true /\ toks_wf p.
Proof. intros t p H. unfold toks_wf in *. cbn [forallb] in H. apply andb_true_iff in H. exact H. Qed.

Lemma name_tok_wf : forall t, tk t = NAME -> tok_wf t = true -> name_ok (tval t) = true.
Proof. intros t K H. unfold tok_wf in H. rewrite K in H. exact H. Qed.
#[export] Hint Extern 2 (wordy_ok NAME _ = true) => apply name_tok_wf; assumption : lay.

Lemma sig_inv : forall t k v, sig t = (k, v) -> tk t = k /\ tval t = v.
Proof. intros t k v H. unfold sig in H. inversion H. split; reflexivity. Qed.

(* [wfs W] breaks  W : toks_wf (t :: p ++ q ...)  into its facts about t, p, q ... *)
Ltac wfs W :=
  lazymatch type of W with
  | toks_wf (_ :: _) => apply toks_wf_cons in W; let H := fresh "W" in destruct W as [H W]; wfs W
  | toks_wf (_ ++ _) => apply toks_wf_app in W; let H := fresh "W" in destruct W as [H W]; wfs H; wfs W
  | toks_wf [] => clear W
  | _ => idtac
  end.

Lemma gnl_gl : forall t a l kids, gnl (gl t a l kids) = G t a 0 0 (map gnl kids).
Proof. reflexivity. Qed.

(* Reads s Q: every token list with the signatures s satisfies Q.  Rb, the round-trip statement for
   one nonterminal, is such a statement; a layout's signatures are read from the left: nothing,
   one token, an append, a part that is itself read back (Rb). *)
Definition Reads (s : list (tkind * bytes)) (Q : list token -> Prop) : Prop := forall ts, map sig ts = s -> Q ts.

Lemma reads_nil : forall Q : list token -> Prop, Q [] -> Reads [] Q.
Proof. intros Q H ts Hts. apply map_eq_nil in Hts. subst ts. exact H. Qed.
Lemma reads_tok : forall k v s (Q : list token -> Prop),
  (forall t, tk t = k -> tval t = v -> Reads s (fun tl => Q (t :: tl))) -> Reads ((k, v) :: s) Q.
Proof.
  intros k v s Q H ts Hts. apply map_eq_cons in Hts. destruct Hts as (t & tl & -> & S & Hts). apply sig_inv in S.
  exact (H t (proj1 S) (proj2 S) tl Hts).
Qed.
Lemma reads_app : forall s1 s2 (Q : list token -> Prop), Reads s1 (fun t1 => Reads s2 (fun t2 => Q (t1 ++ t2))) -> Reads (s1 ++ s2) Q.
Proof. intros s1 s2 Q H ts Hts. apply map_eq_app in Hts. destruct Hts as (t1 & t2 & -> & H1 & H2). exact (H t1 H1 t2 H2). Qed.
Lemma reads_imp : forall s (Q1 Q2 : list token -> Prop), Reads s Q1 -> (forall ts, Q1 ts -> Q2 ts) -> Reads s Q2.
Proof. intros s Q1 Q2 H HQ ts Hts. exact (HQ ts (H ts Hts)). Qed.

Section Items.
  Context {A : Type}.
  Variable I : list token -> A -> Prop.
  Variable lay : A -> layout.
  Variable g : A -> gt.

  Definition Rb (a : A) : Prop := Reads (ltoks (lay a)) (fun ts => exists a', I ts a' /\ gnl (g a') = gnl (g a)).
  Definition RT (a : A) : Prop := P1 (lay a) /\ Rb a.

  Lemma reads_last : forall a (Q : list token -> Prop), Rb a ->
    (forall t1 a', I t1 a' -> gnl (g a') = gnl (g a) -> Q t1) -> Reads (ltoks (lay a)) Q.
  Proof. intros a Q R H. apply (reads_imp _ _ _ R). intros t1 (a' & D & E). exact (H t1 a' D E). Qed.
  Lemma reads_rb : forall a s (Q : list token -> Prop), Rb a ->
    (forall t1 a', I t1 a' -> gnl (g a') = gnl (g a) -> Reads s (fun t2 => Q (t1 ++ t2))) -> Reads (ltoks (lay a) ++ s) Q.
  Proof. intros a s Q R H. apply reads_app. apply (reads_last a _ R H). Qed.
End Items.
Arguments reads_rb {A I lay g a s Q}.
Arguments reads_last {A I lay g a Q}.

(* a nonterminal that is one name, number or string token *)
Lemma tok1_rt : forall A (I : list token -> A -> Prop) lay g a k v, wordy_ok k v = true ->
  (forall t, tk t = k -> tval t = tokval k v -> exists a', I [t] a' /\ gnl (g a') = gnl (g a)) -> lay a = [PTok k v] -> RT I lay g a.
Proof.
  intros A I lay g a k v Hv H L. unfold RT, Rb. rewrite L. split; [apply P1_wordy_last; exact Hv|].
  apply reads_tok; intros t K V. apply reads_nil. exact (H t K V).
Qed.
Arguments tok1_rt {A I lay g a} k v.

(* lists of items are compared as the list node of their trees *)
Definition gs {A} (g : A -> gt) (l : list A) : gt := glist (map g l).
Lemma gs_inj : forall A (g : A -> gt) l' l, gnl (gs g l') = gnl (gs g l) -> map gnl (map g l') = map gnl (map g l).
Proof. intros A g l' l H. injection H as H. exact H. Qed.
Lemma gs_nonnil : forall A (g : A -> gt) l' l, gnl (gs g l') = gnl (gs g l) -> l <> [] -> l' <> [].
Proof. intros A g l' [|a l] H Hne; [contradiction|]. intros ->. discriminate H. Qed.

Lemma lblock_ltoks : forall items, ltoks (lblock items) = (BRACE_L, []) :: flat_map ltoks items ++ [(BRACE_R, [])].
Proof.
  intros [|a items']; [reflexivity|]. unfold lblock. cbn [is_nil].
  rewrite ltoks_app, ltoks_lindent. cbn [ltoks tokval]. rewrite ltoks_ljoin. reflexivity.
Qed.

Lemma hd_app_ne : forall (a b c : bytes), a <> [] -> hd_error (a ++ b) = hd_error (a ++ c).
Proof. intros [|x a] b c H; [contradiction|reflexivity]. Qed.
Lemma indent_bytes_nil : forall s, indent_bytes s = [] -> s = [].
Proof. exact SyntaxBlock.indent_nil. Qed.

Lemma ljoin_ne_nonnil : forall l sep, l <> [] -> (forall a, In a l -> a <> []) -> ljoin_ne l sep <> [].
Proof.
  intros l sep Hl Ha. destruct l as [|a l']; [contradiction|]. destruct l' as [|b l''].
  - cbn. apply Ha. left; reflexivity.
  - rewrite ljoin_ne_cons. intro X.
    apply app_eq_nil in X. destruct X as [_ X]. discriminate X.
Qed.
Lemma filter_map_id : forall A (lay : A -> layout) l, (forall a, lay a <> []) -> filter (fun x => negb (is_nil x)) (map lay l) = map lay l.
Proof.
  intros A lay l H. induction l as [|a l IH]; [reflexivity|]. cbn [map filter]. rewrite IH.
  pose proof (H a) as Ha. destruct (lay a); [contradiction|reflexivity].
Qed.
Lemma ljoin_map_nonnil : forall A (lay : A -> layout) l sep, (forall a, lay a <> []) -> l <> [] -> ljoin (map lay l) sep <> [].
Proof.
  intros A lay l sep H Hl. unfold ljoin. rewrite (filter_map_id A lay l H).
  apply ljoin_ne_nonnil; [destruct l; [contradiction|discriminate]|]. intros b Hb. apply in_map_iff in Hb. destruct Hb as (x & <- & _). apply H.
Qed.

Lemma tokval_punct : forall k, is_punct k = true -> tokval k [] = [].
Proof. intros k H. destruct k; try discriminate H; reflexivity. Qed.

Section Lists.
  Context {A : Type}.
  Variable I : list token -> A -> Prop.
  Variable lay : A -> layout.
  Variable g : A -> gt.
  Let R := RT I lay g.

  (* what is known of the items comes from what is known of every shorter token list *)
  Lemma star_items : forall ps l, DStar I ps l -> toks_wf ps ->
    (forall q a, (length q <= length ps)%nat -> I q a -> toks_wf q -> R a) -> Forall R l.
  Proof.
    intros ps l D. induction D as [|p a ps l Hpa _ IH]; intros W H; [constructor|].
    apply toks_wf_app in W. destruct W as [W1 W2]. rewrite app_length in H. constructor.
    - apply (H p a); [lia|exact Hpa|exact W1].
    - apply IH; [exact W2|]. intros q b Lq. apply H. lia.
  Qed.
  Lemma delim_items : forall o c ne p l, DDelim I o c ne p l -> toks_wf p ->
    (forall q a, (length q < length p)%nat -> I q a -> toks_wf q -> R a) -> Forall R l /\ (ne = true -> l <> []).
  Proof.
    intros o c ne p l D W H. destruct D as [o0 ps c0 l Ho Hc Hs Hne]. split; [|exact Hne].
    apply toks_wf_cons in W. destruct W as [_ W]. apply toks_wf_app in W. destruct W as [W _].
    apply (star_items ps l Hs W). intros q a Lq. apply H. cbn [length]. rewrite app_length. lia.
  Qed.

  Lemma optdelim_items : forall o c p l, DOptDelim I o c p l -> toks_wf p ->
    (forall q a, (length q < length p)%nat -> I q a -> toks_wf q -> R a) -> Forall R l.
  Proof. intros o c p l D W H. destruct D as [|p l D]; [constructor|apply (delim_items o c true p l D W H)]. Qed.

  Lemma star_reloc : forall l, Forall R l ->
    Reads (flat_map ltoks (map lay l)) (fun ts => exists l', DStar I ts l' /\ gnl (gs g l') = gnl (gs g l)).
  Proof.
    induction 1 as [|a l [_ Ha] _ IH]; cbn [map flat_map].
    - apply reads_nil. exists []. split; [constructor|reflexivity].
    - apply (reads_rb Ha); intros t1 a' Da Ea. apply (reads_imp _ _ _ IH). intros t2 (l' & Dl & El).
      exists (a' :: l'). split; [constructor; assumption|]. apply gs_inj in El. unfold gs. cbn [map glist gnl]. rewrite Ea, El. reflexivity.
  Qed.
  Lemma items_P1 : forall l, Forall R l -> Forall P1 (map lay l).
  Proof. intros l H. rewrite Forall_map. eapply Forall_impl; [|exact H]. intros a [Ha _]. exact Ha. Qed.

  (* Item*, printed with a separator *)
  Lemma star_rt : forall sep ps l, sep_wf sep = true -> DStar I ps l -> toks_wf ps ->
    (forall q a, (length q <= length ps)%nat -> I q a -> toks_wf q -> R a) ->
    RT (DStar I) (fun l => ljoin (map lay l) sep) (gs g) l.
  Proof.
    intros sep ps l Hs D W H. pose proof (star_items ps l D W H) as E. split.
    - apply ljoin_P1; [exact Hs|apply items_P1; exact E].
    - unfold Rb. rewrite ltoks_ljoin. exact (star_reloc l E).
  Qed.

  Lemma delim_reloc : forall o c ne l, Forall R l -> (ne = true -> l <> []) ->
    Reads ((o, []) :: flat_map ltoks (map lay l) ++ [(c, [])]) (fun ts => exists l', DDelim I o c ne ts l' /\ gnl (gs g l') = gnl (gs g l)).
  Proof.
    intros o c ne l E Hne. apply reads_tok; intros o' Ko Vo. apply reads_app. apply (reads_imp _ _ _ (star_reloc l E)).
    intros mid (l' & Dl' & El). apply reads_tok; intros c' Kc Vc. apply reads_nil.
    exists l'. split; [|exact El]. constructor; try assumption. intro X. apply (gs_nonnil _ _ _ _ El (Hne X)).
  Qed.

  (* open Item* close, printed on one line *)
  Lemma delim_rt : forall o c sep ne p l, is_punct o = true -> is_punct c = true -> tkind_beq c SPREAD = false ->
    sep_wf sep = true -> DDelim I o c ne p l -> toks_wf p ->
    (forall q a, (length q < length p)%nat -> I q a -> toks_wf q -> R a) ->
    RT (DDelim I o c ne) (fun l => T o ++ ljoin (map lay l) sep ++ T c) (gs g) l.
  Proof.
    intros o c sep ne p l Ho Hc Hcs Hs D W H. destruct (delim_items o c ne p l D W H) as [E Hne]. apply items_P1 in E as E1.
    split.
    - unfold T. cbn [app]. apply P1_punct; [exact Ho|]. apply P0_P1. apply P0_app1; auto with lay.
    - unfold Rb, T. cbn [app ltoks]. rewrite ltoks_app, ltoks_ljoin. cbn [ltoks]. rewrite !tokval_punct by assumption.
      exact (delim_reloc o c ne l E Hne).
  Qed.

  (* { Item* }, one item per line, indented *)
  Lemma block_rt : forall ne p l, DDelim I BRACE_L BRACE_R ne p l -> toks_wf p ->
    (forall q a, (length q < length p)%nat -> I q a -> toks_wf q -> R a) ->
    RT (DDelim I BRACE_L BRACE_R ne) (fun l => lblock (map lay l)) (gs g) l.
  Proof.
    intros ne p l D W H. destruct (delim_items _ _ ne p l D W H) as [E Hne]. split.
    - apply P0_P1. apply lblock_P0. apply items_P1. exact E.
    - unfold Rb. rewrite lblock_ltoks. exact (delim_reloc _ _ ne l E Hne).
  Qed.

  (* ( open Item+ close )?, printed when there are items *)
  Lemma optdelim_rt : forall o c sep p l, is_punct o = true -> is_punct c = true -> tkind_beq c SPREAD = false ->
    sep_wf sep = true -> (forall a, lay a <> []) -> DOptDelim I o c p l -> toks_wf p ->
    (forall q a, (length q < length p)%nat -> I q a -> toks_wf q -> R a) ->
    RT (DOptDelim I o c) (fun l => lwrap (T o) (ljoin (map lay l) sep) (T c)) (gs g) l.
  Proof.
    intros o c sep p l Ho Hc Hcs Hs Hnn D W H. destruct D as [|p l D].
    - split; [apply P1_nil|]. unfold Rb. apply reads_nil.
      exists []. split; [constructor|reflexivity].
    - destruct (delim_rt o c sep true p l Ho Hc Hcs Hs D W H) as [P Rl].
      assert (Nl : l <> []) by (destruct D as [? ? ? ? _ _ _ X]; apply X; reflexivity).
      pose proof (lwrap_ne (T o) _ (T c) (ljoin_map_nonnil _ lay l sep Hnn Nl)) as Ew.
      split; [cbv beta; rewrite Ew; exact P|]. intros ts Hts. cbv beta in Hts. rewrite Ew in Hts. destruct (Rl ts Hts) as (l' & D' & E'). exists l'.
      split; [apply DOptDelim_some; exact D'|exact E'].
  Qed.
  (* Item?, printed when present *)
  Lemma opt_rt : forall p o, DOpt I p o -> toks_wf p -> (forall a, I p a -> toks_wf p -> R a) ->
    RT (DOpt I) (fun o => match o with Some a => lay a | None => [] end) (gopt g) o.
  Proof.
    intros p o D W H. destruct D as [|p a D].
    - split; [apply P1_nil|]. unfold Rb. apply reads_nil.
      exists None. split; [constructor|reflexivity].
    - destruct (H a D W) as [P Ra]. split; [exact P|]. intros ts Hts. destruct (Ra ts Hts) as (a' & D' & E').
      exists (Some a'). split; [constructor; exact D'|exact E'].
  Qed.
End Lists.

Lemma map_gnl_app : forall A (g : A -> gt) l' l, map gnl (map g l') = map gnl (map g l) ->
  forall t a, gnl (G t a 0 0 (map g l')) = gnl (G t a 0 0 (map g l)).
Proof. intros A g l' l H t a. cbn [gnl]. rewrite H. reflexivity. Qed.

Lemma sep_wf_comma : sep_wf comma_sp = true. Proof. reflexivity. Qed.
Lemma sep_wf_sp : sep_wf [32] = true. Proof. reflexivity. Qed.
Lemma sep_wf_nl : sep_wf [10] = true. Proof. reflexivity. Qed.
Lemma sep_wf_nl2 : sep_wf [10; 10] = true. Proof. reflexivity. Qed.

(* the pieces of a layout written with the printer's abbreviations, and their signatures *)
Ltac pieces := unfold Nm, Kw, T, sp, tok_named, tok_name; cbn [nd_name nval app ltoks tokval].

(* the trees of names written out, so that the equations between token values apply *)
Ltac gsimp := cbn [gnl gl map g_name g_named tok_name tok_named nval nloc nd_name nd_loc lstart lend].

Definition lay_objfield (f : objfield) : layout :=
  match f with OField n v _ => Nm n ++ PTok COLON [] :: PSep [32] :: lay_value v end.
Definition g_objfield (f : objfield) : gt :=
  match f with OField n v l' => gl 14 [] l' [g_name n; g_value v] end.

Lemma lay_value_obj : forall fs l, lay_value (VObj fs l) = T BRACE_L ++ ljoin (map lay_objfield fs) comma_sp ++ T BRACE_R.
Proof. reflexivity. Qed.

Lemma objfield_rt : forall (V : list token -> value -> Prop) p f, DObjFieldOf V p f -> toks_wf p ->
  (forall q v, (length q < length p)%nat -> V q v -> toks_wf q -> RT V lay_value g_value v) ->
  RT (DObjFieldOf V) lay_objfield g_objfield f.
Proof.
  intros V p f D W H. destruct D as [n c pv v Kn Kc Dv]. wfs W.
  destruct (H pv v ltac:(cbn [length]; lia) Dv ltac:(assumption)) as [Pv Rv]. split.
  - cbn [lay_objfield]. pieces. auto 10 with lay.
  - unfold Rb. cbn [lay_objfield]. pieces. apply reads_tok; intros n' Kn' Vn'. apply reads_tok; intros c' Kc' Vc'.
    apply (reads_last Rv); intros tl v' Dv' Ev.
    eexists. split; [constructor; eassumption|]. cbn [g_objfield]. gsimp. rewrite Vn', Ev. reflexivity.
Qed.

Lemma value_rt : forall c p v, DValue c p v -> toks_wf p -> RT (DValue c) lay_value g_value v.
Proof.
  intros c p. induction p as [p IH] using (induction_ltof1 _ (@length token)). unfold ltof in IH. intros v D W.
  destruct D as [d nm Hc Kd Kn|t K|t K|t K|t K V|t K V|t K V1 V2 V3|p l Dl|p l Dl].
  - wfs W. split.
    + cbn [lay_value]. pieces. auto with lay.
    + unfold Rb. cbn [lay_value]. pieces. apply reads_tok; intros d' Kd' Vd'. apply reads_tok; intros n' Kn' Vn'. apply reads_nil.
      eexists. split; [apply DV_var; eassumption|]. cbn [g_value]. gsimp. rewrite Vn'. reflexivity.
  - apply toks_wf_cons in W. destruct W as [Wt _]. unfold tok_wf in Wt. rewrite K in Wt.
    apply (tok1_rt INT (tval t) Wt); [|reflexivity]. intros t' K' V'.
    eexists. split; [apply DV_int; eassumption|]. cbn [g_value]. gsimp. rewrite V'. reflexivity.
  - apply toks_wf_cons in W. destruct W as [Wt _]. unfold tok_wf in Wt. rewrite K in Wt.
    apply (tok1_rt FLOAT (tval t) Wt); [|reflexivity]. intros t' K' V'.
    eexists. split; [apply DV_float; eassumption|]. cbn [g_value]. gsimp. rewrite V'. reflexivity.
  - apply toks_wf_cons in W. destruct W as [Wt _]. unfold tok_wf in Wt.
    assert (Wa : str_ok (tval t) = true) by (destruct K as [K|K]; rewrite K in Wt; exact Wt).
    apply (tok1_rt STRING (tval t) Wa); [|reflexivity]. intros t' K' V'.
    eexists. split; [apply DV_string; left; eassumption|]. cbn [g_value]. gsimp. rewrite V'. reflexivity.
  - apply (tok1_rt NAME (kw "true") eq_refl); [|reflexivity]. intros t' K' V'.
    eexists. split; [apply DV_true; eassumption|reflexivity].
  - apply (tok1_rt NAME (kw "false") eq_refl); [|reflexivity]. intros t' K' V'.
    eexists. split; [apply DV_false; eassumption|reflexivity].
  - wfs W. apply (tok1_rt NAME (tval t)); [auto with lay| |reflexivity]. intros t' K' V'.
    eexists. split; [apply DV_enum; try rewrite V'; assumption|]. cbn [g_value]. gsimp. rewrite V'. reflexivity.
  - destruct (delim_rt (DValue c) lay_value g_value BRACKET_L BRACKET_R comma_sp false p l
                eq_refl eq_refl eq_refl eq_refl Dl W (fun q a Lq => IH q Lq a)) as [P R].
    split; [exact P|]. intros ts Hts. destruct (R ts Hts) as (l' & Dl' & El).
    eexists. split; [apply DV_list; exact Dl'|]. apply gs_inj in El. cbn [g_value]. rewrite !gnl_gl, El. reflexivity.
  - destruct (delim_rt (DObjFieldOf (DValue c)) lay_objfield g_objfield BRACE_L BRACE_R comma_sp false p l
                eq_refl eq_refl eq_refl eq_refl Dl W) as [P R].
    { intros q f Lq Df Wq. apply (objfield_rt _ q f Df Wq). intros q' v' Lq'. apply IH. lia. }
    split; [exact P|]. intros ts Hts. destruct (R ts Hts) as (l' & Dl' & El).
    eexists. split; [apply DV_object; exact Dl'|]. apply gs_inj in El. cbn [g_value]. fold g_objfield. rewrite !gnl_gl.
    change (map _ l') with (map g_objfield l'). change (map _ l) with (map g_objfield l). rewrite El. reflexivity.
Qed.

Lemma gnl_ty_nonnull : forall a b, gnl (g_ty a) = gnl (g_ty b) -> is_nonnull a = is_nonnull b.
Proof. intros a b H. destruct a as [[? ?]| |], b as [[? ?]| |]; cbn in H; try discriminate H; reflexivity. Qed.

Lemma type_rt : forall p t, DType p t -> toks_wf p -> RT DType lay_type g_ty t.
Proof.
  intros p t D. induction D as [n Kn|o p t c Ko Dt IH Kc|p t b Dt IH NN Kb]; intro W; wfs W.
  - apply (tok1_rt NAME (tval n)); [auto with lay| |reflexivity]. intros n' Kn' Vn'.
    eexists. split; [apply DT_named; eassumption|]. cbn [g_ty]. gsimp. rewrite Vn'. reflexivity.
  - destruct (IH ltac:(assumption)) as [Pt Rt]. split.
    + cbn [lay_type]. pieces. apply P1_punct; [reflexivity|]. apply P0_P1. apply P0_app1; auto with lay.
    + unfold Rb. cbn [lay_type]. pieces. rewrite ltoks_app. cbn [ltoks tokval]. apply reads_tok; intros o' Ko' Vo'.
      apply (reads_rb Rt); intros mid t' Dt' Et. apply reads_tok; intros c' Kc' Vc'. apply reads_nil.
      eexists. split; [apply DT_list; eassumption|]. cbn [g_ty]. gsimp. rewrite Et. reflexivity.
  - destruct (IH ltac:(assumption)) as [Pt Rt]. split.
    + cbn [lay_type]. pieces. apply P0_P1. apply P0_app1; auto with lay.
    + unfold Rb. cbn [lay_type]. pieces. rewrite ltoks_app. cbn [ltoks tokval]. apply (reads_rb Rt); intros mid t' Dt' Et.
      apply reads_tok; intros b' Kb' Vb'. apply reads_nil.
      eexists. split; [apply DT_nonnull; try eassumption; rewrite (gnl_ty_nonnull _ _ Et); exact NN|]. cbn [g_ty]. gsimp. rewrite Et. reflexivity.
Qed.

Lemma lay_arg_nonnil : forall a, lay_arg a <> [].
Proof. intro a. unfold lay_arg, Nm. discriminate. Qed.

Lemma arg_rt : forall p a, DArgument p a -> toks_wf p -> RT DArgument lay_arg g_arg a.
Proof.
  intros p a D W. destruct D as [n c pv v Kn Kc Dv]. wfs W.
  destruct (value_rt false pv v Dv ltac:(assumption)) as [Pv Rv]. unfold RT, Rb, lay_arg, g_arg. cbn [a_name a_value a_loc]. split.
  - pieces. auto 10 with lay.
  - pieces. apply reads_tok; intros n' Kn' Vn'. apply reads_tok; intros c' Kc' Vc'. apply (reads_last Rv); intros tl v' Dv' Ev.
    eexists. split; [constructor; eassumption|]. cbn [a_name a_value a_loc]. gsimp. rewrite Vn', Ev. reflexivity.
Qed.

Definition g_args : list argument -> gt := gs g_arg.
Lemma args_rt : forall p l, DArguments p l -> toks_wf p -> RT DArguments lay_args g_args l.
Proof.
  intros p l D W. apply (optdelim_rt DArgument lay_arg g_arg PAREN_L PAREN_R comma_sp p l); auto using lay_arg_nonnil.
  intros q a _. apply arg_rt.
Qed.
Lemma args_SF : forall l, SF (lay_args l).
Proof. intro l. apply lwrap_SF. apply SFs_punct; reflexivity. Qed.
#[export] Hint Resolve args_SF : lay.

Lemma lay_dir_nonnil : forall a, lay_dir a <> [].
Proof. intro a. unfold lay_dir. discriminate. Qed.

Lemma dir_rt : forall p d, DDirec p d -> toks_wf p -> RT DDirec lay_dir g_dir d.
Proof.
  intros p d D W. destruct D as [a n pa args Ka Kn Da]. wfs W.
  destruct (args_rt pa args Da ltac:(assumption)) as [Pa Ra]. unfold RT, Rb, lay_dir, g_dir. cbn [d_name d_args d_loc]. split.
  - pieces. auto with lay.
  - pieces. apply reads_tok; intros a' Ka' Va'. apply reads_tok; intros n' Kn' Vn'. apply (reads_last Ra); intros tl args' Da' Ea.
    eexists. split; [constructor; eassumption|]. cbn [d_name d_args d_loc]. gsimp. unfold g_args, gs in Ea. rewrite Vn', Ea. reflexivity.
Qed.

Lemma dirs_rt : forall p l, DDirecs p l -> toks_wf p -> RT DDirecs lay_dirs g_dirs l.
Proof. intros p l D W. apply (star_rt DDirec lay_dir g_dir [32] p l eq_refl D W). intros q a _. apply dir_rt. Qed.
Lemma dirs_SF : forall l, SF (lay_dirs l).
Proof.
  intro l. unfold lay_dirs. apply ljoin_SF; [reflexivity|]. rewrite Forall_map. apply Forall_forall. intros a _.
  unfold lay_dir. auto with lay.
Qed.
#[export] Hint Resolve dirs_SF : lay.

Lemma ltoks_lwrap_sep : forall a m b, ltoks a = [] -> ltoks b = [] -> ltoks (lwrap a m b) = ltoks m.
Proof.
  intros a [|x m] b Ha Hb; [reflexivity|]. rewrite lwrap_ne, !ltoks_app, Ha, Hb, app_nil_r by discriminate. reflexivity.
Qed.
(* wrap(start, item?, ""): the optional item with its start *)
Lemma lwrap_opt : forall A (lay : A -> layout) a o, (forall x, lay x <> []) ->
  lwrap a (match o with Some x => lay x | None => [] end) [] = match o with Some x => a ++ lay x | None => [] end.
Proof. intros A lay a [x|] H; [rewrite lwrap_ne by apply H; rewrite app_nil_r; reflexivity|reflexivity]. Qed.

Lemma lay_selset_SFs : forall ss, SFs (lay_selset ss).
Proof. intros [sels l]. cbn [lay_selset]. apply lblock_SFs. Qed.
#[export] Hint Resolve lay_selset_SFs : lay.

Definition lay_alias (al : option name) (nm : name) : layout :=
  lwrap [] (match al with Some a => Nm a | None => [] end) [PTok COLON []; PSep [32]] ++ Nm nm.

Lemma alias_rt : forall pn al nm, DAlias pn (al, nm) -> toks_wf pn ->
  (forall X, P1 X -> SF X -> P1 (lay_alias al nm ++ X)) /\
  forall s (Q : list token -> Prop),
    (forall t1 al' nm', DAlias t1 (al', nm') -> gnl (gopt g_name al') = gnl (gopt g_name al) -> gnl (g_name nm') = gnl (g_name nm) ->
       Reads s (fun t2 => Q (t1 ++ t2))) -> Reads (ltoks (lay_alias al nm) ++ s) Q.
Proof.
  intros pn al nm D W. inversion D as [t Kt|a c t Ka Kc Kt]; subst; wfs W; unfold lay_alias, lwrap; pieces; cbn [is_nil app ltoks tokval]; split.
  - intros X PX SX. auto with lay.
  - intros s Q HQ. apply reads_tok; intros t' Kt' Vt'.
    apply (HQ [t'] None (tok_name t')); [constructor; assumption|reflexivity|gsimp; congruence].
  - intros X PX SX. auto 10 with lay.
  - intros s Q HQ. apply reads_tok; intros a' Ka' Va'. apply reads_tok; intros c' Kc' Vc'. apply reads_tok; intros t' Kt' Vt'.
    apply (HQ [a'; c'; t'] (Some (tok_name a')) (tok_name t')); [constructor; assumption|cbn [gopt]; gsimp; congruence|gsimp; congruence].
Qed.

Lemma lay_sel_field : forall al nm args dirs sub l, lay_sel (SField al nm args dirs sub l) =
  ljoin [lay_alias al nm ++ lay_args args; lay_dirs dirs; match sub with Some ss => lay_selset ss | None => [] end] [32].
Proof. intros. cbn [lay_sel]. unfold lay_alias. rewrite <- app_assoc. reflexivity. Qed.

Definition lay_typecond (t : named) : layout := (Kw "on" ++ sp) ++ Nm (nd_name t).
Lemma typecond_rt : forall p t, DTypeCond p t -> toks_wf p -> RT DTypeCond lay_typecond g_named t.
Proof.
  intros p t D W. destruct D as [o t Ko Vo Kt]. wfs W. unfold RT, Rb, lay_typecond. split.
  - pieces. auto with lay.
  - pieces. apply reads_tok; intros o' Ko' Vo'. apply reads_tok; intros t' Kt' Vt'. apply reads_nil.
    eexists. split; [constructor; eassumption|]. gsimp. rewrite Vt'. reflexivity.
Qed.

Lemma sel_rt : forall p s, DSelectionOf DSelSet p s -> toks_wf p ->
  (forall q ss, (length q < length p)%nat -> DSelSet q ss -> toks_wf q -> RT DSelSet lay_selset g_selset ss) ->
  RT (DSelectionOf DSelSet) lay_sel g_sel s.
Proof.
  intros p s D W Hss.
  destruct D as [pn al nm pa args pd dirs ps sub Dn Da Dd Ds | sp0 pn nmm pd dirs Ks Dn Dd | sp0 pt tc pd dirs ps ss Ks Dt Dd Dss].
  - assert (Lps : (length ps < length (pn ++ pa ++ pd ++ ps))%nat) by (rewrite !app_length; inversion Dn; subst; simpl; lia).
    apply toks_wf_app in W. destruct W as [Wn W]. wfs W.
    destruct (alias_rt pn al nm Dn Wn) as [Pn Rn]. destruct (args_rt pa args Da ltac:(assumption)) as [Pa Ra].
    destruct (dirs_rt pd dirs Dd ltac:(assumption)) as [Pd Rd].
    destruct (opt_rt DSelSet lay_selset g_selset ps sub Ds ltac:(assumption) (fun a => Hss ps a Lps)) as [Ps Rs].
    split.
    + rewrite lay_sel_field. auto 10 with lay.
    + unfold Rb. rewrite lay_sel_field, ltoks_ljoin. cbn [flat_map]. rewrite app_nil_r, ltoks_app, <- app_assoc.
      apply Rn; intros tn al' nm' Dn' Eal Enm. apply (reads_rb Ra); intros ta args' Da' Ea. apply (reads_rb Rd); intros td dirs' Dd' Ed.
      apply (reads_last Rs); intros tl sub' Ds' Es.
      eexists. split; [apply DS_field; eassumption|]. cbn [g_sel]. rewrite !gnl_gl. cbn [map]. unfold gopt, g_args, gs in *.
    rewrite Ea, Ed, Es, Eal, Enm. reflexivity.
  - destruct Dn as [t Kt Vt]. wfs W. destruct (dirs_rt pd dirs Dd ltac:(assumption)) as [Pd Rd]. split.
    + cbn [lay_sel]. pieces. auto 10 with lay.
    + unfold Rb. cbn [lay_sel]. pieces. rewrite ltoks_lwrap_sep by reflexivity. apply reads_tok; intros s' Ks' Vs'.
      apply reads_tok; intros t' Kt' Vt'. apply (reads_last Rd); intros tl dirs' Dd' Ed.
      eexists. split; [apply (DS_spread DSelSet s' [t']); [eassumption|constructor; [eassumption|rewrite Vt'; exact Vt]|eassumption]|].
      cbn [g_sel]. gsimp. rewrite Vt', Ed. reflexivity.
  - assert (Lps : (length ps < length (sp0 :: pt ++ pd ++ ps))%nat) by (cbn [length]; rewrite !app_length; lia). wfs W.
    destruct (opt_rt DTypeCond lay_typecond g_named pt tc Dt ltac:(assumption) (typecond_rt pt)) as [Pt Rt].
    destruct (dirs_rt pd dirs Dd ltac:(assumption)) as [Pd Rd]. destruct (Hss ps ss Lps Dss ltac:(assumption)) as [Ps Rs].
    pose proof (lwrap_opt _ (fun t => Nm (nd_name t)) (Kw "on" ++ sp) tc ltac:(discriminate)) as Etc. fold lay_typecond in Etc.
    split.
    + cbn [lay_sel]. rewrite Etc. unfold T. auto 10 with lay.
    + unfold Rb. cbn [lay_sel]. rewrite Etc, ltoks_ljoin. cbn [flat_map]. rewrite app_nil_r. unfold T at 1. cbn [ltoks tokval app].
      apply reads_tok; intros s' Ks' Vs'. apply (reads_rb Rt); intros tp tc' Dt' Et. apply (reads_rb Rd); intros td dirs' Dd' Ed.
      apply (reads_last Rs); intros tl ss' Ds' Es.
      eexists. split; [apply DS_inline; eassumption|]. cbn [g_sel]. rewrite !gnl_gl. cbn [map]. rewrite Et, Ed, Es. reflexivity.
Qed.

Lemma selset_rt : forall p ss, DSelSet p ss -> toks_wf p -> RT DSelSet lay_selset g_selset ss.
Proof.
  induction p as [p IH] using (induction_ltof1 _ (@length token)). unfold ltof in IH. intros ss D W. destruct D as [p l D].
  destruct (block_rt (DSelectionOf DSelSet) lay_sel g_sel true p l D W) as [P R].
  { intros q s Lq Ds Wq. apply (sel_rt q s Ds Wq). intros q' ss' Lq'. apply IH. lia. }
  split; [exact P|]. intros ts Hts. destruct (R ts Hts) as (l' & D' & E').
  eexists. split; [apply DSS_intro; exact D'|]. cbn [g_selset]. rewrite !gnl_gl, (gs_inj _ _ _ _ E'). reflexivity.
Qed.

Definition lay_named (n : named) : layout := Nm (nd_name n).

Lemma name_rt : forall p n, DName p n -> toks_wf p -> RT DName Nm g_name n.
Proof.
  intros p n D W. destruct D as [t Kt]. wfs W. apply (tok1_rt NAME (tval t)); [auto with lay| |reflexivity]. intros t' Kt' Vt'.
  eexists. split; [constructor; eassumption|]. gsimp. rewrite Vt'. reflexivity.
Qed.
Lemma named_rt : forall p n, DNamed p n -> toks_wf p -> RT DNamed lay_named g_named n.
Proof.
  intros p n D W. destruct D as [t Kt]. wfs W. apply (tok1_rt NAME (tval t)); [auto with lay| |reflexivity]. intros t' Kt' Vt'.
  eexists. split; [constructor; eassumption|]. gsimp. rewrite Vt'. reflexivity.
Qed.

Lemma lay_value_nonnil : forall v, lay_value v <> [].
Proof. intros [n l|s l|s l|s l|b l|s l|vs l|fs l]; cbn [lay_value]; unfold T; try discriminate. destruct b; discriminate. Qed.

(* a default value after its equals sign, written w *)
Lemma default_rt : forall w p v, P0 w -> ltoks w = [(EQUALS, [])] -> DDefault p v -> toks_wf p ->
  RT DDefault (fun v => w ++ lay_value v) g_value v.
Proof.
  intros w p v Pw Hw D W. destruct D as [e pv v Ke Dv]. wfs W. destruct (value_rt true pv v Dv ltac:(assumption)) as [Pv Rv]. split.
  - apply P1_app0; assumption.
  - unfold Rb. cbv beta. rewrite ltoks_app, Hw. cbn [app]. apply reads_tok; intros e' Ke' Ve'. apply (reads_last Rv); intros tl v' Dv' Ev.
    exists v'. split; [constructor; assumption|exact Ev].
Qed.
Lemma optdefault_rt : forall w p dv, P0 w -> ltoks w = [(EQUALS, [])] -> DOpt DDefault p dv -> toks_wf p ->
  RT (DOpt DDefault) (fun dv => lwrap w (match dv with Some d => lay_value d | None => [] end) []) (gopt g_value) dv.
Proof.
  intros w p dv Pw Hw D W. unfold RT, Rb. rewrite (lwrap_opt _ lay_value w dv lay_value_nonnil).
  apply (opt_rt DDefault (fun v => w ++ lay_value v) g_value p dv D W). intros a. apply default_rt; assumption.
Qed.

Definition eq_wrap : layout := sp ++ T EQUALS ++ sp.
Lemma lay_vardef_nonnil : forall v, lay_vardef v <> [].
Proof. intro v. unfold lay_vardef. discriminate. Qed.

Lemma vardef_rt : forall p v, DVarDef p v -> toks_wf p -> RT DVarDef lay_vardef g_vardef v.
Proof.
  intros p v D W. destruct D as [d n c pt t pv dv Kd Kn Kc Dt Dv]. wfs W.
  destruct (type_rt pt t Dt ltac:(assumption)) as [Pt Rt].
  destruct (optdefault_rt eq_wrap pv dv ltac:(unfold eq_wrap; pieces; auto with lay) eq_refl Dv ltac:(assumption)) as [Pd Rd].
  unfold RT, Rb, lay_vardef, g_vardef. cbn [vd_var vd_varloc vd_type vd_default vd_loc]. fold eq_wrap. split.
  - pieces. apply P1_punct; [reflexivity|]. apply P1_wordy; auto with lay. apply P1_punct; [reflexivity|]. apply P1_sep; [reflexivity|].
    apply P1_app1; [assumption..|]. apply lwrap_SF. unfold eq_wrap, sp. auto with lay.
  - pieces. rewrite ltoks_app. apply reads_tok; intros d' Kd' Vd'. apply reads_tok; intros n' Kn' Vn'. apply reads_tok; intros c' Kc' Vc'.
    apply (reads_rb Rt); intros tt' t' Dt' Et. apply (reads_last Rd); intros tl dv' Dv' Ev.
    eexists. split; [constructor; eassumption|]. cbn [vd_var vd_varloc vd_type vd_default vd_loc]. rewrite !gnl_gl. cbn [map]. gsimp.
    rewrite Vn', Et, Ev. reflexivity.
Qed.

Definition lay_vardefs (l : list vardef) : layout := lwrap (T PAREN_L) (ljoin (map lay_vardef l) comma_sp) (T PAREN_R).
Lemma vardefs_rt : forall p l, DVarDefs p l -> toks_wf p -> RT DVarDefs lay_vardefs (gs g_vardef) l.
Proof.
  intros p l D W. apply (optdelim_rt DVarDef lay_vardef g_vardef PAREN_L PAREN_R comma_sp p l); auto using lay_vardef_nonnil.
  intros q a _. apply vardef_rt.
Qed.

Lemma vardefs_SF : forall l, SF (lay_vardefs l).
Proof. intro l. apply lwrap_SF. apply SFs_punct; reflexivity. Qed.
#[export] Hint Resolve vardefs_SF : lay.

Definition name_part (nm : option name) : layout := match nm with Some n => Nm n | None => [] end.

Lemma lay_op_eq : forall o, lay_op o =
  if is_nil (name_part (op_name o)) && is_nil (lay_dirs (op_dirs o)) && is_nil (lay_vardefs (op_vars o)) && is_query (op_type o)
  then lay_selset (op_sel o)
  else ljoin [ [PTok NAME (optype_name (op_type o))]; name_part (op_name o) ++ lay_vardefs (op_vars o);
               lay_dirs (op_dirs o); lay_selset (op_sel o) ] [32].
Proof. reflexivity. Qed.

Lemma optype_of_name : forall op, optype_of (optype_name op) = Some op.
Proof. destruct op; reflexivity. Qed.
Lemma optype_name_of : forall v op, optype_of v = Some op -> v = optype_name op.
Proof.
  intros v op H. unfold optype_of in H.
  destruct (bytes_eqb v (kw "query")) eqn:E1; [apply bytes_eqb_eq in E1; inversion H; subst; reflexivity|].
  destruct (bytes_eqb v (kw "mutation")) eqn:E2; [apply bytes_eqb_eq in E2; inversion H; subst; reflexivity|].
  destruct (bytes_eqb v (kw "subscription")) eqn:E3; [apply bytes_eqb_eq in E3; inversion H; subst; reflexivity|discriminate].
Qed.
Lemma optype_name_ok : forall op, name_ok (optype_name op) = true.
Proof. destruct op; reflexivity. Qed.
#[export] Hint Extern 2 (wordy_ok NAME (optype_name _) = true) => apply optype_name_ok : lay.

Lemma ljoin_map_nil : forall A (lay : A -> layout) l sep, (forall a, lay a <> []) -> is_nil (ljoin (map lay l) sep) = true -> l = [].
Proof.
  intros A lay [|a l] sep H E; [reflexivity|]. pose proof (ljoin_map_nonnil A lay (a :: l) sep H ltac:(discriminate)) as N.
  destruct (ljoin (map lay (a :: l)) sep); [contradiction|discriminate E].
Qed.

Definition g_op (o : opdef) : gt := g_def (DOp o).

Lemma op_rt : forall p o, DOperation p o -> toks_wf p -> RT DOperation lay_op g_op o.
Proof.
  intros p o D W.
  (* the short form: a selection set alone *)
  assert (Short : forall p ss, DSelSet p ss -> toks_wf p -> RT DOperation (fun _ => lay_selset ss) g_op (mkopdef Query None [] [] ss (span p))).
  { intros q ss Ds Wq. destruct (selset_rt q ss Ds Wq) as [Ps Rs]. split; [exact Ps|]. intros ts Hts. destruct (Rs ts Hts) as (ss' & Ds' & Es).
    eexists. split; [apply DO_short; exact Ds'|]. unfold g_op. cbn [g_def op_type op_name op_vars op_dirs op_sel op_loc]. rewrite !gnl_gl. cbn [map].
    congruence. }
  destruct D as [p ss Ds | k op pn nm pv vds pd dirs ps ss Kk Ho Dn Dv Dd Ds]; [exact (Short p ss Ds W)|]. wfs W.
  unfold RT, Rb. rewrite lay_op_eq. cbn [op_type op_name op_vars op_dirs op_sel].
  destruct (is_nil (name_part nm) && is_nil (lay_dirs dirs) && is_nil (lay_vardefs vds) && is_query op) eqn:C.
  - apply andb_true_iff in C. destruct C as [C C4]. apply andb_true_iff in C. destruct C as [C C3]. apply andb_true_iff in C. destruct C as [C1 C2].
    apply (ljoin_map_nil _ lay_dir dirs [32] lay_dir_nonnil) in C2. subst dirs.
    unfold lay_vardefs, lwrap in C3. destruct (is_nil (ljoin (map lay_vardef vds) comma_sp)) eqn:C3'; [|discriminate C3].
    apply (ljoin_map_nil _ lay_vardef vds comma_sp lay_vardef_nonnil) in C3'. subst vds.
    assert (nm = None) by (destruct nm; [discriminate C1|reflexivity]). subst nm.
    assert (op = Query) by (destruct op; try discriminate C4; reflexivity). subst op.
    destruct (Short ps ss Ds ltac:(assumption)) as [Ps Rs]. split; [exact Ps|]. intros ts Hts. destruct (Rs ts Hts) as (o' & Do' & Eo).
    exists o'. split; [exact Do'|]. rewrite Eo. reflexivity.
  - destruct (opt_rt DName Nm g_name pn nm Dn ltac:(assumption) (name_rt pn)) as [Pn Rn]. change (P1 (name_part nm)) in Pn.
    destruct (vardefs_rt pv vds Dv ltac:(assumption)) as [Pv Rv]. destruct (dirs_rt pd dirs Dd ltac:(assumption)) as [Pd Rd].
    destruct (selset_rt ps ss Ds ltac:(assumption)) as [Ps Rs]. split.
    + auto 10 with lay.
    + rewrite ltoks_ljoin. cbn [flat_map]. rewrite app_nil_r, ltoks_app, <- app_assoc. cbn [ltoks tokval app].
      apply reads_tok; intros k' Kk' Vk'. apply (reads_rb Rn); intros tn nm' Dn' En. apply (reads_rb Rv); intros tv vds' Dv' Ev.
      apply (reads_rb Rd); intros td dirs' Dd' Ed. apply (reads_last Rs); intros tl ss' Ds' Es.
      eexists. split; [apply DO_full; try eassumption; rewrite Vk'; apply optype_of_name|].
      unfold g_op, gs in *. cbn [g_def op_type op_name op_vars op_dirs op_sel op_loc]. rewrite !gnl_gl. cbn [map]. rewrite En, Ev, Ed, Es.
      reflexivity.
Qed.

Lemma lay_frag_eq : forall f, lay_frag f =
  PTok NAME (kw "fragment") :: PSep [32] :: PTok NAME (nval (fr_name f)) :: PSep [32] :: PTok NAME (kw "on") :: PSep [32] ::
  PTok NAME (nval (nd_name (fr_cond f))) :: PSep [32] :: lwrap [] (lay_dirs (fr_dirs f)) sp ++ lay_selset (fr_sel f).
Proof. reflexivity. Qed.

Lemma frag_rt : forall p f, DFragment p f -> toks_wf p -> RT DFragment lay_frag (fun f => g_def (DFrag f)) f.
Proof.
  intros p f D W. destruct D as [fk pn n o t pd dirs ps ss Kf Vf Dn Ko Vo Kt Dd Ds]. destruct Dn as [tn Ktn Vtn]. wfs W.
  destruct (dirs_rt pd dirs Dd ltac:(assumption)) as [Pd Rd]. destruct (selset_rt ps ss Ds ltac:(assumption)) as [Ps Rs].
  unfold RT, Rb. rewrite lay_frag_eq. cbn [fr_name fr_cond fr_dirs fr_sel]. pieces. split.
  - repeat (first [apply P1_wordy; [auto with lay| |auto with lay] | apply P1_sep; [reflexivity|]]).
    apply P1_app1; auto with lay.
  - cbn [ltoks tokval]. rewrite ltoks_app, ltoks_lwrap_sep by reflexivity. apply reads_tok; intros f' Kf' Vf'.
    apply reads_tok; intros n' Kn' Vn'. apply reads_tok; intros o' Ko' Vo'. apply reads_tok; intros t' Kt' Vt'.
    apply (reads_rb Rd); intros td dirs' Dd' Ed. apply (reads_last Rs); intros tl ss' Ds' Es.
    eexists. split; [apply (DF_intro f' [n']); try eassumption; constructor; [eassumption|rewrite Vn'; exact Vtn]|].
    cbn [g_def fr_name fr_cond fr_dirs fr_sel fr_loc]. rewrite !gnl_gl. cbn [map]. gsimp. rewrite Vn', Vt', Ed, Es. reflexivity.
Qed.

Definition erase_loc (d : document) : gt := gnl (g_doc d).

(* The printer does not look at locations: two ASTs with the same tree once every Loc is zeroed have
   the same layout.  In each lemma the equation between two nodes is taken apart into the equations
   between their atoms and children, each child's equation is turned into the equation between the
   children's layouts, and the layouts of the nodes are then equal by rewriting. *)
Section MapLoc.
  Context {A B : Type}.
  Variable g : A -> gt.
  Variable lay : A -> B.
  Hypothesis H : forall a b, gnl (g a) = gnl (g b) -> lay a = lay b.
  Lemma map_loc : forall l l', map gnl (map g l) = map gnl (map g l') -> map lay l = map lay l'.
  Proof.
    induction l as [|a l IH]; intros [|b l'] E; try discriminate E; [reflexivity|]. cbn [map] in *. injection E as E1 E2.
    rewrite (H a b E1), (IH l' E2). reflexivity.
  Qed.
  (* an optional child: absent is the node gnone, which no present child equals *)
  Lemma opt_loc : (forall a, gnl (g a) <> gnl gnone) -> forall (n : B) a b, gnl (gopt g a) = gnl (gopt g b) ->
    match a with Some x => lay x | None => n end = match b with Some x => lay x | None => n end.
  Proof.
    intros Hn n [a|] [b|] E; cbn [gopt] in E; [apply H; exact E|destruct (Hn a E)|destruct (Hn b (eq_sym E))|reflexivity].
  Qed.
End MapLoc.

(* nodes of different kinds differ in their tag already, which is cheaper to compare than the trees *)
Definition gtag (g : gt) : N := match g with G t _ _ _ _ => t end.

Lemma name_loc : forall a b, gnl (g_name a) = gnl (g_name b) -> Nm a = Nm b.
Proof. intros a b H. injection H as E. unfold Nm. rewrite E. reflexivity. Qed.
Lemma named_loc : forall a b, gnl (g_named a) = gnl (g_named b) -> Nm (nd_name a) = Nm (nd_name b).
Proof. intros a b H. injection H as E. unfold Nm. rewrite E. reflexivity. Qed.

Lemma ty_loc : forall a b, gnl (g_ty a) = gnl (g_ty b) -> lay_type a = lay_type b.
Proof.
  induction a as [n|a IH l|a IH l]; intros [m|b l'|b l'] H; cbn [g_ty] in H; unfold g_named, gl in H; cbn [gnl map] in H; try discriminate H.
  - apply (named_loc n m H).
  - injection H as E. cbn [lay_type]. rewrite (IH b E). reflexivity.
  - injection H as E. cbn [lay_type]. rewrite (IH b E). reflexivity.
Qed.

Lemma value_loc : forall a b, gnl (g_value a) = gnl (g_value b) -> lay_value a = lay_value b.
Proof.
  fix IH 1. intros a b H. pose proof (f_equal gtag H) as T.
  destruct a as [n l|s l|s l|s l|c l|s l|vs l|fs l]; destruct b as [n' l'|s' l'|s' l'|s' l'|c' l'|s' l'|vs' l'|fs' l'];
    try discriminate T; clear T; cbn [g_value] in H; unfold gl in H; cbn [gnl map] in H; injection H as E; cbn [lay_value].
  - unfold Nm. rewrite E. reflexivity.
  - subst. reflexivity.
  - subst. reflexivity.
  - subst. reflexivity.
  - destruct c, c'; try discriminate E; reflexivity.
  - subst. reflexivity.
  - f_equal. f_equal. f_equal.
    revert vs' E. induction vs as [|x vs IHvs]; intros [|y ws] E; try discriminate E; [reflexivity|].
    cbn [map] in *. injection E as E1 E2. rewrite (IH x y E1), (IHvs ws E2). reflexivity.
  - f_equal. f_equal. f_equal.
    revert fs' E. induction fs as [|x fs IHfs]; intros [|y ws] E; try discriminate E; [reflexivity|].
    cbn [map] in *. injection E as E1 E2. rewrite (IHfs ws E2). f_equal.
    destruct x as [n v lx], y as [n' v' ly]. unfold gl in E1. cbn [gnl map] in E1. injection E1 as En Ev.
    unfold Nm. rewrite En, (IH v v' Ev). reflexivity.
Qed.
Lemma value_not_none : forall v, gnl (g_value v) <> gnl gnone.
Proof. intros [] H; discriminate H. Qed.

Lemma arg_loc : forall a b, gnl (g_arg a) = gnl (g_arg b) -> lay_arg a = lay_arg b.
Proof.
  intros a b H. unfold g_arg, gl in H. cbn [gnl map] in H. injection H as En Ev.
  apply value_loc in Ev. unfold lay_arg, Nm. rewrite En, Ev. reflexivity.
Qed.
Lemma args_loc : forall l l', map gnl (map g_arg l) = map gnl (map g_arg l') -> lay_args l = lay_args l'.
Proof. intros l l' H. apply (map_loc g_arg lay_arg arg_loc) in H. unfold lay_args. rewrite H. reflexivity. Qed.
Lemma dir_loc : forall a b, gnl (g_dir a) = gnl (g_dir b) -> lay_dir a = lay_dir b.
Proof.
  intros a b H. unfold g_dir, glist, gl in H. cbn [gnl map] in H. injection H as En Ea.
  apply args_loc in Ea. unfold lay_dir, Nm. rewrite En, Ea. reflexivity.
Qed.
Lemma dirs_loc : forall l l', map gnl (map g_dir l) = map gnl (map g_dir l') -> lay_dirs l = lay_dirs l'.
Proof. intros l l' E. apply (map_loc g_dir lay_dir dir_loc) in E. unfold lay_dirs. rewrite E. reflexivity. Qed.

Lemma sel_loc : forall a b, gnl (g_sel a) = gnl (g_sel b) -> lay_sel a = lay_sel b
with selset_loc : forall a b, gnl (g_selset a) = gnl (g_selset b) -> lay_selset a = lay_selset b.
Proof.
  - intros a b H. pose proof (f_equal gtag H) as T.
    destruct a as [al nm args dirs sub l|nm dirs l|tc dirs sub l]; destruct b as [al' nm' args' dirs' sub' l'|nm' dirs' l'|tc' dirs' sub' l'];
      try discriminate T; clear T; cbn [g_sel] in H; unfold g_dirs, glist, gl in H; cbn [gnl map] in H.
    + injection H as Eal Enm Eargs Edirs Esub.
      apply (opt_loc g_name Nm name_loc ltac:(discriminate) []) in Eal. apply args_loc in Eargs. apply dirs_loc in Edirs.
      assert (Xs : match sub with Some ss => lay_selset ss | None => [] end = match sub' with Some ss => lay_selset ss | None => [] end).
      { destruct sub as [ss|], sub' as [ss'|]; [apply selset_loc; exact Esub|destruct ss; discriminate Esub|destruct ss'; discriminate Esub|reflexivity]. }
      cbn [lay_sel]. unfold Nm in *. rewrite Eal, Enm, Eargs, Edirs, Xs. reflexivity.
    + injection H as Enm Edirs. apply dirs_loc in Edirs. cbn [lay_sel]. unfold Nm in *. rewrite Enm, Edirs. reflexivity.
    + injection H as Etc Edirs Esub.
      apply (opt_loc g_named (fun t => Nm (nd_name t)) named_loc ltac:(discriminate) []) in Etc. apply dirs_loc in Edirs. apply selset_loc in Esub.
      cbn [lay_sel]. unfold Nm in *. rewrite Etc, Edirs, Esub. reflexivity.
  - intros [sels l] [sels' l'] H. cbn [g_selset] in H. unfold gl in H. cbn [gnl] in H. injection H as E.
    cbn [lay_selset]. f_equal. revert sels' E. induction sels as [|x sels IH]; intros [|y ws] E; try discriminate E; [reflexivity|].
    cbn [map] in *. injection E as E1 E2. rewrite (sel_loc x y E1), (IH ws E2). reflexivity.
Qed.

Lemma vardef_loc : forall a b, gnl (g_vardef a) = gnl (g_vardef b) -> lay_vardef a = lay_vardef b.
Proof.
  intros a b H. unfold g_vardef, gl in H. cbn [gnl map] in H.
  injection H as Ev Et Ed. apply ty_loc in Et. apply (opt_loc g_value lay_value value_loc value_not_none []) in Ed.
  unfold lay_vardef, Nm. rewrite Ev, Et, Ed. reflexivity.
Qed.

Lemma optype_name_inj : forall a b, optype_name a = optype_name b -> a = b.
Proof. intros [] [] H; try discriminate H; reflexivity. Qed.

Lemma descr_loc : forall a b, gnl (g_descr a) = gnl (g_descr b) -> lay_descr a = lay_descr b.
Proof.
  intros [[s l]|] [[s' l']|] H; unfold g_descr, gnone, gl in H; cbn [gnl map] in H; try discriminate H; [|reflexivity].
  injection H as E. subst. reflexivity.
Qed.
Lemma ivdef_loc : forall a b, gnl (g_ivdef a) = gnl (g_ivdef b) -> lay_ivdef a = lay_ivdef b.
Proof.
  intros a b H. unfold g_ivdef, g_dirs, glist, gl in H. cbn [gnl map] in H.
  injection H as Eds En Et Edv Edirs. apply descr_loc in Eds. apply ty_loc in Et.
  apply (opt_loc g_value lay_value value_loc value_not_none []) in Edv. apply dirs_loc in Edirs.
  unfold lay_ivdef, with_desc_nl, dflt_lay, Nm. rewrite Eds, En, Et, Edv, Edirs. reflexivity.
Qed.
Lemma argdefs_loc : forall l l', map gnl (map g_ivdef l) = map gnl (map g_ivdef l') -> lay_argdefs l = lay_argdefs l'.
Proof. intros l l' E. apply (map_loc g_ivdef lay_ivdef ivdef_loc) in E. unfold lay_argdefs. rewrite E. reflexivity. Qed.
Lemma fielddef_loc : forall a b, gnl (g_fielddef a) = gnl (g_fielddef b) -> lay_fielddef a = lay_fielddef b.
Proof.
  intros a b H. unfold g_fielddef, g_dirs, glist, gl in H. cbn [gnl map] in H.
  injection H as Eds En Ea Et Edirs. apply descr_loc in Eds. apply argdefs_loc in Ea. apply ty_loc in Et. apply dirs_loc in Edirs.
  unfold lay_fielddef, with_desc_nl, Nm. rewrite Eds, En, Ea, Et, Edirs. reflexivity.
Qed.
Lemma objdef_loc : forall a b, gnl (g_objdef a) = gnl (g_objdef b) -> lay_objdef a = lay_objdef b.
Proof.
  intros a b H. unfold g_objdef, g_dirs, glist, gl in H. cbn [gnl map] in H.
  injection H as Eds En Ei Edirs Ef. apply descr_loc in Eds. apply dirs_loc in Edirs.
  apply (map_loc g_named (fun n => Nm (nd_name n)) named_loc) in Ei. apply (map_loc g_fielddef lay_fielddef fielddef_loc) in Ef.
  unfold lay_objdef, with_desc. unfold Nm in *. rewrite Eds, En, Ei, Edirs, Ef. reflexivity.
Qed.
Definition g_enumval (v : enumvaldef) : gt := gl 33 [] (ev_loc v) [g_descr (ev_desc v); g_name (ev_name v); g_dirs (ev_dirs v)].
Lemma enumval_loc : forall a b, gnl (g_enumval a) = gnl (g_enumval b) -> lay_enumval a = lay_enumval b.
Proof.
  intros a b H. unfold g_enumval, g_dirs, glist, gl in H. cbn [gnl map] in H.
  injection H as Eds En Edirs. apply descr_loc in Eds. apply dirs_loc in Edirs.
  unfold lay_enumval, with_desc_nl, Nm. rewrite Eds, En, Edirs. reflexivity.
Qed.
Definition g_optypedef (o : optypedef) : gt := gl 27 (optype_name (ot_op o)) (ot_loc o) [g_named (ot_type o)].
Lemma optd_loc : forall a b, gnl (g_optypedef a) = gnl (g_optypedef b) -> lay_optypedef a = lay_optypedef b.
Proof.
  intros a b H. unfold g_optypedef, gl in H. cbn [gnl map] in H. injection H as Eo Et.
  apply optype_name_inj in Eo. unfold lay_optypedef, Nm. rewrite Eo, Et. reflexivity.
Qed.

Lemma g1_inj : forall t a x y, G t a 0 0 [x] = G t a 0 0 [y] -> x = y.
Proof. intros t a x y H. inversion H. reflexivity. Qed.

Lemma def_loc : forall a b, gnl (g_def a) = gnl (g_def b) -> lay_def a = lay_def b.
Proof.
  intros a b H. pose proof (f_equal gtag H) as T.
  destruct a, b; try discriminate T; clear T; [| | | |apply objdef_loc; exact H| | | | | |];
    cbn [g_def] in H; unfold g_dirs, glist, gl in H; cbn [gnl map] in H.
  - injection H as Eot Enm Evds Edirs Ess. apply optype_name_inj in Eot. apply (opt_loc g_name Nm name_loc ltac:(discriminate) []) in Enm.
    apply (map_loc g_vardef lay_vardef vardef_loc) in Evds. apply dirs_loc in Edirs. apply selset_loc in Ess.
    cbn [lay_def]. unfold lay_op. rewrite Eot, Enm, Evds, Edirs, Ess. reflexivity.
  - injection H as En Ec Edirs Ess. apply dirs_loc in Edirs. apply selset_loc in Ess.
    cbn [lay_def]. unfold lay_frag, Nm. rewrite En, Ec, Edirs, Ess. reflexivity.
  - injection H as Edirs Eo. apply dirs_loc in Edirs. apply (map_loc g_optypedef lay_optypedef optd_loc) in Eo. cbn [lay_def]. unfold Nm in *.
    rewrite Edirs, Eo. reflexivity.
  - injection H as Eds En Edirs. apply descr_loc in Eds. apply dirs_loc in Edirs. cbn [lay_def]. unfold with_desc. unfold Nm in *.
    rewrite Eds, En, Edirs. reflexivity.
  - injection H as Eds En Edirs Ef. apply descr_loc in Eds. apply dirs_loc in Edirs.
    apply (map_loc g_fielddef lay_fielddef fielddef_loc) in Ef. cbn [lay_def]. unfold with_desc. unfold Nm in *. rewrite Eds, En, Edirs, Ef.
    reflexivity.
  - injection H as Eds En Edirs Et. apply descr_loc in Eds. apply dirs_loc in Edirs.
    apply (map_loc g_named (fun n => Nm (nd_name n)) named_loc) in Et. cbn [lay_def]. unfold with_desc. unfold Nm in *. rewrite Eds, En, Edirs, Et.
    reflexivity.
  - injection H as Eds En Edirs Ev. apply descr_loc in Eds. apply dirs_loc in Edirs.
    apply (map_loc g_enumval lay_enumval enumval_loc) in Ev. cbn [lay_def]. unfold with_desc. unfold Nm in *. rewrite Eds, En, Edirs, Ev. reflexivity.
  - injection H as Eds En Edirs Ef. apply descr_loc in Eds. apply dirs_loc in Edirs.
    apply (map_loc g_ivdef lay_ivdef ivdef_loc) in Ef. cbn [lay_def]. unfold with_desc. unfold Nm in *. rewrite Eds, En, Edirs, Ef. reflexivity.
  - apply g1_inj, objdef_loc in H. cbn [lay_def]. rewrite H. reflexivity.
  - injection H as Eds En Ea El. apply descr_loc in Eds. apply argdefs_loc in Ea.
    apply (map_loc g_name Nm name_loc) in El. cbn [lay_def]. unfold with_desc. unfold Nm in *. rewrite Eds, En, Ea, El. reflexivity.
Qed.

Theorem print_ignores_locations : forall d d', erase_loc d = erase_loc d' -> print_doc d = print_doc d'.
Proof.
  intros [defs l] [defs' l'] H. unfold erase_loc, g_doc, gl in H. cbn [gnl doc_defs doc_loc] in H. injection H as E.
  unfold print_doc, lay_doc. cbn [doc_defs]. rewrite (map_loc g_def lay_def def_loc defs defs' E). reflexivity.
Qed.

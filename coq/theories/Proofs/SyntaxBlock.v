(* C08: descriptions printed as block strings are read back by the lexer.
   blk_okb s (s not empty, printableAsBlockString s, s valid UTF-8) implies that the text
   the printer writes for s at any indentation depth is lexed as one BLOCK_STRING token
   with value s:  the raw text between the triple quotes is read back as it was written
   (read_block_raw_rt) and blockStringValue gives the description back (block_value_rt). *)
From Coq Require Import List NArith Bool Lia.
From GQL Require Import Base.Bytes Syntax.Lexer Syntax.Parser Syntax.Printer Proofs.SyntaxPrinter Proofs.SyntaxLexer Proofs.SyntaxUtf8.
Import ListNotations.
Open Scope N_scope.

Definition blk_okb (s : bytes) : bool := negb (is_nil s) && printable_as_block s && str_okb s.

(* every byte below 128 is a character of its own, so a test on all characters is a test on these bytes *)
Lemma all_runes_bytes : forall p fuel s, all_runes p fuel s = true -> forall c, In c s -> c < 128 -> p c = true.
Proof.
  intros p. induction fuel as [|f IH]; intros s H c Hc Hlt; [discriminate H|].
  destruct s as [|c0 s']; [contradiction|]. cbn [all_runes] in H.
  destruct (rune_at_cons c0 s') as (r & n & R). rewrite R in H. apply andb_true_iff in H. destruct H as [Hp Hrest].
  pose proof (rune_at_width _ _ _ R) as W. assert (n = 1 \/ 1 < n) as [-> | Hn] by lia.
  - change (dropN 1 (c0 :: s')) with s' in Hrest. destruct Hc as [Hc | Hc].
    + subst c0. pose proof (rune_at_ascii c s' Hlt) as A. unfold bytes, byte in *. rewrite R in A. inversion A; subst. exact Hp.
    + apply (IH s' Hrest c Hc Hlt).
  - destruct (rune_at_mb _ _ _ R Hn) as (pre & rst & E & L & M).
    rewrite E in Hc, Hrest. rewrite (dropN_app_len _ _ _ L) in Hrest. apply in_app_or in Hc. destruct Hc as [Hc | Hc].
    + pose proof (mb_high _ _ M) as Hhigh. rewrite Forall_forall in Hhigh. specialize (Hhigh c Hc). lia.
    + apply (IH rst Hrest c Hc Hlt).
Qed.

Definition byte_ok (c : N) : bool := (32 <=? c) || (c =? 9) || (c =? 10).
Definition raw_ok (raw : bytes) : Prop :=
  utf8_valid raw /\ no_tq raw = true /\ last_ok raw = true /\ forallb byte_ok raw = true.

Lemma last_ok_cons : forall a b r, last_ok (a :: b :: r) = last_ok (b :: r).
Proof. reflexivity. Qed.
Lemma last_ok_tail : forall a r, last_ok (a :: r) = true -> last_ok r = true.
Proof. intros a [|b r] H; [reflexivity|exact H]. Qed.
Lemma last_ok_app_r : forall a b, last_ok (a ++ b) = true -> last_ok b = true.
Proof. induction a as [|x a IH]; intros b H; [exact H|]. apply IH. apply (last_ok_tail x). exact H. Qed.
Lemma no_tq_app_r : forall a b, no_tq (a ++ b) = true -> no_tq b = true.
Proof.
  induction a as [|x a IH]; intros b H; [exact H|]. cbn [app no_tq] in H. apply andb_true_iff in H. destruct H as [_ H]. apply IH. exact H.
Qed.

(* three double quotes do not start inside raw, nor across its end *)
Lemma tq_not_prefix : forall s tail, s <> [] -> no_tq s = true -> last_ok s = true -> starts_with tq (s ++ tq ++ tail) = false.
Proof.
  intros s tail Hne Hq Hl. destruct s as [|a [|b [|c s']]]; [contradiction| | |].
  - cbn [last_ok] in Hl. apply andb_true_iff in Hl. destruct Hl as [Hl _]. apply negb_true_iff in Hl.
    cbn [app tq starts_with]. rewrite N.eqb_sym, Hl. reflexivity.
  - cbn [last_ok] in Hl. apply andb_true_iff in Hl. destruct Hl as [Hl _]. apply negb_true_iff in Hl.
    cbn [app tq starts_with]. rewrite (N.eqb_sym 34 b), Hl. rewrite andb_false_r. reflexivity.
  - cbn [no_tq] in Hq. apply andb_true_iff in Hq. destruct Hq as [Hq _]. apply negb_true_iff in Hq.
    cbn [app tq starts_with] in *. exact Hq.
Qed.

Lemma byte_ok_ctl : forall c, byte_ok c = true -> (c <? 32) && negb (c =? 9) && negb (c =? 10) && negb (c =? 13) = false.
Proof.
  intros c H. unfold byte_ok in H. destruct (c <? 32) eqn:E; [|reflexivity]. apply N.ltb_lt in E.
  assert (32 <=? c = false) by (apply N.leb_gt; exact E). rewrite H0 in H. cbn [orb] in H.
  destruct (c =? 9); [reflexivity|]. destruct (c =? 10); [reflexivity|discriminate H].
Qed.

Lemma read_block_raw_rt : forall raw, raw_ok raw ->
  forall f rest pos, (length raw < f)%nat ->
  read_block_raw f (raw ++ tq ++ rest) pos = Ok (raw, rest, pos + nlen raw + 3).
Proof.
  intros raw (V & Hq & Hl & Hb). induction V as [|c s Hc V IH|pre r rst M V IH] using utf8_valid_chars; intros f rest pos Hf.
  - destruct f; [simpl in Hf; lia|]. cbn [app tq read_block_raw]. rewrite (rune_at_ascii 34 _ ltac:(lia)).
    change (dropN 1 (34 :: 34 :: 34 :: rest)) with (34 :: 34 :: rest). cbn [starts_with]. rewrite N.eqb_refl. cbn [andb].
    change (dropN 3 (34 :: 34 :: 34 :: rest)) with rest. unfold nlen. cbn [length]. f_equal. f_equal. lia.
  - destruct f; [simpl in Hf; lia|]. cbn [app read_block_raw]. rewrite (rune_at_ascii c _ Hc).
    change (dropN 1 (c :: s ++ tq ++ rest)) with (s ++ tq ++ rest).
    cbn [forallb] in Hb. apply andb_true_iff in Hb. destruct Hb as [Hbc Hbs].
    assert (Hqs : no_tq s = true) by (apply (no_tq_app_r [c] s Hq)).
    assert (Hls : last_ok s = true) by (apply (last_ok_tail c s Hl)).
    (* not the closing delimiter *)
    assert (E1 : (c =? 34) && starts_with [34; 34] (s ++ tq ++ rest) = false).
    { destruct (c =? 34) eqn:E; [|reflexivity]. apply N.eqb_eq in E. subst c. cbn [andb].
      pose proof (tq_not_prefix (34 :: s) rest ltac:(discriminate) Hq Hl) as X. cbn [app tq starts_with] in X.
      rewrite N.eqb_refl in X. cbn [andb] in X. exact X. }
    rewrite E1. rewrite (byte_ok_ctl c Hbc).
    assert (E2 : (c =? 92) && starts_with [34; 34; 34] (s ++ tq ++ rest) = false).
    { destruct (c =? 92) eqn:E; [|reflexivity]. apply N.eqb_eq in E. subst c. cbn [andb].
      destruct s as [|x s']; [discriminate Hl|]. apply (tq_not_prefix (x :: s') rest ltac:(discriminate) Hqs Hls). }
    rewrite E2. change (takeN 1 (c :: s ++ tq ++ rest)) with [c]. unfold bytes, byte in *.
    rewrite (IH Hqs Hls Hbs f rest (pos + 1) ltac:(simpl in Hf; lia)). cbn [app]. f_equal. f_equal. unfold nlen. cbn [length]. lia.
  - destruct (mb_cons _ _ M) as (c & pre' & Epre & _). pose proof M as (Hr & _ & _ & Hd).
    destruct f; [simpl in Hf; lia|]. rewrite <- app_assoc. cbn [read_block_raw]. rewrite (Hd (rst ++ tq ++ rest)).
    assert (X : forall k, k < 128 -> (r =? k) = false) by (intros; apply N.eqb_neq; lia).
    rewrite !X by reflexivity. rewrite (proj2 (N.ltb_ge r 32)) by lia. cbn [andb].
    rewrite (dropN_app_len _ _ _ eq_refl), (takeN_app_len _ _ _ eq_refl).
    rewrite forallb_app in Hb. apply andb_true_iff in Hb. destruct Hb as [_ Hbs].
    assert (Lp : (1 <= length pre)%nat) by (rewrite Epre; simpl; lia). unfold bytes, byte in *.
    rewrite (IH (no_tq_app_r _ _ Hq) (last_ok_app_r _ _ Hl) Hbs f rest (pos + nlen pre)
               ltac:(rewrite app_length in Hf; lia)).
    f_equal. f_equal. rewrite nlen_app. lia.
Qed.

Lemma indent_app : forall a b, indent_bytes (a ++ b) = indent_bytes a ++ indent_bytes b.
Proof.
  induction a as [|c a IH]; intro b; [reflexivity|]. cbn [app indent_bytes]. destruct (c =? 10); rewrite IH; reflexivity.
Qed.
Lemma indent_high : forall pre, Forall (fun b => 128 <= b) pre -> indent_bytes pre = pre.
Proof.
  intros pre H. induction H as [|c pre Hc _ IH]; [reflexivity|]. cbn [indent_bytes].
  assert (c =? 10 = false) by (apply N.eqb_neq; lia). rewrite H, IH. reflexivity.
Qed.

Lemma valid_app : forall a b, utf8_valid a -> utf8_valid b -> utf8_valid (a ++ b).
Proof.
  intros a b Va Vb. induction Va as [|c s Hc V IH|pre r rst M V IH] using utf8_valid_chars;
    [exact Vb|cbn [app]; apply V_ascii; assumption|].
  rewrite <- app_assoc. apply (valid_mb _ _ _ M IH).
Qed.

Lemma valid_indent : forall s, utf8_valid s -> utf8_valid (indent_bytes s).
Proof.
  intros s V. induction V as [|c s Hc V IH|pre r rst M V IH] using utf8_valid_chars; [constructor| |].
  - cbn [indent_bytes]. destruct (c =? 10); [|apply V_ascii; assumption].
    apply V_ascii; [lia|]. apply V_ascii; [lia|]. apply V_ascii; [lia|exact IH].
  - rewrite indent_app, (indent_high pre (mb_high _ _ M)). apply (valid_mb _ _ _ M IH).
Qed.

Lemma sw_indent : forall p s, (forall x, In x p -> x <> 10) -> starts_with p (indent_bytes s) = starts_with p s.
Proof.
  induction p as [|a p IH]; intros s Hp; [reflexivity|]. destruct s as [|c r]; [reflexivity|].
  assert (Ha : a <> 10) by (apply Hp; left; reflexivity).
  cbn [indent_bytes]. destruct (c =? 10) eqn:E.
  - apply N.eqb_eq in E. subst c. cbn [starts_with]. apply N.eqb_neq in Ha. rewrite Ha. reflexivity.
  - cbn [starts_with]. rewrite (IH r (fun x Hx => Hp x (or_intror Hx))). reflexivity.
Qed.

Lemma tq_no_nl : forall x, In x tq -> x <> 10.
Proof. intros x [<-|[<-|[<-|[]]]]; discriminate. Qed.

Lemma no_tq_indent : forall s, no_tq (indent_bytes s) = no_tq s.
Proof.
  induction s as [|c r IH]; [reflexivity|].
  change (no_tq (c :: r)) with (negb (starts_with tq (c :: r)) && no_tq r).
  rewrite <- (sw_indent tq (c :: r) tq_no_nl), <- IH. cbn [indent_bytes]. destruct (c =? 10); reflexivity.
Qed.

Lemma indent_nil : forall s, indent_bytes s = [] -> s = [].
Proof. intros [|c s] H; [reflexivity|]. cbn [indent_bytes] in H. destruct (c =? 10); discriminate H. Qed.

Lemma last_ok_step : forall a r, r <> [] -> last_ok (a :: r) = last_ok r.
Proof. intros a [|b r] H; [contradiction|reflexivity]. Qed.

Lemma last_ok_indent : forall s, last_ok s = true -> last_ok (indent_bytes s) = true.
Proof.
  induction s as [|c r IH]; intro H; [reflexivity|]. destruct r as [|b r'].
  - cbn [indent_bytes]. destruct (c =? 10); [reflexivity|exact H].
  - assert (N1 : indent_bytes (b :: r') <> []) by (intro X; apply indent_nil in X; discriminate X).
    specialize (IH H). cbn [indent_bytes] in *. destruct (c =? 10).
    + rewrite !last_ok_step by (try discriminate; exact N1). exact IH.
    + rewrite last_ok_step by exact N1. exact IH.
Qed.

Lemma bytes_ok_indent : forall s, forallb byte_ok s = true -> forallb byte_ok (indent_bytes s) = true.
Proof.
  induction s as [|c r IH]; intro H; [reflexivity|]. cbn [forallb] in H. apply andb_true_iff in H. destruct H as [Hc Hr].
  cbn [indent_bytes]. destruct (c =? 10); cbn [forallb]; rewrite (IH Hr); [reflexivity|rewrite Hc; reflexivity].
Qed.

Lemma raw_ok_indent : forall raw, raw_ok raw -> raw_ok (indent_bytes raw).
Proof.
  intros raw (V & Hq & Hl & Hb). split; [apply valid_indent; exact V|]. split; [rewrite no_tq_indent; exact Hq|].
  split; [apply last_ok_indent; exact Hl|apply bytes_ok_indent; exact Hb].
Qed.

Lemma raw_ok_iter : forall d raw, raw_ok raw -> raw_ok (N.iter d indent_bytes raw).
Proof. intros d raw H. apply N.iter_invariant; [intros x Hx; apply raw_ok_indent; exact Hx|exact H]. Qed.

Lemma sw_snoc : forall x, starts_with tq (x ++ [10]) = true -> starts_with tq x = true.
Proof.
  intros x H. destruct x as [|a [|b [|c x']]]; cbn [app tq starts_with] in *.
  - discriminate H.
  - rewrite andb_false_r in H. discriminate H.
  - rewrite !andb_false_r in H. discriminate H.
  - exact H.
Qed.
Lemma no_tq_snoc : forall s, no_tq s = true -> no_tq (s ++ [10]) = true.
Proof.
  induction s as [|c r IH]; intro H; [reflexivity|]. cbn [no_tq] in H. apply andb_true_iff in H. destruct H as [H1 H2].
  change (no_tq ((c :: r) ++ [10])) with (negb (starts_with tq ((c :: r) ++ [10])) && no_tq (r ++ [10])).
  rewrite (IH H2), andb_true_r. apply negb_true_iff. apply negb_true_iff in H1.
  destruct (starts_with tq ((c :: r) ++ [10])) eqn:E; [|reflexivity]. apply sw_snoc in E. congruence.
Qed.
Lemma last_ok_snoc : forall x, last_ok (x ++ [10]) = true.
Proof.
  induction x as [|a x IH]; [reflexivity|]. cbn [app]. rewrite last_ok_step; [exact IH|]. destruct x; discriminate.
Qed.

Lemma raw_ok_wrap : forall s, raw_ok s -> raw_ok (10 :: s ++ [10]).
Proof.
  intros s (V & Hq & Hl & Hb). split; [|split; [|split]].
  - apply V_ascii; [lia|]. apply valid_app; [exact V|apply V_ascii; [lia|constructor]].
  - change (no_tq (10 :: s ++ [10])) with (no_tq (s ++ [10])). apply no_tq_snoc. exact Hq.
  - rewrite last_ok_step; [apply last_ok_snoc|]. destruct s; discriminate.
  - unfold bytes, byte in *. cbn [forallb]. rewrite forallb_app, Hb. reflexivity.
Qed.

Lemma block_rune_byte : forall c, block_rune_ok c = true -> byte_ok c = true.
Proof.
  intros c H. unfold block_rune_ok in H. apply negb_true_iff in H. apply orb_false_iff in H. destruct H as [H _].
  unfold byte_ok. destruct (c <? 32) eqn:E.
  - cbn [andb] in H. destruct (c =? 9); [rewrite orb_true_r; reflexivity|]. destruct (c =? 10); [apply orb_true_r|discriminate H].
  - apply N.ltb_ge in E. apply N.leb_le in E. rewrite E. reflexivity.
Qed.

Lemma printable_bytes_ok : forall s, all_runes block_rune_ok (S (length s)) s = true -> forallb byte_ok s = true.
Proof.
  intros s H. apply forallb_forall. intros c Hc. destruct (N.lt_ge_cases c 128) as [L|L].
  - apply block_rune_byte. apply (all_runes_bytes _ _ _ H c Hc L).
  - unfold byte_ok. assert (32 <=? c = true) by (apply N.leb_le; lia). rewrite H0. reflexivity.
Qed.

Lemma printable_raw_ok : forall s, printable_as_block s = true -> utf8_valid s -> raw_ok s.
Proof.
  intros s H V. unfold printable_as_block in H. apply andb_true_iff in H. destruct H as [H _].
  apply andb_true_iff in H. destruct H as [H H3]. apply andb_true_iff in H. destruct H as [H1 H2].
  split; [exact V|]. split; [exact H1|]. split; [exact H2|]. apply printable_bytes_ok. exact H3.
Qed.

Lemma block_raw_ok : forall s, printable_as_block s = true -> utf8_valid s -> forall d, raw_ok (N.iter d indent_bytes (block_raw s)).
Proof.
  intros s H V d. apply raw_ok_iter. unfold block_raw. pose proof (printable_raw_ok s H V) as R.
  destruct (existsb (N.eqb 10) s); [apply raw_ok_wrap; exact R|exact R].
Qed.

Lemma split_lines_cons : forall c r, c <> 13 -> split_lines (c :: r) =
  if (c =? 10) || (c =? 13) then [] :: split_lines r
  else match split_lines r with l :: ls => (c :: l) :: ls | [] => [[c]] end.
Proof.
  intros c r H. destruct c as [|p]; [reflexivity|].
  destruct p as [p|p|]; [|reflexivity|reflexivity].
  destruct p as [p|p|]; [reflexivity| |reflexivity].
  destruct p as [p|p|]; [|reflexivity|reflexivity].
  destruct p as [p|p|]; [reflexivity|reflexivity|]. contradiction H; reflexivity.
Qed.

Lemma byte_ok_not_cr : forall c, byte_ok c = true -> c <> 13.
Proof. intros c H E. subst c. discriminate H. Qed.

Lemma split_lines_nl : forall s, forallb byte_ok s = true -> split_lines s = split_nl s.
Proof.
  induction s as [|c r IH]; intro H; [reflexivity|]. cbn [forallb] in H. apply andb_true_iff in H. destruct H as [Hc Hr].
  pose proof (byte_ok_not_cr c Hc) as N13. rewrite (split_lines_cons c r N13), (IH Hr).
  apply N.eqb_neq in N13. rewrite N13, orb_false_r. reflexivity.
Qed.

Lemma split_nl_nonnil : forall s, split_nl s <> [].
Proof. intros [|c r]; [discriminate|]. cbn [split_nl]. destruct (c =? 10); [discriminate|]. destruct (split_nl r); discriminate. Qed.

Lemma join_split : forall s, join_lines (split_nl s) = s.
Proof.
  induction s as [|c r IH]; [reflexivity|]. cbn [split_nl]. pose proof (split_nl_nonnil r) as Nn. destruct (c =? 10) eqn:E.
  - apply N.eqb_eq in E. subst c. destruct (split_nl r) as [|l ls]; [contradiction|]. cbn [join_lines app] in *. rewrite IH. reflexivity.
  - destruct (split_nl r) as [|l ls]; [contradiction|]. destruct ls as [|l2 ls]; cbn [join_lines app] in *; rewrite <- IH; reflexivity.
Qed.

Lemma split_nl_single : forall s, existsb (N.eqb 10) s = false -> split_nl s = [s].
Proof.
  induction s as [|c r IH]; intro H; [reflexivity|]. cbn [existsb] in H. apply orb_false_iff in H. destruct H as [Hc Hr].
  cbn [split_nl]. rewrite N.eqb_sym in Hc. rewrite Hc, (IH Hr). reflexivity.
Qed.

Lemma split_nl_snoc : forall s, split_nl (s ++ [10]) = split_nl s ++ [[]].
Proof.
  induction s as [|c r IH]; [reflexivity|]. cbn [app split_nl]. rewrite IH. destruct (c =? 10); [reflexivity|].
  pose proof (split_nl_nonnil r) as Nn. destruct (split_nl r) as [|l ls]; [contradiction|reflexivity].
Qed.

Definition pad2 (l : bytes) : bytes := 32 :: 32 :: l.
Lemma split_nl_indent : forall x, split_nl (indent_bytes x) =
  match split_nl x with f :: r => f :: map pad2 r | [] => [] end.
Proof.
  induction x as [|c r IH]; [reflexivity|]. pose proof (split_nl_nonnil r) as Nn. cbn [indent_bytes split_nl]. destruct (c =? 10) eqn:E.
  - cbn [split_nl]. rewrite N.eqb_refl. change (32 =? 10) with false. cbv iota. rewrite IH.
    destruct (split_nl r) as [|f rest]; [contradiction|]. reflexivity.
  - cbn [split_nl]. rewrite E, IH. destruct (split_nl r) as [|f rest]; [contradiction|]. reflexivity.
Qed.

Definition padn (d : N) : bytes := N.iter d pad2 [].
Lemma padn_succ : forall d, padn (N.succ d) = pad2 (padn d).
Proof. intro d. unfold padn. apply N.iter_succ. Qed.
Lemma padn_blank : forall d, forallb is_blank_char (padn d) = true.
Proof. intro d. unfold padn. apply N.iter_invariant; [intros x Hx; cbn [pad2 forallb]; rewrite Hx; reflexivity|reflexivity]. Qed.

Lemma map_app_nil : forall A (r : list (list A)), map (app []) r = r.
Proof. intros A r. induction r as [|a r IH]; [reflexivity|]. cbn [map]. rewrite IH. reflexivity. Qed.

Lemma split_nl_iter : forall d x, split_nl (N.iter d indent_bytes x) =
  match split_nl x with f :: r => f :: map (app (padn d)) r | [] => [] end.
Proof.
  intros d x. induction d as [|d IH] using N.peano_ind.
  - change (N.iter 0 indent_bytes x) with x. change (padn 0) with (@nil N). destruct (split_nl x) as [|f r]; [reflexivity|]. rewrite map_app_nil. reflexivity.
  - rewrite N.iter_succ, split_nl_indent, IH. destruct (split_nl x) as [|f r]; [reflexivity|].
    rewrite map_map, padn_succ. reflexivity.
Qed.

Lemma span_blank_app : forall P l, forallb is_blank_char P = true ->
  span is_blank_char (P ++ l) = (P ++ fst (span is_blank_char l), snd (span is_blank_char l)).
Proof.
  induction P as [|c P IH]; intros l H; [cbn [app]; destruct (span is_blank_char l); reflexivity|].
  cbn [forallb] in H. apply andb_true_iff in H. destruct H as [Hc HP]. cbn [app span]. rewrite Hc, (IH l HP). reflexivity.
Qed.
Lemma leading_ws_app : forall P l, forallb is_blank_char P = true -> leading_ws (P ++ l) = nlen P + leading_ws l.
Proof. intros P l H. unfold leading_ws. rewrite (span_blank_app P l H). cbn [fst]. apply nlen_app. Qed.

Lemma line_blank_eq : forall l, line_is_blank l = blank_line l.
Proof.
  induction l as [|c l IH]; [reflexivity|]. unfold line_is_blank, leading_ws, blank_line in *. cbn [span forallb].
  destruct (is_blank_char c).
  - destruct (span is_blank_char l) as [a b]. cbn [fst andb] in *. rewrite !nlen_cons. rewrite <- IH.
    destruct (nlen a =? nlen l) eqn:E.
    + apply N.eqb_eq in E. apply N.eqb_eq. f_equal. exact E.
    + apply N.eqb_neq in E. apply N.eqb_neq. intro X. apply E. apply N.succ_inj. exact X.
  - cbn [fst andb]. rewrite nlen_cons. apply N.eqb_neq. unfold nlen at 1. cbn [length]. change (N.of_nat 0) with 0. apply N.neq_sym. apply N.neq_succ_0.
Qed.

Lemma leading_ws_flush : forall l, blank_line l = false -> starts_blank l = false -> leading_ws l = 0 /\ 0 < nlen l.
Proof.
  intros [|c l] Hb Hs; [discriminate Hb|]. cbn [starts_blank] in Hs. unfold leading_ws. cbn [span]. rewrite Hs. cbn [fst].
  split; [reflexivity|]. rewrite nlen_cons. lia.
Qed.

Lemma common_indent_padded : forall P L, forallb is_blank_char P = true ->
  common_indent (map (app P) L) (Some (nlen P)) = Some (nlen P).
Proof.
  intros P L HP. induction L as [|l L IH]; [reflexivity|]. cbn [map common_indent].
  cbv zeta. match goal with |- context [if ?X then _ else _] => destruct X end; [|exact IH].
  rewrite (leading_ws_app P l HP). rewrite (N.min_l (nlen P) (nlen P + leading_ws l) (N.le_add_r _ _)). exact IH.
Qed.

Lemma unindent_padded : forall P l, unindent (nlen P) (P ++ l) = l.
Proof.
  intros P l. unfold unindent. rewrite nlen_app. assert (nlen P + nlen l <? nlen P = false) by (apply N.ltb_ge; lia). rewrite H.
  apply dropN_app_len. reflexivity.
Qed.
Lemma map_unindent_padded : forall P L, map (unindent (nlen P)) (map (app P) L) = L.
Proof. intros P L. induction L as [|l L IH]; [reflexivity|]. cbn [map]. rewrite unindent_padded, IH. reflexivity. Qed.

Lemma drop_blank_keep : forall l L, blank_line l = false -> drop_blank (l :: L) = l :: L.
Proof. intros l L H. cbn [drop_blank]. rewrite line_blank_eq, H. reflexivity. Qed.

Lemma rev_last : forall (L : list bytes), L <> [] -> rev L = last L [] :: rev (removelast L).
Proof.
  intros L H. destruct (exists_last H) as (L' & x & ->). rewrite last_last, removelast_last, rev_app_distr. reflexivity.
Qed.

(* rewrite up to the synonyms bytes = list byte = list N *)
Ltac brw H := let Q := fresh "Q" in pose proof H as Q; unfold bytes, byte in *; rewrite Q; clear Q.

Theorem block_value_rt : forall s d, printable_as_block s = true ->
  block_string_value (N.iter d indent_bytes (block_raw s)) = s.
Proof.
  intros s d H. pose proof H as H0. unfold printable_as_block in H. apply andb_true_iff in H. destruct H as [H Hlines].
  apply andb_true_iff in H. destruct H as [_ Hr]. pose proof (printable_bytes_ok s Hr) as Hb.
  cbv zeta in Hlines. apply andb_true_iff in Hlines. destruct Hlines as [Hlines _].
  apply andb_true_iff in Hlines. destruct Hlines as [Hlines Hsb]. apply andb_true_iff in Hlines. destruct Hlines as [Hhd Hlast].
  apply negb_true_iff in Hhd. apply negb_true_iff in Hlast. apply negb_true_iff in Hsb.
  pose proof (split_nl_nonnil s) as Nn.
  unfold block_raw. destruct (existsb (N.eqb 10) s) eqn:NL.
  - (* several lines: the text is LF s LF, indented d times *)
    assert (Hbw : forallb byte_ok (N.iter d indent_bytes (10 :: s ++ [10])) = true).
    { apply N.iter_invariant; [intros x Hx; apply bytes_ok_indent; exact Hx|].
      unfold bytes, byte in *. cbn [forallb]. rewrite forallb_app, Hb. reflexivity. }
    unfold block_string_value. rewrite (split_lines_nl _ Hbw), split_nl_iter.
    change (split_nl (10 :: s ++ [10])) with ([] :: split_nl (s ++ [10])). rewrite split_nl_snoc.
    destruct (split_nl s) as [|l0 ls] eqn:ES; [contradiction|]. cbn [hd] in Hhd, Hsb.
    destruct (leading_ws_flush l0 Hhd Hsb) as [W0 W1].
    set (P := padn d). assert (HP : forallb is_blank_char P = true) by apply padn_blank.
    change (map (app P) ((l0 :: ls) ++ [[]])) with ((P ++ l0) :: map (app P) (ls ++ [[]])).
    cbn [common_indent]. brw (leading_ws_app P l0 HP). brw W0. rewrite N.add_0_r, nlen_app.
    assert (X : nlen P <? nlen P + nlen l0 = true) by (apply N.ltb_lt; lia). rewrite X.
    rewrite (common_indent_padded P (ls ++ [[]]) HP).
    assert (L1 : (if 0 <? nlen P then [] :: map (unindent (nlen P)) ((P ++ l0) :: map (app P) (ls ++ [[]]))
                  else [] :: (P ++ l0) :: map (app P) (ls ++ [[]])) = [] :: (l0 :: ls) ++ [[]]).
    { destruct (0 <? nlen P) eqn:Z.
      - change ((P ++ l0) :: map (app P) (ls ++ [[]])) with (map (app P) ((l0 :: ls) ++ [[]])). rewrite map_unindent_padded. reflexivity.
      - apply N.ltb_ge in Z. assert (P = []) by (destruct P; [reflexivity|unfold nlen in Z; cbn [length] in Z; lia]).
        rewrite H. rewrite map_app_nil. reflexivity. }
    brw L1. clear L1.
    change (drop_blank ([] :: (l0 :: ls) ++ [[]])) with (drop_blank ((l0 :: ls) ++ [[]])).
    change ((l0 :: ls) ++ [[]]) with (l0 :: (ls ++ [[]])). rewrite (drop_blank_keep l0 _ Hhd).
    change (l0 :: ls ++ [[]]) with ((l0 :: ls) ++ [[]]). rewrite rev_app_distr.
    change (rev [[]] ++ rev (l0 :: ls)) with ([] :: rev (l0 :: ls)).
    change (drop_blank ([] :: rev (l0 :: ls))) with (drop_blank (rev (l0 :: ls))).
    assert (R : drop_blank (rev (l0 :: ls)) = rev (l0 :: ls)).
    { brw (rev_last (l0 :: ls) ltac:(discriminate)). apply drop_blank_keep. exact Hlast. }
    brw R. rewrite rev_involutive. brw (eq_sym ES). apply join_split.
  - (* one line: the text is s itself, which indent does not change *)
    assert (Hid : N.iter d indent_bytes s = s).
    { apply N.iter_invariant; [|reflexivity]. intros x ->. clear - NL. induction s as [|c r IH]; [reflexivity|].
      cbn [existsb] in NL. apply orb_false_iff in NL. destruct NL as [Hc Hr]. cbn [indent_bytes]. rewrite N.eqb_sym in Hc. rewrite Hc, (IH Hr). reflexivity. }
    rewrite Hid. unfold block_string_value. rewrite (split_lines_nl _ Hb), (split_nl_single s NL).
    rewrite (split_nl_single s NL) in Hhd. cbn [hd] in Hhd. cbn [common_indent].
    brw (drop_blank_keep s [] Hhd). cbn [rev app]. brw (drop_blank_keep s [] Hhd). reflexivity.
Qed.

Lemma blk_okb_parts : forall s, blk_okb s = true -> s <> [] /\ printable_as_block s = true /\ utf8_valid s.
Proof.
  intros s H. unfold blk_okb in H. apply andb_true_iff in H. destruct H as [H H3]. apply andb_true_iff in H. destruct H as [H1 H2].
  split; [destruct s; [discriminate H1|discriminate]|]. split; [exact H2|apply (utf8_okb_valid _ _ H3)].
Qed.

(* the printed block string is read back as one BLOCK_STRING token whose value is the description *)
Theorem read_token_block : forall s d rest fuel pos, blk_okb s = true ->
  let r := render_piece (PBlk d s) in
  (length (r ++ rest) < fuel)%nat ->
  read_token fuel (r ++ rest) pos = Ok (mktok BLOCK_STRING pos (pos + nlen r) s, rest, pos + nlen r).
Proof.
  intros s d rest fuel pos H r Hf. destruct (blk_okb_parts s H) as (_ & Hp & V).
  set (raw := N.iter d indent_bytes (block_raw s)) in *.
  assert (Er : r = 34 :: 34 :: 34 :: raw ++ tq) by reflexivity.
  pose proof (block_raw_ok s Hp V d) as RO. fold raw in RO.
  assert (Hf' : (length raw < fuel)%nat).
  { rewrite Er in Hf. cbn [app length] in Hf. rewrite !app_length in Hf. lia. }
  pose proof (read_block_raw_rt raw RO fuel rest (pos + 3) Hf') as RB.
  rewrite Er. cbn [app]. rewrite read_token_quote.
  change (starts_with [34; 34] (34 :: 34 :: (raw ++ tq) ++ rest)) with true. cbv iota.
  change (dropN 3 (34 :: 34 :: 34 :: (raw ++ tq) ++ rest)) with ((raw ++ tq) ++ rest).
  rewrite <- app_assoc. unfold bytes, byte in *. rewrite RB.
  assert (BV : block_string_value raw = s) by (apply (block_value_rt s d Hp)). unfold bytes, byte in *. rewrite BV.
  assert (En : pos + 3 + nlen raw + 3 = pos + nlen (34 :: 34 :: 34 :: raw ++ tq)).
  { unfold nlen. cbn [length]. rewrite app_length. cbn [tq length]. lia. }
  rewrite En. reflexivity.
Qed.

(* lindent is indent() on the text: for a layout whose token pieces contain no newline (names,
   numbers, punctuators, quoted strings), flattening the indented layout is indenting the text;
   a block-string piece one level deeper is the indented text of the piece. *)
Definition piece_line (p : piece) : Prop :=
  match p with PTok k v => indent_bytes (render_piece (PTok k v)) = render_piece (PTok k v) | _ => True end.

Lemma flat_lindent : forall L, Forall piece_line L -> flat (lindent L) = indent_bytes (flat L).
Proof.
  intros L H. induction H as [|p L Hp _ IH]; [reflexivity|].
  change (flat (lindent (p :: L))) with (render_piece (match p with PSep s => PSep (indent_bytes s) | PBlk d s => PBlk (N.succ d) s | t => t end) ++ flat (lindent L)).
  change (flat (p :: L)) with (render_piece p ++ flat L). rewrite indent_app, IH. f_equal.
  destruct p as [k v|s|d s].
  - symmetry. exact Hp.
  - reflexivity.
  - cbn [render_piece]. rewrite !indent_app, N.iter_succ. reflexivity.
Qed.

(* Proofs about the extension pipeline model (Ext/ExtensionsModel.v).  The log of Do is
   computed in closed form: a sequence of phase blocks (all start hooks, what runs inside
   the phase, all finish functions), cut short after the first block that reports an error
   ([plog]).  The clauses of C17 are read off that form: no panic escapes, each extension's
   view is ordered, well bracketed and balanced, every failed hook is reported, and no
   later phase starts once the request has failed. *)
From Coq Require Import List NArith Bool Lia.
From GQL Require Import Ext.ExtensionsModel Ext.ExtensionsSpec.
Import ListNotations.
Open Scope N_scope.

Definition prepend {A} (l : list event) (m : M A) : M A := (l ++ fst m, snd m).

Lemma bind_ret_eq : forall A B (l : list event) (a : A) (f : A -> M B),
  bind (l, Ret a) f = prepend l (f a).
Proof. intros A B l a f. unfold bind, prepend. destruct (f a); reflexivity. Qed.

Lemma prepend_nil : forall A (m : M A), prepend [] m = m.
Proof. intros A [l r]; reflexivity. Qed.

Lemma prepend_prepend : forall A l1 l2 (m : M A), prepend l1 (prepend l2 m) = prepend (l1 ++ l2) m.
Proof. intros A l1 l2 [l r]. unfold prepend. cbn. rewrite app_assoc. reflexivity. Qed.

Lemma prepend_ret : forall A l (a : A), prepend l (ret a) = (l, Ret a).
Proof. intros. unfold prepend, ret. cbn. rewrite app_nil_r. reflexivity. Qed.

Lemma count_app : forall p l1 l2, count p (l1 ++ l2) = count p l1 + count p l2.
Proof. intros. unfold count. rewrite filter_app, app_length. lia. Qed.
Lemma count_cons : forall p ev l, count p (ev :: l) = (if p ev then 1 else 0) + count p l.
Proof. intros. unfold count. cbn [filter]. destruct (p ev); cbn [length]; lia. Qed.
Lemma count_nil : forall p, count p [] = 0.
Proof. reflexivity. Qed.

(* Every handler runs over the extensions in registration order: its log is the
   concatenation of what each extension contributes, its error count the sum. *)
Fixpoint total (f : N * ext -> N) (xs : list (N * ext)) : N :=
  match xs with [] => 0 | ix :: r => f ix + total f r end.

Lemma total_zero : forall f xs ix, total f xs = 0 -> In ix xs -> f ix = 0.
Proof.
  induction xs as [|a r IH]; cbn [total In]; [contradiction|].
  intros ix Z [->|I]; [lia | apply IH; [lia | exact I]].
Qed.

Lemma count_cells : forall p g f xs,
  (forall ix, count p (g ix) = f ix) -> count p (flat_map g xs) = total f xs.
Proof.
  intros p g f xs H. induction xs as [|ix r IH]; [reflexivity|].
  cbn [flat_map total]. rewrite count_app, H, IH. reflexivity.
Qed.

Definition init_ev (ix : N * ext) : list event := [EInit (fst ix) (is_ok (x_init (snd ix)))].
Definition init_err (ix : N * ext) : N := if is_ok (x_init (snd ix)) then 0 else 1.

Definition sres_of (s : sbeh) : sres := match s with SFn _ => SROk | SNil => SRNil | SPanic _ => SRFail end.
Definition start_ev (ph : phase) (ix : N * ext) : list event :=
  [EStart (fst ix) ph (sres_of (start_beh ph (snd ix)))].
Definition start_err (ph : phase) (ix : N * ext) : N :=
  match start_beh ph (snd ix) with SPanic _ => 1 | _ => 0 end.
Definition started1 (ph : phase) (ix : N * ext) : list (N * option beh) :=
  match start_beh ph (snd ix) with SFn f => [(fst ix, Some f)] | SNil => [(fst ix, None)] | SPanic _ => [] end.

Definition fin_ev (ph : phase) (n : N) (ix : N * ext) : list event :=
  match start_beh ph (snd ix) with SFn b => [EFinish (fst ix) ph n (is_ok b)] | _ => [] end.
(* calling a nil finish function fails without an event *)
Definition fin_err (ph : phase) (ix : N * ext) : N :=
  match start_beh ph (snd ix) with SFn (BPanic _) | SNil => 1 | _ => 0 end.

Definition res_ev (ix : N * ext) : list event :=
  match x_has (snd ix) with
  | HTrue => [EHas (fst ix) HRTrue; EGet (fst ix) (is_ok (x_get (snd ix)))]
  | HFalse => [EHas (fst ix) HRFalse]
  | HPanic _ => [EHas (fst ix) HRFail]
  end.
Definition res_err (ix : N * ext) : N :=
  match x_has (snd ix) with HTrue => if is_ok (x_get (snd ix)) then 0 else 1 | HFalse => 0 | HPanic _ => 1 end.
Definition res_key (ix : N * ext) : list N :=
  match x_has (snd ix) with HTrue => if is_ok (x_get (snd ix)) then [x_name (snd ix)] else [] | _ => [] end.

Definition inits := flat_map init_ev.
Definition init_errs := total init_err.
Definition starts ph := flat_map (start_ev ph).
Definition start_errs ph := total (start_err ph).
Definition started ph := flat_map (started1 ph).
Definition fins ph n := flat_map (fin_ev ph n).
Definition fin_errs ph := total (fin_err ph).
Definition results := flat_map res_ev.
Definition res_errs := total res_err.
Definition res_keys := flat_map res_key.

Lemma bind2_eq : forall A B C (m1 : M A) (m2 : M B) (f : A -> B -> C) l1 a l2 b,
  m1 = (l1, Ret a) -> m2 = (l2, Ret b) ->
  bind m1 (fun a => bind m2 (fun b => ret (f a b))) = (l1 ++ l2, Ret (f a b)).
Proof. intros A B C m1 m2 f l1 a l2 b -> ->. unfold bind, ret. rewrite app_nil_r. reflexivity. Qed.

Lemma handle_inits_eq : forall xs, handle_inits xs = (inits xs, Ret (init_errs xs)).
Proof.
  induction xs as [|[i x] r IH]; [reflexivity|].
  apply (bind2_eq _ _ _ _ _ N.add); [|exact IH]. unfold call_init, init_ev, init_err. cbn [fst snd].
  destruct (x_init x); reflexivity.
Qed.

Lemma handle_start_eq : forall ph xs,
  handle_start ph xs = (starts ph xs, Ret (start_errs ph xs, started ph xs)).
Proof.
  intros ph. induction xs as [|[i x] r IH]; [reflexivity|].
  apply (bind2_eq _ _ _ _ _ (fun a b => (fst a + fst b, snd a ++ snd b)) (start_ev ph (i, x))
           (start_err ph (i, x), started1 ph (i, x)) (starts ph r) (start_errs ph r, started ph r)); [|exact IH].
  unfold call_start, start_ev, start_err, started1. cbn [fst snd]. destruct (start_beh ph x); reflexivity.
Qed.

Lemma run_finish_eq : forall ph n xs,
  run_finish ph n (started ph xs) = (fins ph n xs, Ret (fin_errs ph xs)).
Proof.
  intros ph n. induction xs as [|[i x] r IH]; [reflexivity|].
  unfold started, fins, fin_errs in *. cbn [flat_map total]. unfold started1 at 1, fin_ev at 1, fin_err at 1. cbn [fst snd].
  destruct (start_beh ph x) as [[|v]| |v]; cbn [app]; try exact IH.
  - apply (bind2_eq _ _ _ _ _ N.add [EFinish i ph n true] 0); [reflexivity | exact IH].
  - apply (bind2_eq _ _ _ _ _ N.add [EFinish i ph n false] 1); [reflexivity | exact IH].
  - apply (bind2_eq _ _ _ _ _ N.add [] 1); [reflexivity | exact IH].
Qed.

Lemma add_results_eq : forall xs, add_results xs = (results xs, Ret (res_errs xs, res_keys xs)).
Proof.
  induction xs as [|[i x] r IH]; [reflexivity|].
  apply (bind2_eq _ _ _ _ _ (fun a b => (fst a + fst b, snd a ++ snd b)) (res_ev (i, x))
           (res_err (i, x), res_key (i, x)) (results r) (res_errs r, res_keys r)); [|exact IH].
  unfold call_has, call_get, res_ev, res_err, res_key. cbn [fst snd].
  destruct (x_has x); [destruct (x_get x)| |]; reflexivity.
Qed.

Definition block (ph : phase) (n : N) (mid : list event) (xs : list (N * ext)) : list event :=
  starts ph xs ++ mid ++ fins ph n xs.

Definition rn (st : step) : N := if rerrs (snd st) then 1 else 0.
Fixpoint fields_log (k : N) (fields : list step) (xs : list (N * ext)) : list event :=
  match fields with
  | [] => []
  | fb :: r => block (PResolve k) (rout fb) [] xs ++ fields_log (k + 1) r xs
  end.
Fixpoint fields_errs (k : N) (fields : list step) (xs : list (N * ext)) : N :=
  match fields with
  | [] => 0
  | fb :: r => (start_errs (PResolve k) xs + fin_errs (PResolve k) xs + rn fb) + fields_errs (k + 1) r xs
  end.

Lemma resolve_field_eq : forall k fb xs,
  resolve_field k fb xs =
  (block (PResolve k) (rout fb) [] xs, Ret (start_errs (PResolve k) xs + fin_errs (PResolve k) xs + rn fb)).
Proof.
  intros k [id rb] xs. unfold resolve_field, rn, block. rewrite handle_start_eq, bind_ret_eq. cbn [fst snd app].
  destruct rb; rewrite run_finish_eq, bind_ret_eq, prepend_ret; unfold prepend;
    cbn [rerrs fst snd]; rewrite ?N.add_0_r; reflexivity.
Qed.

Lemma exec_fields_eq : forall fields k xs,
  exec_fields k fields xs = (fields_log k fields xs, Ret (fields_errs k fields xs)).
Proof.
  induction fields as [|fb r IH]; intros k xs; [reflexivity|].
  apply (bind2_eq _ _ _ _ _ N.add); [apply resolve_field_eq | apply IH].
Qed.

Definition body_log (c : cls) xs : list event := match c with CExec _ _ => fields_log 0 (sched c) xs | _ => [] end.
Definition body_errs (c : cls) xs : N :=
  match c with CVarErr => 1 | CExec _ _ => fields_errs 0 (sched c) xs + thunk_fails c | _ => 0 end.

Lemma run_body_eq : forall c xs, run_body c xs = (body_log c xs, Ret (body_errs c xs)).
Proof.
  intros [| | | |mut roots] xs; cbn [run_body body_log body_errs]; try reflexivity.
  rewrite exec_fields_eq, bind_ret_eq, prepend_ret. reflexivity.
Qed.

Lemma Forall_cells : forall (P : event -> Prop) g (xs : list (N * ext)),
  (forall ix, In ix xs -> Forall P (g ix)) -> Forall P (flat_map g xs).
Proof. intros P g xs H. apply Forall_flat_map, Forall_forall. exact H. Qed.

Lemma Forall_inits : forall (P : event -> Prop) xs, (forall i o, P (EInit i o)) -> Forall P (inits xs).
Proof. intros P xs H. apply Forall_cells. intros ix _. constructor; [apply H | constructor]. Qed.
Lemma Forall_starts : forall (P : event -> Prop) ph xs, (forall i r, P (EStart i ph r)) -> Forall P (starts ph xs).
Proof. intros P ph xs H. apply Forall_cells. intros ix _. constructor; [apply H | constructor]. Qed.
Lemma Forall_fins : forall (P : event -> Prop) ph n xs, (forall i o, P (EFinish i ph n o)) -> Forall P (fins ph n xs).
Proof.
  intros P ph n xs H. apply Forall_cells. intros ix _. unfold fin_ev.
  destruct (start_beh ph (snd ix)); constructor; [apply H | constructor].
Qed.
Lemma Forall_results : forall (P : event -> Prop) xs,
  (forall i r, P (EHas i r)) -> (forall i o, P (EGet i o)) -> Forall P (results xs).
Proof.
  intros P xs H1 H2. apply Forall_cells. intros ix _. unfold res_ev.
  destruct (x_has (snd ix)); repeat (constructor; [apply H1 || apply H2|]); constructor.
Qed.
Lemma Forall_block : forall (P : event -> Prop) ph n mid xs,
  (forall i r, P (EStart i ph r)) -> (forall i o, P (EFinish i ph n o)) -> Forall P mid ->
  Forall P (block ph n mid xs).
Proof.
  intros P ph n mid xs H1 H2 H3. unfold block. repeat (apply Forall_app; split);
    [apply Forall_starts, H1 | exact H3 | apply Forall_fins, H2].
Qed.
Lemma Forall_body : forall (P : event -> Prop) c xs,
  (forall i k r, P (EStart i (PResolve k) r)) -> (forall i k n o, P (EFinish i (PResolve k) n o)) ->
  Forall P (body_log c xs).
Proof.
  intros P c xs H1 H2. destruct c; try constructor. cbn [body_log]. generalize 0.
  induction (sched _) as [|fb r IH]; intros k; cbn [fields_log]; [constructor|].
  apply Forall_app. split; [apply Forall_block; [intros; apply H1 | intros; apply H2 | constructor] | apply IH].
Qed.

(* a piece of the pipeline with its log l and error count n, followed by the rest k of the
   pipeline only if it reported no error *)
Definition upto (l : list event) (n : N) (k : list event * N) : list event * N :=
  if nz n then (l, n) else (l ++ fst k, snd k).

Lemma nz_cases : forall n, (n = 0 /\ nz n = false) \/ (n <> 0 /\ nz n = true).
Proof. intros n. unfold nz. destruct (N.eqb_spec n 0); [left | right]; auto. Qed.

Lemma upto_cases : forall l n k,
  (n <> 0 /\ upto l n k = (l, n)) \/ (n = 0 /\ upto l n k = (l ++ fst k, snd k)).
Proof. intros l n k. unfold upto. destruct (nz_cases n) as [[Z ->]|[Z ->]]; auto. Qed.

(* Parsing and validation have the same form.  If a start hook panicked the finish
   functions are told so (nf of the number of panics) and the request fails; otherwise they
   are given the request's own errors of this phase. *)
Definition tblock (ph : phase) (nf : N -> N) (own : N) xs : list event :=
  block ph (if nz (start_errs ph xs) then nf (start_errs ph xs) else own) [] xs.
Definition terrs (ph : phase) (own : N) xs : N :=
  start_errs ph xs + fin_errs ph xs + (if nz (start_errs ph xs) then 0 else own).

Definition exec_log (c : cls) xs : list event * N :=
  if nz (start_errs PExec xs) then (block PExec (start_errs PExec xs) [] xs, start_errs PExec xs + fin_errs PExec xs)
  else (block PExec (body_errs c xs) (body_log c xs) xs ++ results xs,
        body_errs c xs + fin_errs PExec xs + res_errs xs).

Definition own_parse (c : cls) : N := match c with CSyntax => 1 | _ => 0 end.
Definition own_valid (c : cls) : N := match c with CInvalid m => m + 1 | _ => 0 end.
Definition own_op (c : cls) : N := match c with COpErr => 1 | _ => 0 end.

(* the log of Do and len(Result.Errors) *)
Definition plog (c : cls) xs : list event * N :=
  upto (inits xs) (init_errs xs)
 (upto (tblock PParse (fun _ => 1) (own_parse c) xs) (terrs PParse (own_parse c) xs)
 (upto (tblock PValid (fun s => s) (own_valid c) xs) (terrs PValid (own_valid c) xs)
 (upto [] (own_op c) (exec_log c xs)))).

Definition logs (m : M (N * list N)) (k : list event * N) : Prop :=
  exists keys, m = (fst k, Ret (snd k, keys)).

Lemma logs_upto : forall l n m k,
  logs m k -> logs (prepend l (if nz n then ret (n, []) else m)) (upto l n k).
Proof.
  intros l n m k [keys ->]. unfold upto. destruct (nz n).
  - exists []. apply prepend_ret.
  - exists keys. reflexivity.
Qed.

(* the code of Do for the parse phase and for the validation phase *)
Definition phase_m (ph : phase) (nf : N -> N) (fail : bool) (own : N) xs (K : M (N * list N)) : M (N * list N) :=
  bind (handle_start ph xs) (fun sf =>
  if nz (fst sf) then bind (run_finish ph (nf (fst sf)) (snd sf)) (fun e' => ret (fst sf + e', [])) else
  if fail then bind (run_finish ph own (snd sf)) (fun e => ret (e + own, []))
  else bind (run_finish ph 0 (snd sf)) (fun e2 => if nz e2 then ret (e2, []) else K)).

Lemma phase_logs : forall ph nf fail own xs K k,
  fail = nz own -> logs K k ->
  logs (phase_m ph nf fail own xs K) (upto (tblock ph nf own xs) (terrs ph own xs) k).
Proof.
  intros ph nf fail own xs K k -> HK. unfold phase_m, tblock, terrs, block.
  rewrite handle_start_eq, bind_ret_eq. cbn [fst snd app].
  destruct (nz_cases (start_errs ph xs)) as [[Zs Es]|[Hs Es]]; rewrite Es.
  - rewrite Zs, N.add_0_l.
    destruct (nz_cases own) as [[Zo Eo]|[Ho Eo]]; rewrite Eo, run_finish_eq, bind_ret_eq, prepend_prepend.
    + subst own. rewrite N.add_0_r. apply logs_upto. exact HK.
    + destruct (upto_cases (starts ph xs ++ fins ph own xs) (fin_errs ph xs + own) k) as [[_ ->]|[Z _]]; [|lia].
      exists []. apply prepend_ret.
  - destruct (upto_cases (starts ph xs ++ fins ph (nf (start_errs ph xs)) xs)
                (start_errs ph xs + fin_errs ph xs + 0) k) as [[_ ->]|[Z _]]; [|lia].
    exists []. rewrite run_finish_eq, bind_ret_eq, prepend_prepend, N.add_0_r. apply prepend_ret.
Qed.

Lemma execute_plan_logs : forall c xs, logs (execute_plan c xs) (exec_log c xs).
Proof.
  intros c xs. unfold execute_plan, exec_log, block. rewrite handle_start_eq, bind_ret_eq. cbn [fst snd].
  destruct (nz (start_errs PExec xs)).
  - exists []. rewrite run_finish_eq, bind_ret_eq, !prepend_ret. reflexivity.
  - exists (res_keys xs).
    rewrite run_body_eq, bind_ret_eq, run_finish_eq, bind_ret_eq, add_results_eq, bind_ret_eq, prepend_ret.
    unfold prepend. cbn [fst snd]. rewrite <- !app_assoc. reflexivity.
Qed.

Lemma do_m_phases : forall c xs,
  do_m c xs =
  bind (handle_inits xs) (fun e0 => if nz e0 then ret (e0, []) else
  phase_m PParse (fun _ => 1) (nz (own_parse c)) (own_parse c) xs
 (phase_m PValid (fun s => s) (match c with CInvalid _ => true | _ => false end) (own_valid c) xs
 (if nz (own_op c) then ret (1, []) else execute_plan c xs))).
Proof. intros [| | | |mut roots] xs; reflexivity. Qed.

Theorem do_m_logs : forall c xs, logs (do_m c xs) (plog c xs).
Proof.
  intros c xs. rewrite do_m_phases, handle_inits_eq, bind_ret_eq. apply logs_upto.
  apply phase_logs; [reflexivity|].
  apply phase_logs; [destruct c as [|m| | |]; try reflexivity; destruct m; reflexivity|].
  destruct c; try apply execute_plan_logs. exists []. reflexivity.
Qed.

Theorem do_model_eq : forall c exts, exists keys,
  do_model c exts = Done (fst (plog c (index_from 0 exts))) (snd (plog c (index_from 0 exts))) keys.
Proof.
  intros c exts. unfold do_model. destruct (do_m_logs c (index_from 0 exts)) as [keys ->].
  exists keys. reflexivity.
Qed.

Theorem do_model_never_crashes : forall c exts log, do_model c exts <> Crash log.
Proof. intros c exts log. destruct (do_model_eq c exts) as [keys ->]. discriminate. Qed.

Lemma result_log_eq : forall c exts, result_log (do_model c exts) = fst (plog c (index_from 0 exts)).
Proof. intros c exts. destruct (do_model_eq c exts) as [keys ->]. reflexivity. Qed.

Definition pick (e : N) (xs : list (N * ext)) := filter (fun ix : N * ext => fst ix =? e) xs.

Lemma proj_app : forall e l1 l2, proj e (l1 ++ l2) = proj e l1 ++ proj e l2.
Proof. intros. unfold proj. apply filter_app. Qed.

Definition owned (g : N * ext -> list event) : Prop :=
  forall ix, Forall (fun ev => ev_ext ev = fst ix) (g ix).

Lemma proj_flat_map : forall e g xs, owned g -> proj e (flat_map g xs) = flat_map g (pick e xs).
Proof.
  intros e g xs Hg. induction xs as [|ix r IH]; [reflexivity|].
  cbn [flat_map pick filter]. rewrite proj_app, IH. fold (pick e r).
  assert (H : proj e (g ix) = if fst ix =? e then g ix else []).
  { unfold proj. induction (Hg ix) as [|ev l E _ IHl]; [destruct (fst ix =? e); reflexivity|].
    cbn [filter]. rewrite E, IHl. destruct (fst ix =? e); reflexivity. }
  rewrite H. destruct (fst ix =? e); reflexivity.
Qed.

Lemma owned_init : owned init_ev.
Proof. intros ix. repeat constructor. Qed.
Lemma owned_start : forall ph, owned (start_ev ph).
Proof. intros ph ix. repeat constructor. Qed.
Lemma owned_fin : forall ph n, owned (fin_ev ph n).
Proof. intros ph n ix. unfold fin_ev. destruct (start_beh ph (snd ix)); repeat constructor. Qed.
Lemma owned_res : owned res_ev.
Proof. intros ix. unfold res_ev. destruct (x_has (snd ix)); repeat constructor. Qed.

Lemma proj_block : forall e ph n mid xs,
  proj e (block ph n mid xs) = block ph n (proj e mid) (pick e xs).
Proof.
  intros. unfold block, starts, fins.
  rewrite !proj_app, !proj_flat_map by (apply owned_start || apply owned_fin). reflexivity.
Qed.

(* registration indices are distinct: one extension, or none, is picked *)
Definition uniq (xs : list (N * ext)) : Prop :=
  forall e, pick e xs = [] \/ exists x, pick e xs = [(e, x)].

Lemma pick_above : forall (l : list ext) i e, e < i -> pick e (index_from i l) = [].
Proof.
  induction l as [|a r IH]; intros i e H; [reflexivity|].
  cbn [index_from pick filter fst]. destruct (N.eqb_spec i e) as [E|E]; [lia|].
  apply IH. lia.
Qed.

Lemma pick_index : forall (l : list ext) i, uniq (index_from i l).
Proof.
  induction l as [|a r IH]; intros i e; [left; reflexivity|].
  cbn [index_from pick filter fst]. destruct (N.eqb_spec i e) as [E|E].
  - right. exists a. subst i. fold (pick e (index_from (e + 1) r)). rewrite pick_above by lia. reflexivity.
  - apply IH.
Qed.

Definition le2 (a b : N * N) : Prop := fst a < fst b \/ (fst a = fst b /\ snd a <= snd b).
Definition nxt (a : N * N) : N * N := (fst a, snd a + 1).

Lemma le2_refl : forall a, le2 a a.
Proof. intros a. right. split; [reflexivity | lia]. Qed.
Lemma le2_trans : forall a b c, le2 a b -> le2 b c -> le2 a c.
Proof. unfold le2. intros a b c [H|[H H']] [K|[K K']]; [left; lia | left; lia | left; lia | right; split; lia]. Qed.
Lemma le2_nxt : forall a, le2 a (nxt a).
Proof. intros a. right. cbn. split; [reflexivity | lia]. Qed.

Fixpoint Inc (lo hi : N * N) (l : list (N * N)) : Prop :=
  match l with
  | [] => le2 lo hi
  | a :: r => le2 lo a /\ Inc (nxt a) hi r
  end.

Lemma Inc_lo : forall l lo lo' hi, le2 lo' lo -> Inc lo hi l -> Inc lo' hi l.
Proof.
  destruct l as [|a r]; cbn [Inc]; intros lo lo' hi H K.
  - eapply le2_trans; eassumption.
  - destruct K as [K1 K2]. split; [eapply le2_trans; eassumption | exact K2].
Qed.
Lemma Inc_hi : forall l lo hi hi', le2 hi hi' -> Inc lo hi l -> Inc lo hi' l.
Proof.
  induction l as [|a r IH]; cbn [Inc]; intros lo hi hi' H K.
  - eapply le2_trans; eassumption.
  - destruct K as [K1 K2]. split; [exact K1 | eapply IH; eassumption].
Qed.
Lemma Inc_app : forall l1 l2 lo mid hi, Inc lo mid l1 -> Inc mid hi l2 -> Inc lo hi (l1 ++ l2).
Proof.
  induction l1 as [|a r IH]; cbn [Inc app]; intros l2 lo mid hi H K.
  - eapply Inc_lo; eassumption.
  - destruct H as [H1 H2]. split; [exact H1 | eapply IH; eassumption].
Qed.
Lemma Inc_increasing : forall l lo hi, Inc lo hi l -> increasing l = true.
Proof.
  induction l as [|a r IH]; intros lo hi H; [reflexivity|].
  destruct r as [|b r']; [reflexivity|].
  cbn [Inc] in H. destruct H as [_ [H2 H3]].
  change (lt2 a b && increasing (b :: r') = true). apply andb_true_iff. split.
  - unfold lt2. unfold le2, nxt in H2. cbn [fst snd] in H2. apply orb_true_iff.
    destruct H2 as [H2|[H2 H2']]; [left; apply N.ltb_lt; exact H2|].
    right. apply andb_true_iff. split; [apply N.eqb_eq; exact H2 | apply N.ltb_lt; lia].
  - apply (IH (nxt a) hi). cbn [Inc]. split; assumption.
Qed.

Lemma wb_app : forall l1 l2 s, wb (l1 ++ l2) s = match wb l1 s with Some s' => wb l2 s' | None => None end.
Proof.
  induction l1 as [|ev r IH]; intros l2 s; [reflexivity|].
  cbn [app wb]. destruct ev as [e o|e ph [| |]|e ph n o|e h|e o]; try apply IH.
  destruct s as [|top s']; [reflexivity|]. destruct (phase_eqb top ph); [apply IH | reflexivity].
Qed.

(* good: the list is one extension's events between two pipeline positions *)
Definition G (lo hi : N * N) (l : list event) : Prop :=
  Inc lo hi (map rank l) /\
  (forall s, wb l s = Some s) /\
  (forall e ph, count (is_start e ph) l = count (is_finish e ph) l).

Lemma G_nil : forall lo hi, le2 lo hi -> G lo hi [].
Proof. intros lo hi H. split; [exact H|]. split; reflexivity. Qed.

Lemma G_app : forall mid lo hi l1 l2, G lo mid l1 -> G mid hi l2 -> G lo hi (l1 ++ l2).
Proof.
  intros mid lo hi l1 l2 [A1 [A2 A3]] [B1 [B2 B3]]. split; [|split].
  - rewrite map_app. eapply Inc_app; eassumption.
  - intros s. rewrite wb_app, A2. apply B2.
  - intros e ph. rewrite !count_app, A3, B3. reflexivity.
Qed.

Lemma G_weaken : forall lo hi lo' hi' l, le2 lo' lo -> le2 hi hi' -> G lo hi l -> G lo' hi' l.
Proof.
  intros lo hi lo' hi' l H K [A1 A2]. split; [|exact A2].
  eapply Inc_lo; [exact H|]. eapply Inc_hi; eassumption.
Qed.

Definition neutral (ev : event) : bool :=
  match ev with EStart _ _ SROk | EFinish _ _ _ _ => false | _ => true end.

Lemma G_cons_neutral : forall ev lo hi l,
  neutral ev = true -> le2 lo (rank ev) -> G (nxt (rank ev)) hi l -> G lo hi (ev :: l).
Proof.
  intros ev lo hi l N L [A1 [A2 A3]]. split; [|split].
  - split; assumption.
  - intros s. destruct ev as [e o|e ph [| |]|e ph n o|e h|e o]; try discriminate; apply A2.
  - intros e' ph'. rewrite !count_cons, A3.
    destruct ev as [e o|e ph [| |]|e ph n o|e h|e o]; try discriminate; reflexivity.
Qed.

Definition rs (ph : phase) : N * N := rank (EStart 0 ph SROk).
Definition rf (ph : phase) : N * N := rank (EFinish 0 ph 0 true).

Lemma rank_start : forall e ph r, rank (EStart e ph r) = rs ph.
Proof. intros e [| | |k] r; reflexivity. Qed.
Lemma rank_finish : forall e ph n o, rank (EFinish e ph n o) = rf ph.
Proof. intros e [| | |k] n o; reflexivity. Qed.
Lemma rs_lt_rf : forall ph, le2 (nxt (rs ph)) (rf ph).
Proof. intros [| | |k]; unfold le2, nxt, rs, rf; cbn; lia. Qed.
Lemma phase_eqb_refl : forall ph, phase_eqb ph ph = true.
Proof. intros [| | |k]; cbn; try reflexivity. apply N.eqb_refl. Qed.

Lemma G_block : forall ph n mid e x,
  G (nxt (rs ph)) (rf ph) mid -> G (rs ph) (nxt (rf ph)) (block ph n mid [(e, x)]).
Proof.
  intros ph n mid e x M.
  unfold block, starts, fins, start_ev, fin_ev. cbn [flat_map fst snd app]. rewrite app_nil_r.
  destruct (start_beh ph x) as [b| |v]; cbn [sres_of]; rewrite ?app_nil_r;
    [| apply G_cons_neutral; rewrite ?rank_start;
       [reflexivity | apply le2_refl | eapply G_weaken; [apply le2_refl | apply le2_nxt | exact M]] ..].
  destruct M as [M1 [M2 M3]]. split; [|split].
  - cbn [map Inc]. rewrite rank_start. split; [apply le2_refl|].
    rewrite map_app. eapply Inc_app; [exact M1|]. cbn [map Inc]. rewrite rank_finish.
    split; apply le2_refl.
  - intros s. cbn [wb]. rewrite wb_app, M2. cbn [wb]. rewrite phase_eqb_refl. reflexivity.
  - intros e' ph'. rewrite !count_cons, !count_app, !count_cons, M3. cbn [is_start is_finish].
    destruct ((e =? e') && phase_eqb ph ph'); rewrite !count_nil; lia.
Qed.

Ltac le2_solve := unfold le2, nxt, rs, rf, rank; cbn [fst snd]; lia.
(* the same by evaluation, for two closed positions *)
Ltac le2_num := first [left; reflexivity | right; split; [reflexivity | discriminate]].

Definition V (lo hi : N * N) (l : list event) : Prop := forall e, G lo hi (proj e l).

Lemma V_nil : forall lo hi, le2 lo hi -> V lo hi [].
Proof. intros lo hi H e. apply G_nil. exact H. Qed.
Lemma V_app : forall mid lo hi l1 l2, V lo mid l1 -> V mid hi l2 -> V lo hi (l1 ++ l2).
Proof. intros mid lo hi l1 l2 A B e. rewrite proj_app. eapply G_app; [apply A | apply B]. Qed.
Lemma V_weaken : forall lo hi lo' hi' l, le2 lo' lo -> le2 hi hi' -> V lo hi l -> V lo' hi' l.
Proof. intros lo hi lo' hi' l H K A e. eapply G_weaken; [exact H | exact K | apply A]. Qed.

Lemma V_upto : forall mid lo hi l n k,
  le2 mid hi -> V lo mid l -> V mid hi (fst k) -> V lo hi (fst (upto l n k)).
Proof.
  intros mid lo hi l n k H A B. unfold upto. destruct (nz n); cbn [fst].
  - eapply V_weaken; [apply le2_refl | exact H | exact A].
  - eapply V_app; eassumption.
Qed.

Section Views.
Variable xs : list (N * ext).
Hypothesis Hxs : uniq xs.

Lemma V_cells : forall g lo hi, owned g -> le2 lo hi ->
  (forall e x, G lo hi (g (e, x))) -> V lo hi (flat_map g xs).
Proof.
  intros g lo hi Hg L H e. rewrite proj_flat_map by exact Hg.
  destruct (Hxs e) as [->|[x ->]]; cbn [flat_map]; [apply G_nil; exact L | rewrite app_nil_r; apply H].
Qed.

Lemma V_block : forall ph n mid,
  V (nxt (rs ph)) (rf ph) mid -> V (rs ph) (nxt (rf ph)) (block ph n mid xs).
Proof.
  intros ph n mid M e. rewrite proj_block. destruct (Hxs e) as [->|[x ->]]; [|apply G_block, M].
  unfold block. cbn [starts fins flat_map app]. rewrite app_nil_r.
  eapply G_weaken; [apply le2_nxt | apply le2_nxt | apply M].
Qed.

Lemma V_block0 : forall lo hi ph n, le2 lo (rs ph) -> le2 (nxt (rf ph)) hi -> V lo hi (block ph n [] xs).
Proof. intros lo hi ph n L H. eapply V_weaken; [exact L | exact H | apply V_block, V_nil, rs_lt_rf]. Qed.

Lemma V_fields : forall fields k, V (rs (PResolve k)) (rf PExec) (fields_log k fields xs).
Proof.
  induction fields as [|fb r IH]; intros k; cbn [fields_log]; [apply V_nil; le2_solve|].
  apply (V_app (rs (PResolve (k + 1)))); [apply V_block0; le2_solve | apply IH].
Qed.

Lemma V_plog : forall c, V (0, 0) (10, 0) (fst (plog c xs)).
Proof.
  intros c. unfold plog, tblock.
  apply (V_upto (rs PParse)); [le2_num | |].
  { apply V_cells; [apply owned_init | le2_num |]. intros e x.
    apply G_cons_neutral; [reflexivity | le2_num | apply G_nil; le2_num]. }
  apply (V_upto (rs PValid)); [le2_num | apply V_block0; le2_num |].
  apply (V_upto (rs PExec)); [le2_num | apply V_block0; le2_num |].
  apply (V_upto (rs PExec)); [le2_num | apply V_nil; le2_num |].
  unfold exec_log. destruct (nz (start_errs PExec xs)); cbn [fst]; [apply V_block0; le2_num|].
  apply (V_app (nxt (rf PExec))).
  - eapply V_weaken; [| |apply V_block]; [le2_num | le2_num |].
    destruct c as [| | | |mut roots]; cbn [body_log]; try (apply V_nil; le2_num).
    eapply V_weaken; [| |apply (V_fields (sched (CExec mut roots)) 0)]; le2_num.
  - apply V_cells; [apply owned_res | le2_num |]. intros e x. unfold res_ev. cbn [fst snd].
    destruct (x_has x); repeat (apply G_cons_neutral; [reflexivity | le2_num |]); apply G_nil; le2_num.
Qed.
End Views.

Lemma G_proj_model : forall c exts e, G (0, 0) (10, 0) (proj e (result_log (do_model c exts))).
Proof. intros c exts e. rewrite result_log_eq. apply V_plog, pick_index. Qed.

Theorem model_nested : forall c exts e, nested_ext e (result_log (do_model c exts)) = true.
Proof.
  intros c exts e. unfold nested_ext.
  destruct (G_proj_model c exts e) as [_ [H _]]. rewrite H. reflexivity.
Qed.

Theorem model_ordered : forall c exts e, ordered_ext e (result_log (do_model c exts)) = true.
Proof.
  intros c exts e. unfold ordered_ext.
  destruct (G_proj_model c exts e) as [H _]. eapply Inc_increasing. exact H.
Qed.

Lemma count_proj : forall p e l,
  (forall ev, p ev = true -> ev_ext ev = e) -> count p (proj e l) = count p l.
Proof.
  intros p e l Hp. unfold count, proj. f_equal. f_equal.
  induction l as [|ev r IH]; [reflexivity|]. cbn [filter].
  destruct (N.eqb_spec (ev_ext ev) e) as [E|E].
  - cbn [filter]. destruct (p ev); [f_equal|]; exact IH.
  - destruct (p ev) eqn:P; [exfalso; apply E; apply Hp; exact P | exact IH].
Qed.

Lemma Inc_count : forall p r l lo hi,
  (forall ev, p ev = true -> rank ev = r) -> Inc lo hi (map rank l) ->
  count p l <= 1 /\ (le2 (nxt r) lo -> count p l = 0).
Proof.
  intros p r. induction l as [|a rest IH]; intros lo hi Hp H; [split; [cbn; lia | reflexivity]|].
  cbn [map Inc] in H. destruct H as [H1 H2]. destruct (IH _ _ Hp H2) as [L Z]. rewrite count_cons.
  destruct (p a) eqn:P.
  - rewrite (Hp a P) in *. rewrite (Z (le2_refl _)). split; [lia|]. intros K. exfalso.
    pose proof (le2_trans _ _ _ K H1) as F. unfold le2, nxt in F. cbn [fst snd] in F. lia.
  - split; [exact L|]. intros K. apply Z.
    eapply le2_trans; [exact K|]. eapply le2_trans; [exact H1 | apply le2_nxt].
Qed.

Lemma phase_eqb_eq : forall a b, phase_eqb a b = true -> a = b.
Proof.
  intros [| | |j] [| | |k] H; cbn in H; try discriminate; try reflexivity.
  apply N.eqb_eq in H. subst. reflexivity.
Qed.
Lemma is_start_inv : forall e ph ev, is_start e ph ev = true -> ev = EStart e ph SROk.
Proof.
  intros e ph [e' o|e' ph' [| |]|e' ph' n o|e' h|e' o] H; cbn in H; try discriminate.
  apply andb_true_iff in H. destruct H as [H1 H2]. apply N.eqb_eq in H1. apply phase_eqb_eq in H2.
  subst. reflexivity.
Qed.
Lemma is_finish_ext : forall e ph ev, is_finish e ph ev = true -> ev_ext ev = e.
Proof.
  intros e ph [e' o|e' ph' r|e' ph' n o|e' h|e' o] H; cbn in H; try discriminate.
  apply andb_true_iff in H. destruct H as [H _]. apply N.eqb_eq in H. exact H.
Qed.

Theorem model_balanced : forall c exts, balanced (result_log (do_model c exts)).
Proof.
  intros c exts e ph. unfold starts_of, finishes_of.
  destruct (G_proj_model c exts e) as [H1 [_ H3]].
  rewrite <- (count_proj (is_start e ph) e) by (intros ev H; rewrite (is_start_inv _ _ _ H); reflexivity).
  rewrite <- (count_proj (is_finish e ph) e) by apply is_finish_ext.
  split; [apply H3|].
  eapply (Inc_count _ (rs ph)); [|exact H1]. intros ev H. rewrite (is_start_inv _ _ _ H). apply rank_start.
Qed.

Lemma count_pos : forall p l ev, In ev l -> p ev = true -> 1 <= count p l.
Proof.
  intros p l ev H P. unfold count.
  assert (I : In ev (filter p l)) by (apply filter_In; split; assumption).
  destruct (filter p l); [contradiction | cbn [length]; lia].
Qed.

(* the executable forms the runner applies to the implementation's log *)
Lemma balanced_balancedb : forall l, balanced l -> balancedb l = true.
Proof.
  intros l B. unfold balancedb. apply forallb_forall. intros ev I.
  destruct ev as [e o|e ph [| |]|e ph n o|e h|e o]; try reflexivity; cbn [balanced_at];
    destruct (B e ph) as [B1 B2];
    assert (P : 1 <= starts_of e ph l \/ 1 <= finishes_of e ph l)
      by ((left + right); eapply count_pos; [exact I | cbn; rewrite N.eqb_refl, phase_eqb_refl; reflexivity]);
    apply andb_true_iff; split; apply N.eqb_eq; lia.
Qed.

Theorem model_checks_per_ext : forall c exts,
  let l := result_log (do_model c exts) in
  balancedb l = true /\ nestedb l = true /\ orderedb l = true.
Proof.
  intros c exts l. split; [|split].
  - apply balanced_balancedb. apply model_balanced.
  - unfold nestedb. apply forallb_forall. intros e _. apply model_nested.
  - unfold orderedb. apply forallb_forall. intros e _. apply model_ordered.
Qed.

Lemma fail_inits : forall xs, count is_failure (inits xs) = init_errs xs.
Proof.
  intros xs. apply count_cells. intros ix. unfold init_ev, init_err.
  rewrite count_cons. cbn [is_failure]. destruct (is_ok (x_init (snd ix))); reflexivity.
Qed.

Lemma fail_block : forall ph n mid xs,
  count is_failure (block ph n mid xs) = start_errs ph xs + fin_errs ph xs + count is_failure mid.
Proof.
  intros ph n mid xs. unfold block. rewrite !count_app.
  assert (H : count is_failure (starts ph xs) + count is_failure (fins ph n xs) = start_errs ph xs + fin_errs ph xs).
  { induction xs as [|ix r IH]; [reflexivity|].
    unfold starts, fins, start_errs, fin_errs in *. cbn [flat_map total]. rewrite !count_app.
    assert (C : count is_failure (start_ev ph ix) + count is_failure (fin_ev ph n ix) = start_err ph ix + fin_err ph ix)
      by (unfold start_ev, fin_ev, start_err, fin_err; destruct (start_beh ph (snd ix)) as [[|v]| |v]; reflexivity).
    lia. }
  lia.
Qed.

Lemma fail_results : forall xs, count is_failure (results xs) = res_errs xs.
Proof.
  intros xs. apply count_cells. intros ix. unfold res_ev, res_err.
  destruct (x_has (snd ix)); rewrite ?count_cons, ?count_nil; cbn [is_failure];
    [destruct (is_ok (x_get (snd ix)))| |]; reflexivity.
Qed.

Lemma fail_fields : forall fs k xs,
  count is_failure (fields_log k fs xs) + N.of_nat (length (filter (fun st : step => rerrs (snd st)) fs)) =
  fields_errs k fs xs.
Proof.
  induction fs as [|fb r IH]; intros k xs; [reflexivity|].
  cbn [fields_log fields_errs filter]. rewrite count_app, fail_block, count_nil. specialize (IH (k + 1) xs).
  unfold rn. destruct (rerrs (snd fb)); cbn [length]; lia.
Qed.

Lemma fail_body : forall c xs, count is_failure (body_log c xs) + class_errors c = body_errs c xs.
Proof.
  intros [| | | |mut roots] xs; cbn [body_log body_errs class_errors]; try (rewrite count_nil; reflexivity).
  pose proof (fail_fields (sched (CExec mut roots)) 0 xs) as H. lia.
Qed.

Lemma fail_upto : forall l n k,
  count is_failure l <= n -> count is_failure (fst k) <= snd k ->
  count is_failure (fst (upto l n k)) <= snd (upto l n k).
Proof.
  intros l n k A B. destruct (upto_cases l n k) as [[_ ->]|[Z ->]]; cbn [fst snd]; [exact A|].
  rewrite count_app. lia.
Qed.

Lemma fail_tblock : forall ph nf own xs, count is_failure (tblock ph nf own xs) <= terrs ph own xs.
Proof. intros. unfold tblock, terrs. rewrite fail_block, count_nil. lia. Qed.

Lemma fail_plog : forall c xs, count is_failure (fst (plog c xs)) <= snd (plog c xs).
Proof.
  intros c xs. unfold plog.
  apply fail_upto; [rewrite fail_inits; reflexivity|].
  apply fail_upto; [apply fail_tblock|]. apply fail_upto; [apply fail_tblock|].
  apply fail_upto; [apply N.le_0_l|].
  unfold exec_log. pose proof (fail_body c xs).
  destruct (nz_cases (start_errs PExec xs)) as [[Z ->]|[_ ->]]; cbn [fst snd];
    rewrite ?count_app, ?fail_block, ?fail_results, ?count_nil; lia.
Qed.

Theorem model_reported : forall c exts log n keys,
  do_model c exts = Done log n keys -> reportedb log n = true.
Proof.
  intros c exts log n keys H. destruct (do_model_eq c exts) as [ks E]. rewrite E in H.
  injection H as <- <- _. apply N.leb_le, fail_plog.
Qed.

Definition quiet (l : list event) : Prop := Forall (fun ev => fails_request ev = None) l.
Definition within (b : N) (ev : event) : Prop :=
  allowed_after b ev = true /\ forall b', fails_request ev = Some b' -> b' = b.

Lemma stops_app_quiet : forall l1 l2, quiet l1 -> stopsb (l1 ++ l2) = stopsb l2.
Proof. induction 1 as [|ev r Q _ IH]; [reflexivity|]. cbn [app stopsb]. rewrite Q. exact IH. Qed.

Lemma stops_quiet : forall l, quiet l -> stopsb l = true.
Proof. intros l Q. rewrite <- (app_nil_r l). apply stops_app_quiet. exact Q. Qed.

Lemma stops_within : forall b l, Forall (within b) l -> stopsb l = true.
Proof.
  induction 1 as [|ev r [A F] HF IH]; [reflexivity|]. cbn [stopsb]. rewrite IH, andb_true_r.
  destruct (fails_request ev) as [b'|]; [|reflexivity]. rewrite (F b' eq_refl).
  apply forallb_forall. intros ev' I. rewrite Forall_forall in HF. apply HF. exact I.
Qed.

Definition top (ph : phase) : Prop := ph = PParse \/ ph = PValid \/ ph = PExec.

(* a failed event of a top-level phase allows what ranks up to the phase's finish functions *)
Lemma stops_block : forall ph n xs, top ph -> stopsb (block ph n [] xs) = true.
Proof.
  intros ph n xs T. apply (stops_within (fst (rf ph))). apply Forall_block; [intros i r | intros i o | constructor];
    destruct T as [->|[->| ->]]; (split; [reflexivity|]); intros b' E; cbn in E |- *.
  1-3: destruct r; congruence.
  all: try destruct ((0 <? n) || negb o); congruence.
Qed.

Lemma quiet_tblock : forall ph nf own xs, terrs ph own xs = 0 -> quiet (tblock ph nf own xs).
Proof.
  intros ph nf own xs Z. unfold terrs in Z. unfold tblock.
  destruct (nz_cases (start_errs ph xs)) as [[Zs E]|[Hs _]]; [|lia]. rewrite E in *.
  assert (Zf : fin_errs ph xs = 0) by lia. assert (Zo : own = 0) by lia. subst own.
  unfold block. cbn [app]. apply Forall_app. split; apply Forall_cells; intros ix I;
    pose proof (total_zero _ _ ix Zs I) as Hs; pose proof (total_zero _ _ ix Zf I) as Hf;
    unfold start_ev, fin_ev, start_err, fin_err in *;
    destruct (start_beh ph (snd ix)) as [[|v]| |v]; try discriminate;
    destruct ph; repeat constructor.
Qed.

Lemma quiet_inits : forall xs, init_errs xs = 0 -> quiet (inits xs).
Proof.
  intros xs Z. apply Forall_cells. intros ix I. pose proof (total_zero _ _ ix Z I) as H.
  unfold init_ev, init_err in *. destruct (is_ok (x_init (snd ix))); [repeat constructor | discriminate].
Qed.

Lemma quiet_exec : forall c n xs, start_errs PExec xs = 0 ->
  quiet (block PExec n (body_log c xs) xs ++ results xs).
Proof.
  intros c n xs Z. unfold block. repeat (apply Forall_app; split).
  - apply Forall_cells. intros ix I. pose proof (total_zero _ _ ix Z I) as H.
    unfold start_ev, start_err in *. destruct (start_beh PExec (snd ix)); try discriminate; repeat constructor.
  - apply Forall_body; reflexivity.
  - apply Forall_fins. reflexivity.
  - apply Forall_results; reflexivity.
Qed.

Lemma stops_inits : forall xs, stopsb (inits xs) = true.
Proof.
  intros xs. apply (stops_within 0). apply Forall_inits. intros i o.
  split; [reflexivity|]. intros b' E. cbn in E. destruct o; congruence.
Qed.

Lemma stops_upto : forall l n k,
  stopsb l = true -> (n = 0 -> quiet l) -> stopsb (fst k) = true -> stopsb (fst (upto l n k)) = true.
Proof.
  intros l n k A Q B. destruct (upto_cases l n k) as [[_ ->]|[Z ->]]; cbn [fst]; [exact A|].
  rewrite stops_app_quiet; auto.
Qed.

Lemma stops_plog : forall c xs, stopsb (fst (plog c xs)) = true.
Proof.
  intros c xs. unfold plog.
  apply stops_upto; [apply stops_inits | apply quiet_inits |].
  apply stops_upto; [apply stops_block; unfold top; auto | apply quiet_tblock |].
  apply stops_upto; [apply stops_block; unfold top; auto | apply quiet_tblock |].
  apply stops_upto; [reflexivity | constructor |].
  unfold exec_log. destruct (nz_cases (start_errs PExec xs)) as [[Z ->]|[_ ->]]; cbn [fst].
  - apply stops_quiet, quiet_exec, Z.
  - apply stops_block. unfold top. auto.
Qed.

Theorem model_stops : forall c exts, stopsb (result_log (do_model c exts)) = true.
Proof. intros c exts. rewrite result_log_eq. apply stops_plog. Qed.

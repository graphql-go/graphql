(* C09: the recursion of planning / executing a document (Total/PlanWalk.v, [walk])
   ends on every document the fragment-cycle check accepts, with fuel [plan_bound D].

   Measure of a selection set: q * (H + 2) + h, where all spreads anywhere inside have
   rank < q and the field-nesting height is <= h.  A field found in the set itself
   lowers h; a field found in the body of a fragment b reached on this level has only
   spreads of rank < rk b < q below it (every such spread is a nested edge of b), so
   lowers q, and its height is <= H.  Every level needs at most doc_size D + 1 fuel for
   its collect: the selection sets walked are sub-terms of the document, disjoint from
   the top levels of the fragment bodies. *)
From Coq Require Import List Arith NArith String Bool Lia.
From GQL Require Import Exec.Syntax Exec.Coerce Exec.Exec Total.CollectBound Total.FragCycle
     Total.PlanWalk Proofs.CollectProofs Proofs.TotalFragCycle Proofs.TotalCoerce Proofs.TotalCollect.
Import ListNotations.
Open Scope list_scope.

Section SelInd.
  Variable P : selection -> Prop.
  Hypothesis Hf : forall id al nm args ds sub, Forall P sub -> P (SField id al nm args ds sub).
  Hypothesis Hs : forall id nm ds, P (SSpread id nm ds).
  Hypothesis Hi : forall id tc ds sub, Forall P sub -> P (SInline id tc ds sub).

  Fixpoint selection_ind' (s : selection) : P s :=
    match s with
    | SField id al nm args ds sub =>
      Hf id al nm args ds sub
         ((fix go (l : list selection) : Forall P l :=
             match l with
             | [] => Forall_nil P
             | x :: r => Forall_cons x (selection_ind' x) (go r)
             end) sub)
    | SSpread id nm ds => Hs id nm ds
    | SInline id tc ds sub =>
      Hi id tc ds sub
         ((fix go (l : list selection) : Forall P l :=
             match l with
             | [] => Forall_nil P
             | x :: r => Forall_cons x (selection_ind' x) (go r)
             end) sub)
    end.
End SelInd.

Lemma list_sum_le : forall (A : Type) (f g : A -> nat) (l : list A),
    (forall y, f y <= g y) -> list_sum (map f l) <= list_sum (map g l).
Proof.
  intros A f g l Hfg. induction l as [|y r IH]; simpl; [lia|]. specialize (Hfg y). lia.
Qed.

Lemma list_sum_in_le : forall (A : Type) (f g : A -> nat) (a : nat) (l : list A) (x : A),
    In x l -> a + f x <= g x -> (forall y, f y <= g y) ->
    a + list_sum (map f l) <= list_sum (map g l).
Proof.
  intros A f g a l x Hin Hx Hfg. apply in_split in Hin. destruct Hin as (l1 & l2 & ->).
  rewrite !map_app, !list_sum_app. simpl.
  pose proof (list_sum_le A f g l1 Hfg). pose proof (list_sum_le A f g l2 Hfg). lia.
Qed.

Lemma list_sum_in : forall (A : Type) (f : A -> nat) (l : list A) (x : A),
    In x l -> f x <= list_sum (map f l).
Proof.
  intros A f l x Hin. apply in_split in Hin. destruct Hin as (l1 & l2 & ->).
  rewrite map_app, list_sum_app. simpl. lia.
Qed.

Lemma in_flat_map_mono : forall (A B C : Type) (f : A -> list B) (g : A -> list C) l b c,
    In b (flat_map f l) -> (forall x, In x l -> In b (f x) -> In c (g x)) -> In c (flat_map g l).
Proof.
  intros A B C f g l b c Hb H. apply in_flat_map in Hb. destruct Hb as [x [Hx Hb]].
  apply in_flat_map. exists x. split; [exact Hx | exact (H x Hx Hb)].
Qed.

Lemma edges_true :
  forall s fl0 c fl', In (c, fl') (sel_edges fl0 s) -> In (c, true) (sel_edges true s).
Proof.
  induction s as [id al nm args ds sub IH | id nm ds | id tc ds sub IH] using selection_ind';
    intros fl0 c fl' Hin; simpl in *; try rewrite Forall_forall in IH.
  - apply (in_flat_map_mono _ _ _ _ _ _ _ _ Hin). intros x Hx. apply IH, Hx.
  - destruct Hin as [Heq | []]. inversion Heq; subst. left; reflexivity.
  - apply (in_flat_map_mono _ _ _ _ _ _ _ _ Hin). intros x Hx. apply IH, Hx.
Qed.

Lemma sel_csize_le : forall s, sel_csize s <= sel_size s.
Proof.
  induction s as [id al nm args ds sub IH | id nm ds | id tc ds sub IH] using selection_ind';
    simpl; try lia.
  apply le_n_S. induction IH as [|x r Hx Hr IHr]; simpl; lia.
Qed.

Lemma csize_le_size : forall sels, csize sels <= sels_size sels.
Proof. intros sels. apply list_sum_le. apply sel_csize_le. Qed.

(* [x] stands on the level of [sels]: in the set itself or, looking through inline
   fragments, in one that does *)
Inductive on_level : list selection -> selection -> Prop :=
| ol_here : forall sels x, In x sels -> on_level sels x
| ol_inline : forall sels id tc ds sub x,
    In (SInline id tc ds sub) sels -> on_level sub x -> on_level sels x.

Lemma on_level_incl : forall sels sels' x, incl sels sels' -> on_level sels x -> on_level sels' x.
Proof.
  intros sels sels' x Hi H. destruct H as [sels y Hin | sels id tc ds sub y Hin Hy];
    [apply ol_here | apply (ol_inline _ id tc ds sub); [|exact Hy]]; apply Hi, Hin.
Qed.

(* every node on the level satisfies N *)
Definition level_all (N : selection -> Prop) (sels : list selection) : Prop :=
  forall x, on_level sels x -> N x.

Lemma level_all_tail : forall N x rest, level_all N (x :: rest) -> level_all N rest.
Proof. intros N x rest H y Hy. exact (H y (on_level_incl _ _ y (incl_tl x (incl_refl rest)) Hy)). Qed.

Lemma level_all_inline : forall N id tc ds sub rest,
  level_all N (SInline id tc ds sub :: rest) -> level_all N sub.
Proof. intros N id tc ds sub rest H y Hy. exact (H y (ol_inline _ id tc ds sub y (in_eq _ _) Hy)). Qed.

(* for F that looks through inline fragments: what F finds in a node of the level, it finds in the set *)
Lemma on_level_flat_map : forall (B : Type) (F : selection -> list B),
  (forall id tc ds sub, F (SInline id tc ds sub) = flat_map F sub) ->
  forall sels x, on_level sels x -> incl (F x) (flat_map F sels).
Proof.
  intros B F HF. induction 1 as [sels x Hin | sels id tc ds sub x Hin _ IH]; intros e He; apply in_flat_map.
  - exists x. split; assumption.
  - exists (SInline id tc ds sub). split; [exact Hin | rewrite HF; exact (IH e He)].
Qed.

Lemma on_level_edges :
  forall sels x, on_level sels x -> forall fl, incl (sel_edges fl x) (sels_edges fl sels).
Proof. intros sels x H fl. exact (on_level_flat_map _ (sel_edges fl) (fun _ _ _ _ => eq_refl) sels x H). Qed.

Lemma on_level_height : forall sels x, on_level sels x -> sel_height x <= sels_height sels.
Proof.
  induction 1 as [sels x Hin | sels id tc ds sub x Hin _ IH].
  - exact (in_map_list_max sel_height x sels Hin).
  - exact (Nat.le_trans _ _ _ IH (in_map_list_max sel_height (SInline id tc ds sub) sels Hin)).
Qed.

(* the level's nodes and all nodes of [x] beyond those it has on the level itself *)
Lemma on_level_size :
  forall sels x, on_level sels x ->
    forall a, a + sel_csize x <= sel_size x -> a + csize sels <= sels_size sels.
Proof.
  induction 1 as [sels x Hin | sels id tc ds sub x Hin _ IH]; intros a Ha.
  - exact (list_sum_in_le _ sel_csize sel_size a sels x Hin Ha sel_csize_le).
  - apply (list_sum_in_le _ sel_csize sel_size a sels _ Hin); [|exact sel_csize_le].
    specialize (IH a Ha). change (a + S (csize sub) <= S (sels_size sub)). lia.
Qed.

(* for a field on the level: the spreads anywhere below it are nested edges of the level *)
Lemma on_level_sub_edges :
  forall sels id al nm args ds sub, on_level sels (SField id al nm args ds sub) ->
    forall fl c fl' fl0, In (c, fl') (sels_edges fl0 sub) -> In (c, true) (sels_edges fl sels).
Proof.
  intros sels id al nm args ds sub Hx fl c fl' fl0 Hc. apply (on_level_edges _ _ Hx fl).
  apply (in_flat_map_mono _ _ _ _ _ _ _ _ Hc). intros y _. apply edges_true.
Qed.

Lemma unvisited_le_csize :
  forall fs v, unvisited_size fs v <= list_sum (map (fun f => csize (fr_sel f)) fs).
Proof.
  induction fs as [|f r IH]; intros v; simpl; [lia|].
  specialize (IH (fr_name f :: v)). destruct (nmem (fr_name f) v); lia.
Qed.

Section CollectInv.
  Variable D : document.
  Variable N : selection -> Prop.
  Variable K : name -> Prop.
  Variable PO : occ -> Prop.

  Hypothesis N_field : forall id al nm args ds sub,
      N (SField id al nm args ds sub) ->
      K (match al with Some a => a | None => nm end)
      /\ PO {| oc_id := id; oc_name := nm; oc_args := args; oc_sub := sub |}.
  Hypothesis N_spread : forall id nm ds f,
      N (SSpread id nm ds) -> find_fragment nm (d_frags D) = Some f -> level_all N (fr_sel f).

  Definition ginv (g : groups) : Prop :=
    NoDup (map fst g)
    /\ Forall (fun kv : name * list occ => K (fst kv) /\ snd kv <> [] /\ Forall PO (snd kv)) g.

  Lemma add_occ_inv : forall k o g, K k -> PO o -> ginv g -> ginv (add_occ k o g).
  Proof.
    intros k o g Hk Ho [Hnd Hall]. split; [exact (add_occ_keys k o g Hnd)|]. clear Hnd.
    induction g as [|[k' os] r IH]; simpl.
    - repeat constructor; [exact Hk | discriminate | exact Ho].
    - apply Forall_cons_iff in Hall. destruct Hall as [[H1 [H2 H3]] Hr].
      destruct (String.eqb k k'); [|constructor; [repeat split; assumption | exact (IH Hr)]].
      constructor; [| exact Hr]. simpl. split; [exact H1|]. split; [destruct os; discriminate|].
      apply Forall_app. split; [exact H3 | repeat constructor; exact Ho].
  Qed.

  Lemma step_L : forall Sc vars obj x rest v,
      level_all N (x :: rest) ->
      match step Sc D vars obj x v with
      | Pass _ => True
      | Add k o => K k /\ PO o
      | Enter body _ => level_all N body
      end.
  Proof.
    intros Sc vars obj x rest v Hl. pose proof (Hl x (ol_here _ _ (in_eq _ _))) as Hx.
    destruct x as [id al nm args ds sub | id nm ds | id tc ds sub]; cbn [step gstep dirs_of].
    - destruct (included Sc ds vars); [exact (N_field _ _ _ _ _ _ Hx) | exact I].
    - destruct (included Sc ds vars && negb (nmem nm v)); [| exact I].
      destruct (find_fragment nm (d_frags D)) as [f|] eqn:Hfind; [| exact I].
      destruct (fragment_matches Sc (Some (fr_cond f)) obj); [exact (N_spread _ _ _ _ Hx Hfind) | exact I].
    - destruct (included Sc ds vars && fragment_matches Sc tc obj);
        [exact (level_all_inline _ _ _ _ _ _ Hl) | exact I].
  Qed.

  Lemma collect_inv :
    forall Sc vars obj fuel sels visited g g' v',
      collect fuel Sc D vars obj sels visited g = Some (g', v') -> level_all N sels -> ginv g -> ginv g'.
  Proof.
    intros Sc vars obj.
    apply (collect_ind Sc D vars obj (fun sels _ g g' _ => level_all N sels -> ginv g -> ginv g'));
      [intros v g _ Hg; exact Hg|].
    intros x rest v g g' v' H Hl Hg.
    pose proof (step_L Sc vars obj x rest v Hl) as Hs. pose proof (level_all_tail _ _ _ Hl) as Hr.
    destruct (step Sc D vars obj x v) as [v1 | k o | body v1];
      [exact (H Hr Hg) | exact (H Hr (add_occ_inv _ _ _ (proj1 Hs) (proj2 Hs) Hg)) |].
    destruct H as (g1 & v2 & H1 & H2). exact (H2 Hr (H1 Hs Hg)).
  Qed.

  Lemma collect_all_inv :
    forall fuel Sc vars obj sets visited g g',
      Forall (level_all N) sets -> ginv g ->
      collect_all fuel Sc D vars obj sets visited g = Some g' -> ginv g'.
  Proof.
    intros fuel Sc vars obj sets. induction sets as [|s r IH]; intros visited g g' Hsets Hg Hc;
      simpl in Hc.
    - inversion Hc; subst. exact Hg.
    - apply Forall_cons_iff in Hsets. destruct Hsets as [Hl Hr].
      destruct (collect fuel Sc D vars obj s visited g) as [[g1 v1]|] eqn:E1; [| discriminate].
      exact (IH _ _ _ Hr (collect_inv _ _ _ _ _ _ _ _ _ E1 Hl Hg) Hc).
  Qed.

  Lemma ginv_nil : ginv [].
  Proof. split; constructor. Qed.
End CollectInv.

Section Levels.
  Variable Q : name -> Prop.
  Variable P : list selection -> Prop.

  Definition node (x : selection) : Prop :=
    match x with
    | SField _ _ _ _ _ sub => P sub
    | SSpread _ b _ => Q b
    | SInline _ _ _ _ => True
    end.

  Definition lvls : list selection -> Prop := level_all node.

  Definition groups_ok (g : groups) : Prop :=
    Forall (fun kv : name * list occ => Forall (fun o => P (oc_sub o)) (snd kv)) g.
End Levels.

(* walk with its nested fixpoints written as folds *)
Definition omax (a b : option nat) : option nat :=
  match a, b with
  | Some a, Some b => Some (Nat.max a b)
  | _, _ => None
  end.

Definition over_types_f (w : name -> option nat) (ts : list name) : option nat :=
  fold_right (fun t acc => omax (w t) acc) (Some 0) ts.

Definition over_groups_f (Sc : schema) (obj : name)
           (w : name -> list (list selection) -> option nat) (g : groups) : option nat :=
  fold_right
    (fun (kv : name * list occ) acc =>
       let '(_, occs) := kv in
       let fname := match occs with o :: _ => oc_name o | [] => EmptyString end in
       omax match find_field fname (object_fields Sc obj) with
            | None => Some 0
            | Some fd =>
              over_types_f (fun t => w t (map oc_sub occs)) (target_types Sc (named_of (f_type fd)))
            end acc)
    (Some 0) g.

Lemma walk_eq :
  forall f Sc D vars obj sets,
    walk (S f) Sc D vars obj sets =
    match collect_all f Sc D vars obj sets [] [] with
    | None => None
    | Some g =>
      match over_groups_f Sc obj (walk f Sc D vars) g with
      | Some d => Some (S d)
      | None => None
      end
    end.
Proof. reflexivity. Qed.

Lemma omax_some : forall a b, a <> None -> b <> None -> omax a b <> None.
Proof. intros [a|] [b|] Ha Hb; [discriminate | exact Hb | exact Ha | exact Ha]. Qed.

Lemma over_types_some :
  forall w ts, (forall t, w t <> None) -> over_types_f w ts <> None.
Proof.
  intros w ts Hw. induction ts as [|t r IH]; [discriminate|]. exact (omax_some _ _ (Hw t) IH).
Qed.

Lemma over_groups_some :
  forall Sc obj w (P : list selection -> Prop) g,
    (forall t sets, Forall P sets -> w t sets <> None) ->
    groups_ok P g -> over_groups_f Sc obj w g <> None.
Proof.
  intros Sc obj w P g Hw. induction g as [|[k occs] rest IH]; intros Hg; [discriminate|].
  apply Forall_cons_iff in Hg. destruct Hg as [Hkv Hr]. apply omax_some; [|exact (IH Hr)].
  destruct (find_field _ _) as [fd|]; [|discriminate].
  apply over_types_some. intro t. apply Hw.
  apply Forall_forall. intros s Hs. apply in_map_iff in Hs. destruct Hs as [o [<- Hin]].
  rewrite Forall_forall in Hkv. exact (Hkv o Hin).
Qed.

Section Walk.
  Variable Sc : schema.
  Variable D : document.
  Variable vars : list (name * jv).
  Variable rk : name -> nat.
  Hypothesis Hrk : rank_respected D rk.

  Let H := doc_height D.

  Definition allrk_lt (q : nat) (sels : list selection) : Prop :=
    forall c fl, In (c, fl) (sels_edges false sels) -> rk c < q.

  Definition state (m : nat) (sels : list selection) : Prop :=
    exists q h, allrk_lt q sels /\ sels_height sels <= h /\ q * (H + 2) + h <= m.

  (* a sub-term of the document that does not overlap the top level of a fragment body *)
  Definition sized (sels : list selection) : Prop :=
    sels_size sels + frag_total D <= doc_size D.

  Definition Qm (m : nat) (b : name) : Prop := rk b * (H + 2) + H < m.
  Definition Pm (m : nat) (sub : list selection) : Prop :=
    1 <= m /\ state (m - 1) sub /\ sized sub.

  Lemma state_mono : forall m m' s, state m s -> m <= m' -> state m' s.
  Proof.
    intros m m' s [q [h [Ha [Hh Hm]]]] Hle. exists q, h. repeat split; try assumption. lia.
  Qed.

  Lemma sized_collect_bound : forall s, sized s -> collect_bound D s <= doc_size D + 1.
  Proof. intros s Hs. unfold sized in Hs. unfold collect_bound. pose proof (csize_le_size s). lia. Qed.

  Lemma state_lvls : forall m s, state m s -> sized s -> lvls (Qm m) (Pm m) s.
  Proof.
    intros m s [q [h [Ha [Hh Hm]]]] Hsz [id al nm args ds sub | id b ds | id tc ds sub] Hx; [| |exact I]; cbn [node].
    - pose proof (on_level_height s _ Hx) as Hht. change (S (sels_height sub) <= sels_height s) in Hht.
      pose proof (on_level_size s _ Hx (sels_size sub) (Nat.eq_le_incl _ _ (Nat.add_1_r _))) as Hss.
      unfold Pm. split; [lia|]. split; [|unfold sized in *; lia].
      exists q, (h - 1). split; [| split; lia].
      intros c fl Hc. exact (Ha c true (on_level_sub_edges s _ _ _ _ _ _ Hx false c fl false Hc)).
    - specialize (Ha b false (on_level_edges s _ Hx false _ (or_introl eq_refl))).
      pose proof (Nat.mul_le_mono_r _ _ (H + 2) Ha). unfold Qm. lia.
  Qed.

  Lemma sels_height_frag : forall f, In f (d_frags D) -> sels_height (fr_sel f) <= H.
  Proof.
    intros f Hf. unfold H, doc_height.
    pose proof (in_map_list_max (fun f => sels_height (fr_sel f)) f (d_frags D) Hf). lia.
  Qed.

  Lemma sels_height_op : forall op, In op (d_ops D) -> sels_height (o_sel op) <= H.
  Proof.
    intros op Hop. unfold H, doc_height.
    pose proof (in_map_list_max (fun o => sels_height (o_sel o)) op (d_ops D) Hop). lia.
  Qed.

  Lemma sized_op : forall op, In op (d_ops D) -> sized (o_sel op).
  Proof.
    intros op Hop. unfold sized, doc_size, frag_total.
    pose proof (list_sum_in _ (fun o => sels_size (o_sel o)) (d_ops D) op Hop).
    pose proof (unvisited_le_csize (d_frags D) []).
    pose proof (list_sum_le _ _ _ (d_frags D) (fun f => csize_le_size (fr_sel f))). simpl in *. lia.
  Qed.

  Lemma frag_closed :
    forall m b f, Qm m b -> find_fragment b (d_frags D) = Some f -> lvls (Qm m) (Pm m) (fr_sel f).
  Proof.
    intros m b' f Hq Hfind. destruct (find_fragment_in _ _ _ Hfind) as [Hf <-].
    intros [id al nm args ds sub | id b ds | id tc ds sub] Hx; [| |exact I]; unfold Qm in Hq; cbn [node].
    - unfold Pm. split; [lia|]. split.
      + exists (rk (fr_name f)), H. split; [| split; [|lia]].
        * intros c fl Hc.
          pose proof (Hrk f (c, true) Hf (on_level_sub_edges _ _ _ _ _ _ _ Hx false c fl false Hc)) as Hr.
          unfold edge_weight in Hr. simpl in Hr. lia.
        * pose proof (on_level_height _ _ Hx) as Hht.
          change (S (sels_height sub) <= sels_height (fr_sel f)) in Hht.
          pose proof (sels_height_frag f Hf). lia.
      + pose proof (on_level_size _ _ Hx (sels_size sub) (Nat.eq_le_incl _ _ (Nat.add_1_r _))) as Hs.
        pose proof (list_sum_in_le _ _ _ _ (d_frags D) f Hf Hs (fun f => csize_le_size (fr_sel f))).
        pose proof (unvisited_le_csize (d_frags D) []). unfold sized, doc_size, frag_total. lia.
    - pose proof (Hrk f (b, false) Hf (on_level_edges _ _ Hx false _ (or_introl eq_refl))) as Hr.
      simpl in Hr. pose proof (Nat.mul_le_mono_r _ _ (H + 2) Hr). unfold Qm. lia.
  Qed.

  Lemma walk_level :
    forall fuel m obj sets,
      Forall (fun s => state m s /\ sized s) sets ->
      doc_size D + 1 <= fuel ->
      exists g, collect_all fuel Sc D vars obj sets [] [] = Some g /\ groups_ok (Pm m) g.
  Proof.
    intros fuel m obj sets Hsets Hfuel. rewrite Forall_forall in Hsets.
    destruct (collect_all_terminates_each Sc D vars obj fuel sets [] []) as [g Eg].
    { apply Forall_forall. intros s Hs. pose proof (sized_collect_bound s (proj2 (Hsets s Hs))). lia. }
    exists g. split; [exact Eg|].
    assert (Hg : ginv (fun _ => True) (fun o => Pm m (oc_sub o)) g).
    { apply (collect_all_inv D (node (Qm m) (Pm m)) (fun _ => True) (fun o => Pm m (oc_sub o)))
        with (5 := Eg); [| | | apply ginv_nil].
      - intros id al nm args ds sub Hx. exact (conj I Hx).
      - intros id nm ds f Hx. exact (frag_closed m nm f Hx).
      - apply Forall_forall. intros s Hs. destruct (Hsets s Hs). apply state_lvls; assumption. }
    exact (Forall_impl _ (fun kv H => proj2 (proj2 H)) (proj2 Hg)).
  Qed.

  Lemma walk_nil : forall fuel obj, 1 <= fuel -> walk fuel Sc D vars obj [] <> None.
  Proof.
    intros fuel obj Hf. destruct fuel as [|f]; [lia|]. rewrite walk_eq. simpl. discriminate.
  Qed.

  Lemma walk_measure :
    forall fuel m obj sets,
      Forall (fun s => state m s /\ sized s) sets ->
      m + doc_size D + 2 <= fuel ->
      walk fuel Sc D vars obj sets <> None.
  Proof.
    induction fuel as [|f IH]; intros m obj sets Hsets Hfuel; [lia|].
    rewrite walk_eq. destruct (walk_level f m obj sets Hsets) as [g [-> Hg]]; [lia|].
    apply bind_not_none; [|discriminate].
    apply (over_groups_some Sc obj _ (Pm m) g); [| exact Hg].
    intros t [|s0 r0] Hs'; [apply walk_nil; lia|].
    assert (Hm1 : 1 <= m) by exact (proj1 (Forall_inv Hs')).
    apply (IH (m - 1)); [| lia]. exact (Forall_impl _ (fun s Hs => proj2 Hs) Hs').
  Qed.

  Variable R : nat.
  Hypothesis HR : forall a, rk a <= R.

  Lemma op_state :
    forall op, In op (d_ops D) -> state ((R + 1) * (H + 2) + H) (o_sel op).
  Proof.
    intros op Hop. exists (R + 1), H. split; [| split].
    - intros c fl _. specialize (HR c). lia.
    - apply sels_height_op; exact Hop.
    - lia.
  Qed.

  Lemma walk_terminates_rank :
    forall obj sels,
      (exists op, In op (d_ops D) /\ o_sel op = sels) ->
      forall fuel, (R + 2) * (doc_height D + 2) + doc_size D + 2 <= fuel ->
                   walk fuel Sc D vars obj [sels] <> None.
  Proof.
    intros obj sels [op [Hop Hsel]] fuel Hfuel. subst sels.
    apply (walk_measure fuel ((R + 1) * (H + 2) + H)).
    - constructor; [| constructor]. split; [apply op_state; exact Hop | apply sized_op; exact Hop].
    - fold H in Hfuel. lia.
  Qed.
End Walk.

Theorem walk_terminates :
  forall Sc D vars obj sels,
    (exists op, In op (d_ops D) /\ o_sel op = sels) ->
    fragment_cycle_through_field D = false ->
    forall fuel, plan_bound D <= fuel -> walk fuel Sc D vars obj [sels] <> None.
Proof.
  intros Sc D vars obj sels Hop Hchk fuel Hfuel.
  exact (walk_terminates_rank Sc D vars _ (cycle_check_rank D Hchk) _ (rank_candidate_bounded D)
                              obj sels Hop fuel Hfuel).
Qed.

Corollary walk_depth_exists :
  forall Sc D vars obj sels,
    (exists op, In op (d_ops D) /\ o_sel op = sels) ->
    fragment_cycle_through_field D = false ->
    exists d, walk (plan_bound D) Sc D vars obj [sels] = Some d.
Proof.
  intros Sc D vars obj sels Hop Hchk.
  pose proof (walk_terminates Sc D vars obj sels Hop Hchk (plan_bound D) (le_n _)) as Hw.
  destruct (walk (plan_bound D) Sc D vars obj [sels]) as [d|]; [exists d; reflexivity | congruence].
Qed.

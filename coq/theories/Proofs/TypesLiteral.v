(* C10: printing a literal and reading it back.  For every literal whose leaves are lexemes the
   lexer accepts (lit_wf), the library's lexer and value parser applied to the printer's text
   give the literal back: parse_lit (print_lit l) = Some l.
   Built on the print -> lex -> parse machinery of the syntax properties (Proofs/Syntax*.v). *)
From Coq Require Import String List NArith Bool Lia.
From GQL Require Import Base.Bytes Syntax.Lexer Syntax.Ast Syntax.Parser Syntax.Grammar Syntax.Printer
  Proofs.SyntaxSound Proofs.SyntaxComplete Proofs.SyntaxPrinter Proofs.SyntaxUtf8 Proofs.SyntaxRender
  Proofs.SyntaxLayoutWf Proofs.SyntaxRoundTrip.
From GQL Require Import Types.Literal.
Import ListNotations.
Open Scope N_scope.

Section LitInd.
  Variable P : lit -> Prop.
  Hypothesis HInt : forall lx, P (LInt lx).
  Hypothesis HFloat : forall lx, P (LFloat lx).
  Hypothesis HStr : forall b, P (LStr b).
  Hypothesis HBool : forall b, P (LBool b).
  Hypothesis HEnum : forall n, P (LEnum n).
  Hypothesis HList : forall l, Forall P l -> P (LList l).
  Hypothesis HObj : forall fs, Forall (fun f => P (snd f)) fs -> P (LObj fs).

  Fixpoint lit_ind' (l : lit) : P l :=
    match l with
    | LInt lx => HInt lx
    | LFloat lx => HFloat lx
    | LStr b => HStr b
    | LBool b => HBool b
    | LEnum n => HEnum n
    | LList vs => HList vs ((fix go (vs : list lit) : Forall P vs :=
                              match vs with [] => Forall_nil _ | v :: r => Forall_cons v (lit_ind' v) (go r) end) vs)
    | LObj fs => HObj fs ((fix go (fs : list (bytes * lit)) : Forall (fun f => P (snd f)) fs :=
                             match fs with [] => Forall_nil _ | f :: r => Forall_cons f (lit_ind' (snd f)) (go r) end) fs)
    end.
End LitInd.

(* the model's lexeme predicates are the ones of the syntax development *)
Lemma num_lexeme_ok_eq : forall lx f, num_lexeme_ok lx f = num_okb lx f.
Proof. reflexivity. Qed.
Lemma name_lexeme_ok_eq : forall v, name_lexeme_ok v = name_ok v.
Proof. reflexivity. Qed.
Lemma string_ok_eq : forall v, string_ok v = str_okb v.
Proof. reflexivity. Qed.

Lemma enum_lexeme_facts : forall n, enum_lexeme_ok n = true ->
  name_ok n = true /\ n <> kw "true" /\ n <> kw "false" /\ n <> kw "null".
Proof.
  intros n H. unfold enum_lexeme_ok in H.
  apply andb_true_iff in H. destruct H as [H H3]. apply andb_true_iff in H. destruct H as [H H2].
  apply andb_true_iff in H. destruct H as [H0 H1].
  apply negb_true_iff in H1, H2, H3.
  split; [exact H0|]. repeat split; intro E; subst n; discriminate.
Qed.

Definition lay_field (f : bytes * lit) : layout :=
  [PTok NAME (fst f)] ++ PTok COLON [] :: PSep [32] :: lay_value (ast_of_lit (snd f)).

Lemma lay_lit_list : forall vs,
  lay_value (ast_of_lit (LList vs)) = T BRACKET_L ++ ljoin (map (fun v => lay_value (ast_of_lit v)) vs) comma_sp ++ T BRACKET_R.
Proof. intro vs. cbn [ast_of_lit lay_value]. rewrite map_map. reflexivity. Qed.

Lemma lay_lit_obj : forall fs,
  lay_value (ast_of_lit (LObj fs)) = T BRACE_L ++ ljoin (map lay_field fs) comma_sp ++ T BRACE_R.
Proof. intro fs. cbn [ast_of_lit]. rewrite lay_value_obj. rewrite map_map. reflexivity. Qed.

Lemma delim_P1 : forall o c ls, is_punct o = true -> is_punct c = true -> tkind_beq c SPREAD = false -> Forall P1 ls ->
  P1 (T o ++ ljoin ls comma_sp ++ T c).
Proof.
  intros o c ls Ho Hc Hs H. unfold T. cbn [app]. apply P1_punct; [exact Ho|]. apply P0_P1. apply P0_app1.
  - apply ljoin_P1; [reflexivity|exact H].
  - apply P0_punct; [exact Hc|apply P0_nil].
  - apply SFs_punct; [exact Hc|exact Hs].
Qed.

Lemma lit_layout_P1 : forall l, lit_wf l = true -> P1 (lay_value (ast_of_lit l)).
Proof.
  induction l as [lx|lx|b|b|n|vs IH|fs IH] using lit_ind'; intro W.
  - apply P1_wordy_last. exact W.
  - apply P1_wordy_last. exact W.
  - apply P1_wordy_last. exact W.
  - cbn [ast_of_lit lay_value]. destruct b; apply P1_wordy_last; reflexivity.
  - apply P1_wordy_last. exact (proj1 (enum_lexeme_facts n W)).
  - rewrite lay_lit_list. apply delim_P1; [reflexivity..|]. rewrite Forall_map. cbn [lit_wf] in W. rewrite forallb_forall in W.
    rewrite Forall_forall in *. intros v Hv. exact (IH v Hv (W v Hv)).
  - rewrite lay_lit_obj. apply delim_P1; [reflexivity..|]. rewrite Forall_map. cbn [lit_wf] in W. rewrite forallb_forall in W.
    rewrite Forall_forall in *. intros f Hf. specialize (W f Hf). apply andb_true_iff in W. destruct W as [Wn Wv].
    unfold lay_field. cbn [app]. apply P1_wordy; [exact Wn| |apply SFs_SF; apply SFs_punct; reflexivity].
    apply P1_punct; [reflexivity|]. apply P1_sep; [reflexivity|exact (IH f Hf Wv)].
Qed.

Lemma lit_layout_wf : forall l, lit_wf l = true -> layout_wfb (lay_value (ast_of_lit l)) = true.
Proof.
  intros l W. pose proof (lit_layout_P1 l W [] (conj eq_refl eq_refl)) as H. rewrite app_nil_r in H. exact H.
Qed.

Lemma one_tok_inv : forall ts k v, map sig ts = [(k, v)] -> exists t, ts = [t] /\ tk t = k /\ tval t = v.
Proof.
  intros ts k v H. apply map_eq_cons in H. destruct H as (t & tl & -> & Hs & H). apply map_eq_nil in H. subst tl.
  exists t. split; [reflexivity|exact (sig_inv t k v Hs)].
Qed.

Section Stars.
  Context {A B : Type}.
  Variable I : list token -> B -> Prop.
  Variable lay : A -> layout.
  Variable R : A -> B -> Prop.

  Let derives (a : A) : Prop := forall ts, map sig ts = ltoks (lay a) -> exists b, I ts b /\ R a b.

  Lemma star_derive : forall l, Forall derives l ->
    forall ts, map sig ts = flat_map ltoks (map lay l) -> exists l', DStar I ts l' /\ Forall2 R l l'.
  Proof.
    induction l as [|a l IH]; intros H ts Hts.
    - cbn in Hts. apply map_eq_nil in Hts. subst. exists []. split; constructor.
    - inversion H as [|? ? Ha Hl]; subst. cbn [map flat_map] in Hts.
      apply map_eq_app in Hts. destruct Hts as (t1 & t2 & -> & H1 & H2).
      destruct (Ha t1 H1) as (b & Db & Rb). destruct (IH Hl t2 H2) as (l' & Dl & Rl).
      exists (b :: l'). split; constructor; assumption.
  Qed.
  Lemma delim_derive : forall o c l, Forall derives l ->
    forall ts, map sig ts = ltoks (T o ++ ljoin (map lay l) comma_sp ++ T c) ->
    exists l', DDelim I o c false ts l' /\ Forall2 R l l'.
  Proof.
    intros o c l H ts Hts. unfold T in Hts. cbn [app ltoks tokval] in Hts.
    apply map_eq_cons in Hts. destruct Hts as (to & tl & -> & So & Hts). apply sig_inv in So.
    rewrite ltoks_app, ltoks_ljoin in Hts. cbn [ltoks tokval] in Hts.
    apply map_eq_app in Hts. destruct Hts as (mid & cl & -> & Hmid & Hcl).
    destruct (one_tok_inv _ _ _ Hcl) as (tc & -> & Kc & _).
    destruct (star_derive l H mid Hmid) as (l' & Dl & Rl).
    exists l'. split; [constructor; [exact (proj1 So)|exact Kc|exact Dl|discriminate]|exact Rl].
  Qed.
End Stars.

Lemma Forall2_map_eq {A B} (f : B -> A) : forall l l', Forall2 (fun a b => f b = a) l l' -> map f l' = l.
Proof. induction 1 as [|a b l l' H _ IH]; [reflexivity|]. cbn [map]. rewrite H, IH. reflexivity. Qed.

Definition field_of (f : objfield) : bytes * lit := match f with OField n v _ => (nval n, lit_of_ast v) end.

Lemma lit_of_ast_obj : forall fs l, lit_of_ast (VObj fs l) = LObj (map field_of fs).
Proof. reflexivity. Qed.

Lemma lit_derives : forall l, lit_wf l = true ->
  forall ts, map sig ts = ltoks (lay_value (ast_of_lit l)) -> exists v, DValue true ts v /\ lit_of_ast v = l.
Proof.
  induction l as [lx|lx|b|b|n|vs IH|fs IH] using lit_ind'; intros W ts Hts.
  - cbn [ast_of_lit lay_value ltoks tokval] in Hts. destruct (one_tok_inv _ _ _ Hts) as (t & -> & K & V).
    exists (VInt (tval t) (tokloc t)). split; [apply DV_int; assumption|]. cbn [lit_of_ast]. rewrite V. reflexivity.
  - cbn [ast_of_lit lay_value ltoks tokval] in Hts. destruct (one_tok_inv _ _ _ Hts) as (t & -> & K & V).
    exists (VFloat (tval t) (tokloc t)). split; [apply DV_float; assumption|]. cbn [lit_of_ast]. rewrite V. reflexivity.
  - cbn [ast_of_lit lay_value ltoks tokval] in Hts. destruct (one_tok_inv _ _ _ Hts) as (t & -> & K & V).
    exists (VStr (tval t) (tokloc t)). split; [apply DV_string; left; assumption|]. cbn [lit_of_ast]. rewrite V. reflexivity.
  - destruct b; cbn [ast_of_lit lay_value Kw ltoks tokval] in Hts; destruct (one_tok_inv _ _ _ Hts) as (t & -> & K & V).
    + exists (VBool true (tokloc t)). split; [apply DV_true; assumption|reflexivity].
    + exists (VBool false (tokloc t)). split; [apply DV_false; assumption|reflexivity].
  - cbn [ast_of_lit lay_value ltoks tokval] in Hts. destruct (one_tok_inv _ _ _ Hts) as (t & -> & K & V).
    destruct (enum_lexeme_facts n W) as (_ & N1 & N2 & N3).
    exists (VEnum (tval t) (tokloc t)). split; [apply DV_enum; try assumption; rewrite V; assumption|].
    cbn [lit_of_ast]. rewrite V. reflexivity.
  - rewrite lay_lit_list in Hts. cbn [lit_wf] in W. rewrite forallb_forall in W.
    destruct (delim_derive (DValue true) (fun v => lay_value (ast_of_lit v)) (fun a b => lit_of_ast b = a) BRACKET_L BRACKET_R vs
                ltac:(rewrite Forall_forall in *; intros v Hv ts0 H0; exact (IH v Hv (W v Hv) ts0 H0)) ts Hts) as (l' & Dl & Rl).
    exists (VList l' (span ts)). split; [apply DV_list; exact Dl|].
    cbn [lit_of_ast]. rewrite (Forall2_map_eq _ _ _ Rl). reflexivity.
  - rewrite lay_lit_obj in Hts. cbn [lit_wf] in W. rewrite forallb_forall in W.
    assert (E : Forall (fun f => forall ts0, map sig ts0 = ltoks (lay_field f) ->
                       exists b, DObjFieldOf (DValue true) ts0 b /\ field_of b = f) fs).
    { rewrite Forall_forall in *. intros f Hf ts0 H0. specialize (W f Hf). apply andb_true_iff in W. destruct W as [_ Wv].
      unfold lay_field in H0. cbn [app ltoks tokval] in H0.
      apply map_eq_cons in H0. destruct H0 as (n' & tl & -> & Sn & H0). apply sig_inv in Sn. destruct Sn as [Kn Vn].
      apply map_eq_cons in H0. destruct H0 as (c' & tv & -> & Sc & H0). apply sig_inv in Sc. destruct Sc as [Kcol _].
      destruct (IH f Hf Wv tv H0) as (v & Dv & Ev).
      exists (OField (tok_name n') v (span (n' :: c' :: tv))). split; [constructor; assumption|].
      cbn [field_of tok_name nval]. rewrite Vn, Ev. destruct f; reflexivity. }
    destruct (delim_derive (DObjFieldOf (DValue true)) lay_field (fun a b => field_of b = a) BRACE_L BRACE_R fs E ts Hts) as (l' & Dl & Rl).
    exists (VObj l' (span ts)). split; [apply DV_object; exact Dl|].
    rewrite lit_of_ast_obj. rewrite (Forall2_map_eq _ _ _ Rl). reflexivity.
Qed.

Theorem parse_print_lit : forall l, lit_wf l = true -> parse_lit (print_lit l) = Some l.
Proof.
  intros l W. unfold parse_lit, print_lit, print_value.
  set (L := lay_value (ast_of_lit l)).
  rewrite (lex_flat_layout L (lit_layout_wf l W)).
  destruct (lit_derives l W (ptoks 0 L) (sig_ptoks L 0)) as (v & Dv & Ev).
  assert (Hf : (List.length (ptoks 0 L) < S (List.length (ptoks 0 L ++ [eof_tok (nlen (flat L))])))%nat)
    by (rewrite app_length; cbn [List.length]; lia).
  rewrite (parse_value_complete _ true (ptoks 0 L) v Dv Hf 0 [eof_tok (nlen (flat L))]).
  cbn [tk eof_tok]. rewrite Ev. reflexivity.
Qed.

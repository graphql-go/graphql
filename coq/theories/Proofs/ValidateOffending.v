(* The offending-node oracle of the runner is the Spec, and the model's reports lie in it. *)
From Coq Require Import List Bool NArith.
From GQL Require Import Exec.Syntax Validate.Overlap Validate.OverlapSpec Validate.OverlapWf
     Proofs.ValidateL1 Proofs.ValidateWitness.
Import ListNotations.
Open Scope string_scope.
Open Scope list_scope.

Section Off.
Variable S : schema.
Variable D : document.
Notation EF := (EF S D).
Notation compat := (compat S D (base2 S)).

(* the Spec's offending nodes of a selection set *)
Definition Offending (s : fset) (x : N) : Prop :=
  exists a b, EF s a /\ EF s b /\ fe_key a = fe_key b /\ fe_id a = x /\ ~ compat false a b.

Lemma offending_set_o_spec : forall fuel s ids, offending_set_o S D fuel s = Some ids ->
  forall x, In x ids <-> Offending s x.
Proof.
  intros fuel s ids H x. unfold offending_set_o in H.
  destruct (expanded_o S D s) as [l|] eqn:E; [|discriminate].
  pose proof (expanded_o_spec S D s l E) as Sl.
  match type of H with (if ?c then _ else _) = _ => destruct c eqn:Ec end; [|discriminate].
  inversion H; subst ids. clear H. rewrite forallb_forall in Ec. split.
  - intro Hx. apply in_flat_map in Hx. destruct Hx as [a [Ha Hx]].
    match type of Hx with In _ (if ?c then _ else _) => destruct c eqn:Ex end; [|destruct Hx].
    destruct Hx as [Hx|[]]. apply existsb_exists in Ex. destruct Ex as [b [Hb Ex]].
    apply andb_true_iff in Ex. destruct Ex as [Ek Ex]. apply String.eqb_eq in Ek.
    destruct (compat_o S D fuel false a b) as [[|]|] eqn:Eo; try discriminate.
    exists a, b. repeat split; [apply Sl; exact Ha | apply Sl; exact Hb | exact Ek | exact Hx|].
    apply (proj2 (compat_o_reflect S D fuel false a b) Eo).
  - intros [a [b [Ha [Hb [Hk [Hx HN]]]]]]. apply Sl in Ha. apply Sl in Hb.
    apply in_flat_map. exists a. split; [exact Ha|].
    assert (Ex : existsb (fun b0 => String.eqb (fe_key a) (fe_key b0) &&
                            match compat_o S D fuel false a b0 with Some false => true | _ => false end) l = true).
    { apply existsb_exists. exists b. split; [exact Hb|]. rewrite Hk, String.eqb_refl. simpl.
      specialize (Ec a Ha). rewrite forallb_forall in Ec. specialize (Ec b Hb). rewrite Hk, String.eqb_refl in Ec.
      destruct (compat_o S D fuel false a b) as [[|]|] eqn:Eo; [|reflexivity|discriminate].
      exfalso. apply HN. apply (proj1 (compat_o_reflect S D fuel false a b) Eo). }
    rewrite Ex. left. exact Hx.
Qed.

Lemma collect_o_spec : forall {A B} (f : A -> option (list B)) l ids, collect_o f l = Some ids ->
  forall x, In x ids <-> exists y r, In y l /\ f y = Some r /\ In x r.
Proof.
  intros A B f l. induction l as [|y r IH]; intros ids H x; simpl in H.
  - inversion H; subst. split; [intros [] | intros [y [r [[] _]]]].
  - destruct (f y) as [a|] eqn:Ey; [|discriminate]. destruct (collect_o f r) as [b|] eqn:Er; [|discriminate].
    inversion H; subst ids. rewrite in_app_iff, (IH b eq_refl x). split.
    + intros [Hx|[z [rz [Hz [Ez Hx]]]]].
      * exists y, a. split; [left; reflexivity|]. split; [exact Ey | exact Hx].
      * exists z, rz. split; [right; exact Hz|]. split; [exact Ez | exact Hx].
    + intros [z [rz [[Hz|Hz] [Ez Hx]]]]; [subst z; rewrite Ey in Ez; inversion Ez; subst; left; exact Hx|].
      right. exists z, rz. split; [exact Hz|]. split; [exact Ez | exact Hx].
Qed.

Lemma collect_o_all : forall {A B} (f : A -> option (list B)) l ids, collect_o f l = Some ids ->
  forall y, In y l -> exists r, f y = Some r.
Proof.
  intros A B f l. induction l as [|z r IH]; intros ids H y Hy; [destruct Hy|]. simpl in H.
  destruct (f z) as [a|] eqn:Ez; [|discriminate]. destruct (collect_o f r) as [b|] eqn:Er; [|discriminate].
  destruct Hy as [Hy|Hy]; [subst; exists a; exact Ez | apply (IH b eq_refl y Hy)].
Qed.

Theorem offending_o_spec : forall fuel ids, offending_o S D fuel = Some ids ->
  forall x, In x ids <-> exists s, In s (all_sets S D) /\ Offending s x.
Proof.
  intros fuel ids H x. unfold offending_o in H. rewrite (collect_o_spec _ _ _ H x). split.
  - intros [s [r [Hs [Er Hx]]]]. exists s. split; [exact Hs|]. apply (offending_set_o_spec fuel s r Er x). exact Hx.
  - intros [s [Hs Ho]]. destruct (collect_o_all _ _ _ H s Hs) as [r Er]. exists s, r. split; [exact Hs|].
    split; [exact Er|]. apply (offending_set_o_spec fuel s r Er x). exact Ho.
Qed.

(* every node the rule's model reports is an offending node of the Spec *)
Theorem model_reports_offending : forall fuel ids, offending_o S D fuel = Some ids ->
  forall memo fuel' x, In x (run_overlap S D memo fuel') -> In x ids.
Proof.
  intros fuel ids H memo fuel' x Hx. apply (offending_o_spec fuel ids H x).
  destruct (overlap_located S D memo fuel' x Hx) as [s [Hs [a [b [Ha [Hb [Hk [Ex C]]]]]]]].
  exists s. split; [exact Hs|]. exists a, b. repeat split; try assumption; [symmetry; exact Ex|]. apply Cfl_not_compat. exact C.
Qed.
End Off.

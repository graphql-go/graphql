(* What is in the type map NewSchema builds: exactly the types the roots and
   SchemaConfig.Types reach, each with its checks passed, the introspection
   types among them. *)
From Coq Require Import List NArith Bool.
From GQL Require Import Base.Bytes Types.Schema Types.Consistent Proofs.TypesReduce Proofs.TypesNames
  Proofs.TypesClosed Proofs.TypesImpl.
Import ListNotations.
Open Scope N_scope.

Lemma root_in_map fuel c sch r q : new_schema_fuel fuel c = OK sch ->
  r = Some q -> In (TNamed q) (initial_types c) -> In q (ids (s_tm sch)).
Proof.
  intros H _ Hin. destruct (new_schema_built _ _ _ H) as [tm _ _ Hr].
  exact (tgt_named_in (c_defs c) tm q (Hr (TNamed q) Hin)).
Qed.

Lemma implements_partial fuel c sch : new_schema_fuel fuel c = OK sch ->
  forall o i jf, In o (objects_of sch) -> In i (interfaces_of (s_defs sch) o) -> In jf (fields_of (s_defs sch) i) ->
    implements_field (abstract_possible sch) (fields_of (s_defs sch) o) jf.
Proof.
  intros H. destruct (built_invariants _ _ (new_schema_built _ _ _ H)) as (_ & _ & Hc).
  exact (check_implementations_sound sch Hc).
Qed.

Inductive reachable (defs : list (N * tdef)) (roots : list tref) : N -> Prop :=
| r_root t i : In t roots -> target_of defs (norm t) = TgtTo i -> reachable defs roots i
| r_step x t i : reachable defs roots x -> In t (out_refs defs x) -> target_of defs t = TgtTo i -> reachable defs roots i.

Lemma reachable_in_map defs roots tm : closed defs tm ->
  (forall t, In t roots -> tgt_in defs tm (norm t)) ->
  forall i, reachable defs roots i -> In i (ids tm).
Proof.
  intros Hc Hr i Hi. induction Hi as [t i Ht Hi|x t i Hx IH Ht Hi].
  - exact (tgt_in_to _ _ _ _ (Hr t Ht) Hi).
  - exact (closed_edge _ _ _ _ _ Hc IH Ht Hi).
Qed.

Lemma reachable_mono defs roots roots' y : incl roots roots' -> reachable defs roots y -> reachable defs roots' y.
Proof.
  intros Hi H. induction H as [t i Ht Hti|x t i Hx IH Ht Hti].
  - apply (r_root defs roots' t i); auto.
  - apply (r_step defs roots' x t i); auto.
Qed.

Lemma reachable_app defs l1 l2 y : reachable defs (l1 ++ l2) y <-> reachable defs l1 y \/ reachable defs l2 y.
Proof.
  split.
  - intros H. induction H as [t i Ht Hti|x t i Hx IH Ht Hti].
    + apply in_app_or in Ht. destruct Ht as [Ht|Ht]; [left|right]; apply (r_root defs _ t i); auto.
    + destruct IH as [IH|IH]; [left|right]; apply (r_step defs _ x t i); auto.
  - intros [H|H]; [apply (reachable_mono defs l1)|apply (reachable_mono defs l2)]; auto; [apply incl_appl|apply incl_appr]; apply incl_refl.
Qed.

(* the reducer is only ever sent to reachable types, so it enters no other *)
Lemma add_types_reachable defs fuel roots tm0 tm : fold_res (add_type defs fuel) roots tm0 = OK tm ->
  forall y, In y (ids tm) -> In y (ids tm0) \/ reachable defs roots y.
Proof.
  refine (add_types_inv defs (fun tm => forall y, In y (ids tm) -> In y (ids tm0) \/ reachable defs roots y)
            (reachable defs roots) _ _ fuel roots tm0 tm (fun y Hy => or_introl Hy) (r_root defs roots)).
  - intros tm1 id d HP HQ _ _ _ y [<-|Hy]; [right; exact HQ|exact (HP y Hy)].
  - intros x i Hx He. destruct (edge_out_refs _ _ _ He) as (t & Ht & Hi). exact (r_step _ _ x t i Hx Ht Hi).
Qed.

Lemma new_schema_map fuel c sch : new_schema_fuel fuel c = OK sch ->
  forall y, In y (ids (s_tm sch)) <-> reachable (c_defs c) (initial_types c) y.
Proof.
  intros H y. split.
  - apply new_schema_fuel_tm in H. destruct H as (_ & tm & -> & Hf & _).
    intro Hy. destruct (add_types_reachable _ _ _ _ _ Hf y Hy) as [[]|Hr]. exact Hr.
  - destruct (new_schema_built _ _ _ H) as [tm _ (_ & Hc & _) Hr]. exact (reachable_in_map _ _ _ Hc Hr y).
Qed.

Lemma tgt_in_not_bad defs tm t : tgt_in defs tm t -> target_of defs t <> TgtBad.
Proof. unfold tgt_in. intros H E. rewrite E in H. exact H. Qed.

Lemma errors_surface fuel c sch : new_schema_fuel fuel c = OK sch ->
  (forall t, In t (initial_types c) -> target_of (c_defs c) (norm t) <> TgtBad)
  /\ forall i, reachable (c_defs c) (initial_types c) i ->
       (exists d, find_def (c_defs c) i = Some d /\ static_ok (c_defs c) d)
       /\ forall t, In t (out_refs (c_defs c) i) -> target_of (c_defs c) t <> TgtBad.
Proof.
  intros H. destruct (new_schema_built _ _ _ H) as [tm _ ((_ & Hg) & Hc & _) Hroots]. split.
  - intros t Ht. exact (tgt_in_not_bad _ _ _ (Hroots t Ht)).
  - intros i Hi. pose proof (reachable_in_map _ _ _ Hc Hroots i Hi) as Hin. split.
    + destruct (in_ids_entry _ _ Hin) as [n Hn]. destruct (Hg n i Hn) as (d & Hfd & _ & Hs). exists d. auto.
    + intros t Ht. exact (tgt_in_not_bad _ _ _ (Hc i Hin t Ht)).
Qed.

Definition succs (defs : list (N * tdef)) (x : N) : list N :=
  flat_map (fun t => match target_of defs t with TgtTo i => [i] | _ => [] end) (out_refs defs x).

Definition within2 (defs : list (N * tdef)) (x : N) : list N :=
  let l := succs defs x in x :: l ++ flat_map (succs defs) l.

Lemma closed_succs defs tm x : closed defs tm -> In x (ids tm) -> incl (succs defs x) (ids tm).
Proof.
  intros Hc Hx i Hi. apply in_flat_map in Hi. destruct Hi as (t & Ht & Hi).
  destruct (target_of defs t) as [| |j] eqn:E; [destruct Hi..|]. destruct Hi as [<-|[]].
  exact (closed_edge _ _ _ _ _ Hc Hx Ht E).
Qed.

Lemma closed_within2 defs tm x : closed defs tm -> In x (ids tm) -> incl (within2 defs x) (ids tm).
Proof.
  intros Hc Hx i [<-|Hi]; [exact Hx|]. pose proof (closed_succs defs tm x Hc Hx) as H1.
  apply in_app_or in Hi. destruct Hi as [Hi|Hi]; [exact (H1 i Hi)|].
  apply in_flat_map in Hi. destruct Hi as (y & Hy & Hi). exact (closed_succs defs tm y Hc (H1 y Hy) i Hi).
Qed.

(* every introspection type is at most two references away from __Schema, whatever the user's definitions *)
Lemma meta_present c S : built (with_meta c) S ->
  forall n, In n meta_names -> In n (map vt_name (v_types (view_of S))).
Proof.
  intros [tm _ (Hg & Hc & _) Hr] n Hn. cbn [schema_of with_meta c_defs s_defs s_tm] in Hg, Hc, Hr.
  rewrite view_of_types, view_names. cbn [schema_of with_meta c_defs s_defs s_tm].
  set (defs := meta_defs ++ c_defs c) in *.
  assert (H10 : In schema_type_id (ids tm)).
  { apply (tgt_named_in defs), (Hr (TNamed schema_type_id)). unfold initial_types. rewrite !in_app_iff. do 3 right. left. left. reflexivity. }
  (* the let makes the checker compute the list once, not once for each name *)
  assert (E : let l := within2 defs schema_type_id in
              forallb (fun n => existsb (fun i => bytes_eqb (name_of defs i) n) l) meta_names = true)
    by (vm_compute; reflexivity).
  cbv zeta in E. rewrite forallb_forall in E. specialize (E n Hn). apply existsb_exists in E. destruct E as (i & Hi & En).
  apply bytes_eqb_eq in En. subst n.
  exact (in_map fst _ _ (good_entry defs tm i Hg (closed_within2 defs tm _ Hc H10 i Hi))).
Qed.

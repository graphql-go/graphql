(* C20, "its source is the value its parent resolved to (the individual element under a list,
   the request's root value at the top level)": for EVERY resolver invocation of a request --
   also those inside subtrees that are nulled later -- the source is the root value when the
   field is a top-level one, and otherwise the value obtained from the (forced) outcome of the
   resolver of the enclosing field by descending through the list indices that separate the
   two in the response path.  All resolver outcomes, deferred values at any depth, any fuel.
   Proved together with the accuracy of arguments and occurrences (args_ok, Proofs/ExecArgs.v):
   both say what a resolver is told, and both follow from what is known where it is invoked. *)
From Coq Require Import List NArith String Bool.
From GQL Require Import Exec.Syntax Exec.Coerce Exec.Exec Exec.Request Exec.Conform
     Proofs.ExecField Proofs.ExecInv Proofs.CollectProofs Proofs.ExecCoverage Proofs.ExecArgs.
Import ListNotations.
Open Scope string_scope.
Open Scope list_scope.

Fixpoint descend (v : rv) (idxs : list N) : option rv :=
  match idxs with
  | [] => Some v
  | i :: r =>
    match v with
    | RList l => match nth_error l (N.to_nat i) with Some x => descend x r | None => None end
    | _ => None
    end
  end.

Lemma descend_snoc : forall idxs v0 l i x,
  descend v0 idxs = Some (RList l) -> nth_error l (N.to_nat i) = Some x ->
  descend v0 (idxs ++ [i]) = Some x.
Proof.
  induction idxs as [|j idxs IH]; intros v0 l i x H Hx; cbn [descend app] in *.
  - injection H as ->. rewrite Hx. reflexivity.
  - destruct v0 as [| | | | |l0| | | |]; try discriminate. destruct (nth_error l0 (N.to_nat j)) as [y|]; [|discriminate].
    eapply IH; eassumption.
Qed.

(* what the resolver of the field at response path fp handed to value completion *)
Definition field_value (E : env) (fp : path) : option rv :=
  match en_or E fp with
  | Some o => match fst (force o) with OVal v => Some v | _ => None end
  | None => Some RNull
  end.

Section Src.
Variable E : env.
Variable root : rv.

(* src is the object value whose fields are resolved at path p *)
Definition obj_at (p : path) (src : rv) : Prop :=
  (p = [] /\ src = root) \/
  exists q k idxs v0, p = (q ++ [PKey k]) ++ map PIdx idxs /\
                      field_value E (q ++ [PKey k]) = Some v0 /\ descend v0 idxs = Some src.

Definition src_ok (c : call) : Prop :=
  exists p k, c_path c = p ++ [PKey k] /\ obj_at p (c_source c).

(* v is the value being completed at path p for the field at fpath *)
Definition val_at (fpath p : path) (v : rv) : Prop :=
  exists q k idxs v0, fpath = q ++ [PKey k] /\ p = fpath ++ map PIdx idxs /\
                      field_value E fpath = Some v0 /\ descend v0 idxs = Some v.

Definition told_ok (c : call) : Prop := args_ok E c /\ src_ok c.

(* deferred values carry occurrences of the document and the outcome of their own resolver *)
Inductive TT : presp -> Prop :=
| TT_null : TT QNull
| TT_leaf v : TT (QLeaf v)
| TT_list l : Forall TT l -> TT (QList l)
| TT_obj l : Forall (fun kv => TT (snd kv)) l -> TT (QObj l)
| TT_thunk t nodes occs p o :
    occs_ok (en_D E) occs -> (exists q k, p = q ++ [PKey k]) ->
    (forall v, o = OVal v -> field_value E p = Some v) ->
    TT (QThunk t nodes occs p o).

Definition TTF (l : list (name * presp)) : Prop := Forall (fun kv => TT (snd kv)) l.

Lemma TT_inv : forall q, TT q ->
  match q with
  | QList l => Forall TT l
  | QObj l => TTF l
  | QThunk _ _ occs p o =>
    occs_ok (en_D E) occs /\ (exists q k, p = q ++ [PKey k]) /\ (forall v, o = OVal v -> field_value E p = Some v)
  | _ => True
  end.
Proof. intros q H. destruct H; auto. Qed.
Definition TTO (y : option presp) : Prop := match y with Some q => TT q | None => True end.

Definition newc (s s' : st) : Prop := exists cs, st_calls s' = st_calls s ++ cs /\ Forall told_ok cs.

Lemma newc_refl : forall s, newc s s.
Proof. intros s. exists []. split; [rewrite app_nil_r; reflexivity|constructor]. Qed.

Lemma newc_trans : forall s1 s2 s3, newc s1 s2 -> newc s2 s3 -> newc s1 s3.
Proof.
  intros s1 s2 s3 [c1 [E1 F1]] [c2 [E2 F2]]. exists (c1 ++ c2). split.
  - rewrite E2, E1, app_assoc. reflexivity.
  - apply Forall_app. split; assumption.
Qed.

Lemma newc_eq : forall s s', st_calls s' = st_calls s -> newc s s'.
Proof. intros s s' H. exists []. split; [rewrite app_nil_r; exact H|constructor]. Qed.

Definition nres {A : Type} (T : A -> Prop) : st -> xres A -> Prop :=
  post newc (fun _ => True) (fun y _ => T y).

Lemma nres_catch : forall s t r, nres TT s r -> nres TT s (catch_at t r).
Proof.
  intros s t [y s'|e s'|] H; cbn in *; auto.
  destruct (is_nonnull t); cbn; [exact H|]. split; [|constructor].
  eapply newc_trans; [apply H|apply newc_eq; reflexivity].
Qed.

Lemma nres_escapes : forall s th r, nres TT s r -> nres TT s (escapes th r).
Proof.
  intros s th [q s'|e s'|] H; try exact H. destruct th; [|exact H].
  split; [eapply newc_trans; [apply H|apply newc_eq; reflexivity]|exact I].
Qed.

Lemma val_obj : forall fpath p v, val_at fpath p v -> obj_at p v.
Proof.
  intros fpath p v [q [k [idxs [v0 [-> [-> [H1 H2]]]]]]]. right. exists q, k, idxs, v0. auto.
Qed.

Lemma val_item : forall fpath p l i x,
  val_at fpath p (RList l) -> nth_error l (N.to_nat i) = Some x -> val_at fpath (p ++ [PIdx i]) x.
Proof.
  intros fpath p l i x [q [k [idxs [v0 [Hf [Hp [H1 H2]]]]]]] Hx.
  exists q, k, (idxs ++ [i]), v0. split; [exact Hf|]. split.
  - rewrite Hp, map_app, app_assoc. reflexivity.
  - split; [exact H1|]. eapply descend_snoc; eassumption.
Qed.

(* l holds the items, from index i on, of the list being completed at p *)
Definition items_at (fpath p : path) (i : N) (l : list rv) : Prop :=
  forall j x, nth_error l j = Some x -> val_at fpath (p ++ [PIdx (i + N.of_nat j)]) x.

Lemma items_at_cons : forall fpath p i x l,
  items_at fpath p i (x :: l) -> val_at fpath (p ++ [PIdx i]) x /\ items_at fpath p (i + 1) l.
Proof.
  intros fpath p i x l Hl. split; [rewrite <- (N.add_0_r i); exact (Hl 0%nat x eq_refl)|].
  intros j x0 Hj. specialize (Hl (S j) x0 Hj). rewrite Nat2N.inj_succ, <- N.add_1_l, N.add_assoc in Hl. exact Hl.
Qed.

Lemma val_field : forall q k v, field_value E (q ++ [PKey k]) = Some v -> val_at (q ++ [PKey k]) (q ++ [PKey k]) v.
Proof.
  intros q k v H. exists q, k, [], v. split; [reflexivity|]. split; [cbn; rewrite app_nil_r; reflexivity|].
  split; [exact H|reflexivity].
Qed.

Lemma asked_value : forall fp o th v, asked E fp = (o, th) -> o = OVal v -> field_value E fp = Some v.
Proof.
  intros fp o th v H ->. unfold asked in H. unfold field_value.
  destruct (en_or E fp); [rewrite H; reflexivity|inversion H; reflexivity].
Qed.

Lemma run_told : forall j, Run E j ->
  match j with
  | Complete _ _ occs fpath p v s r => occs_ok (en_D E) occs -> val_at fpath p v -> nres TT s r
  | Items _ _ occs fpath p l i s r => occs_ok (en_D E) occs -> items_at fpath p i l -> nres (Forall TT) s r
  | Object _ occs p src s r | Invoke _ src _ occs p s _ r => occs_ok (en_D E) occs -> obj_at p src -> nres TT s r
  | Groups _ src g p s r => groups_ok (en_D E) g -> obj_at p src -> nres TTF s r
  | Field _ src _ occs p s r => occs_ok (en_D E) occs -> obj_at p src -> nres TTO s r
  | Outcome _ _ occs p o s r => occs_ok (en_D E) occs -> (forall v, o = OVal v -> val_at p p v) -> nres TT s r
  | Dethunk q s r => TT q -> nres TT s r
  | DList l s r => Forall TT l -> nres (Forall TT) s r
  | DFields l s r => TTF l -> nres TTF s r
  end.
Proof.
  assert (Hnil : forall A (T : A -> Prop) s a, T a -> nres T s (XOk a s)) by (intros; split; [apply newc_refl|assumption]).
  assert (Htc : forall fpath v s s1, s1 = s \/ s1 = add_tcall (fpath, v) s -> newc s s1)
    by (intros fpath v s s1 [->| ->]; apply newc_eq; reflexivity).
  assert (Hcall : forall obj src k occs p s fd fuel args,
            occs_ok (en_D E) occs -> obj_at p src ->
            find_field (first_name occs) (object_fields (en_S E) obj) = Some fd ->
            get_argument_values fuel (en_S E) (f_args fd) (first_args occs) (Some (en_vars E)) = Some args ->
            newc s (after_call E obj src k occs p args s)).
  { intros obj src k occs p s fd fuel args Hoc Hob Hfd Ha.
    exists [field_call obj src k occs p args]. split; [apply after_call_calls|]. constructor; [|constructor]. split.
    - exists occs, fd, fuel. repeat split; try assumption; reflexivity.
    - exists p, k. split; [reflexivity|exact Hob]. }
  apply Run_ind; cbv beta iota.
  - intros t nodes occs fpath p v s [[]|e s'|] _ IH Hoc Hv; try exact (IH Hoc Hv). split; [apply (IH Hoc Hv)|exact I].
  - intros. apply Hnil. constructor.
  - intros. apply Hnil. unfold leaf. destruct (nullish _); constructor.
  - intros. apply Hnil. unfold leaf. destruct (nullish _); constructor.
  - intros t nodes occs fpath p v s s' Hs _ _. split; [exact (Htc _ _ _ _ Hs)|exact I].
  - intros t nodes occs fpath p l s r _ IH Hoc Hv. eapply post_xmap; [|apply IH; [exact Hoc|]].
    + intros ys s'. apply TT_list.
    + intros j x Hx. apply (val_item _ _ l); [exact Hv|]. cbn. rewrite Nat2N.id. exact Hx.
  - intros n rt nodes occs fpath p v s s1 r _ _ Hs _ IH Hoc Hv.
    eapply (post_pre _ _ newc_trans); [exact (Htc _ _ _ _ Hs)|]. apply IH; [exact Hoc|eapply val_obj; exact Hv].
  - intros. apply Hnil. constructor.
  - intros t nodes occs fpath p x l i s r1 e s' _ IH Ec Hoc Hl.
    pose proof (nres_catch _ t _ (IH Hoc (proj1 (items_at_cons _ _ _ _ _ Hl)))) as H. rewrite Ec in H. exact H.
  - intros t nodes occs fpath p x l i s r1 y s' r _ IH Ec _ IH2 Hoc Hl. destruct (items_at_cons _ _ _ _ _ Hl) as [Hx Hl'].
    pose proof (nres_catch _ t _ (IH Hoc Hx)) as H. rewrite Ec in H.
    eapply (post_next _ _ newc_trans); [exact H|exact (IH2 Hoc Hl')|intros; constructor; assumption].
  - intros obj occs p src s fuel g r Eg _ IH Hoc Hob. eapply post_xmap; [|apply IH; [|exact Hob]].
    + intros fs s'. apply TT_obj.
    + eapply collect_all_nodes; [exact Eg| |apply groups_ok_nil].
      intros s0 Hs0. apply in_map_iff in Hs0. destruct Hs0 as [o [<- Ho]].
      apply field_node_sub. unfold occs_ok in Hoc. rewrite Forall_forall in Hoc. apply Hoc. exact Ho.
  - intros. apply Hnil. constructor.
  - intros obj src k occs g p s e s' _ IH Hg Hob. apply IH; [apply (groups_ok_head _ _ _ _ Hg)|exact Hob].
  - intros obj src k occs g p s y s' r _ IH _ IH2 Hg Hob. destruct (groups_ok_head _ _ _ _ Hg) as [Hoc Hrest].
    eapply (post_next _ _ newc_trans); [exact (IH Hoc Hob)|exact (IH2 Hrest Hob)|].
    intros fs s'' _ Hy Hfs. destruct y; [constructor; assumption|exact Hfs].
  - intros. apply Hnil. constructor.
  - intros. apply Hnil. exact I.
  - intros obj src k occs p s fd r1 _ IH Hoc Hob. eapply post_xmap; [|apply nres_catch; exact (IH Hoc Hob)]. auto.
  - intros obj src k occs s fd r1 y s' r _ IH Ec _ _ IHd Hoc Hob.
    pose proof (nres_catch _ (f_type fd) _ (IH Hoc Hob)) as H. rewrite Ec in H.
    eapply (post_next _ _ newc_trans); [exact H|exact (IHd (proj2 H))|]. auto.
  - intros obj src k occs p s fd fuel args o _ Hfd Ha Ho _ Hoc Hob.
    split; [eapply Hcall; eassumption|]. constructor; [exact Hoc|exists p, k; reflexivity|].
    intros v. apply (asked_value _ _ _ _ Ho).
  - intros obj src k occs p s fd fuel args o thunked r _ Hfd Ha Ho _ _ IH Hoc Hob.
    apply nres_escapes. eapply (post_pre _ _ newc_trans); [eapply Hcall; eassumption|]. apply IH; [exact Hoc|].
    intros v Hv. apply val_field. exact (asked_value _ _ _ _ Ho Hv).
  - intros t nodes occs p v s r _ IH Hoc Hv. apply IH; [exact Hoc|]. apply Hv. reflexivity.
  - intros. split; [apply newc_refl|exact I].
  - intros q s _ Hq. apply Hnil. exact Hq.
  - intros l s r _ IH Hq. eapply post_xmap; [|exact (IH (TT_inv _ Hq))]. intros ys s'. apply TT_list.
  - intros l s r _ IH Hq. eapply post_xmap; [|exact (IH (TT_inv _ Hq))]. intros ys s'. apply TT_obj.
  - intros t nodes occs p o s r1 e s' _ IH Ec Hq. destruct (TT_inv _ Hq) as [Hoc [[q0 [k0 ->]] Hfv]].
    pose proof (nres_catch _ t _ (IH Hoc (fun v Hv => val_field _ _ _ (Hfv v Hv)))) as H. rewrite Ec in H. exact H.
  - intros t nodes occs p o s r1 y s' r _ IH Ec _ IHd Hq. destruct (TT_inv _ Hq) as [Hoc [[q0 [k0 ->]] Hfv]].
    pose proof (nres_catch _ t _ (IH Hoc (fun v Hv => val_field _ _ _ (Hfv v Hv)))) as H. rewrite Ec in H.
    eapply (post_pre _ _ newc_trans); [apply H|apply IHd; apply H].
  - intros. apply Hnil. constructor.
  - intros x l s e s' _ IH Hl. exact (IH (Forall_inv Hl)).
  - intros x l s y s' r _ IH _ IH2 Hl.
    eapply (post_next _ _ newc_trans); [exact (IH (Forall_inv Hl))|exact (IH2 (Forall_inv_tail Hl))|intros; constructor; assumption].
  - intros. apply Hnil. constructor.
  - intros k x l s e s' _ IH Hl. exact (IH (Forall_inv Hl)).
  - intros k x l s y s' r _ IH _ IH2 Hl.
    eapply (post_next _ _ newc_trans); [exact (IH (Forall_inv Hl))|exact (IH2 (Forall_inv_tail Hl))|intros; constructor; assumption].
Qed.
End Src.

Theorem request_told : forall fuel S D opn inputs root or tor data s,
  request fuel S D opn inputs root or tor = RDone data s ->
  exists op vars,
    get_operation D opn = Some op /\
    get_variable_values fuel S (o_vars op) inputs = Some (inl vars) /\
    let E := {| en_S := S; en_D := D; en_vars := vars; en_or := or; en_tor := tor;
                en_serial := match o_kind op with OpMutation => true | _ => false end |} in
    Forall (told_ok E root) (st_calls s).
Proof.
  intros fuel S D opn inputs root or tor data s H.
  destruct (request_run _ _ _ _ _ _ _ _ _ _ H) as [op [rt [vars [g [v [Eop [_ [Ev [Ec Hf]]]]]]]]].
  exists op, vars. split; [exact Eop|]. split; [exact Ev|]. cbv zeta.
  match type of Hf with Finished ?E0 _ _ _ _ _ => set (E := E0) in * end.
  assert (Hgo : groups_ok (en_D E) g).
  { eapply collect_nodes; [exact Ec| |apply groups_ok_nil]. apply R_op. eapply get_operation_in. exact Eop. }
  assert (Hroot : obj_at E root [] root) by (left; split; reflexivity).
  assert (Hfin : forall s', newc E root st0 s' -> Forall (told_ok E root) (st_calls s')).
  { intros s' [cs [E1 F1]]. rewrite E1. exact F1. }
  inversion Hf as [fs s1 q s' Hg1 Hd1|e s1 Hg1]; subst; apply Hfin.
  - destruct (run_told E root _ Hg1 Hgo Hroot) as [G1 G2].
    eapply newc_trans; [exact G1|]. exact (proj1 (run_told E root _ Hd1 (TT_obj E fs G2))).
  - apply (run_told E root _ Hg1 Hgo Hroot).
Qed.

(* non-vacuity helper: the decomposition used by src_ok is the one the path itself determines *)
Lemma obj_at_root : forall E root src, obj_at E root [] src -> src = root.
Proof.
  intros E root src [[_ H]|[q [k [idxs [v0 [Hp _]]]]]]; [exact H|].
  exfalso. destruct q; cbn in Hp; discriminate.
Qed.

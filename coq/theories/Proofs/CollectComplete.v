(* Completeness of CollectFields (Exec.collect) through named fragment spreads: every included,
   type-matching occurrence reachable from the selection set (CollectProofs.Occurs) is collected.

   The argument is the closure argument for a depth-first walk with a visited set.  No acyclicity
   of the fragment table is assumed: collect cuts cycles with the visited list, Occurs has finite
   derivations.

   [Closed g V sels] says the selection set is closed one step deep: its included fields are in g,
   its included spreads of existing, matching fragments are in V, and the bodies of its included,
   matching inline fragments are Closed again.  A run of collect from (visited, g) to (g', v')
   establishes
     - Closed g' v' sels, and
     - [extends g visited g' v']: groups and visited list only grow, and Closed g' v' (body of F)
       for every existing, matching fragment F in v' but not in visited (the fragments of [visited]
       are the ones whose walk is still in progress further up; nothing is claimed about them,
       which is where a cycle is cut).  Runs compose ([extends_trans]).
   An induction on a derivation that enters no fragment of [visited] (OccursAvoiding; with
   visited = [] that is Occurs) ends the proof. *)
From Coq Require Import List String Bool.
From GQL Require Import Exec.Syntax Exec.Coerce Exec.Exec Proofs.CollectProofs.
Import ListNotations.
Open Scope string_scope.
Open Scope list_scope.

Section Complete.
Variables (S : schema) (D : document) (vars : list (name * jv)) (obj : name).

Inductive Closed (g : groups) (V : list name) : list selection -> Prop :=
| Closed_intro sels :
    (forall id al nm args ds sub,
        In (SField id al nm args ds sub) sels -> included S ds vars = true ->
        in_group g (key_of al nm) {| oc_id := id; oc_name := nm; oc_args := args; oc_sub := sub |}) ->
    (forall id nm ds f,
        In (SSpread id nm ds) sels -> included S ds vars = true ->
        find_fragment nm (d_frags D) = Some f -> fragment_matches S (Some (fr_cond f)) obj = true ->
        In nm V) ->
    (forall id tc ds sub,
        In (SInline id tc ds sub) sels -> included S ds vars = true ->
        fragment_matches S tc obj = true -> Closed g V sub) ->
    Closed g V sels.

(* with a non-empty visited list: what is reachable without entering a fragment of [visited]
   is collected *)
Inductive OccursAvoiding (V : list name) : list selection -> name -> occ -> Prop :=
| Oa_field sels id al nm args ds sub :
    In (SField id al nm args ds sub) sels -> included S ds vars = true ->
    OccursAvoiding V sels (key_of al nm) {| oc_id := id; oc_name := nm; oc_args := args; oc_sub := sub |}
| Oa_inline sels id tc ds sub k o :
    In (SInline id tc ds sub) sels -> included S ds vars = true -> fragment_matches S tc obj = true ->
    OccursAvoiding V sub k o -> OccursAvoiding V sels k o
| Oa_spread sels id nm ds f k o :
    In (SSpread id nm ds) sels -> included S ds vars = true -> ~ In nm V ->
    find_fragment nm (d_frags D) = Some f -> fragment_matches S (Some (fr_cond f)) obj = true ->
    OccursAvoiding V (fr_sel f) k o -> OccursAvoiding V sels k o.

(* every existing, matching fragment of V that is not in V0 has a Closed body *)
Definition FragsClosed (g : groups) (V V0 : list name) : Prop :=
  forall nm f, In nm V -> ~ In nm V0 ->
    find_fragment nm (d_frags D) = Some f -> fragment_matches S (Some (fr_cond f)) obj = true ->
    Closed g V (fr_sel f).

Lemma Closed_nil : forall g V, Closed g V [].
Proof. intros. constructor; intros; contradiction. Qed.

Lemma Closed_inv_tail : forall g V x sels, Closed g V (x :: sels) -> Closed g V sels.
Proof.
  intros g V x sels H. inversion H as [sels0 Hf Hs Hi]; subst.
  constructor; intros.
  - eapply Hf; [right; eassumption|assumption].
  - eapply Hs; [right; eassumption|eassumption..].
  - eapply Hi; [right; eassumption|assumption..].
Qed.

Local Notation step := (step S D vars obj).

Lemma Closed_cons : forall g V x v rest,
  Closed g V rest ->
  match step x v with
  | Pass v1 => incl v1 V
  | Add k o => in_group g k o
  | Enter body v1 => incl v1 V /\ Closed g V body
  end -> Closed g V (x :: rest).
Proof.
  intros g V x v rest Hr H. inversion Hr as [sels0 Hf Hs Hi]; subst.
  constructor; intros *;
    (intros [->|Hin]; [cbn [CollectProofs.step gstep dirs_of] in H; intros Hinc; rewrite Hinc in H|eauto]).
  - exact H.
  - intros Hfind Hm. cbn [andb] in H. destruct (nmem nm v) eqn:En; cbn [negb] in H.
    + apply H, nmem_In, En.
    + rewrite Hfind, Hm in H. apply (proj1 H). left. reflexivity.
  - intros Hm. rewrite Hm in H. exact (proj2 H).
Qed.

(* what a run from (g, v) to (g', v') does apart from closing the selection set it walks *)
Definition extends (g : groups) (v : list name) (g' : groups) (v' : list name) : Prop :=
  gincl g g' /\ incl v v' /\ FragsClosed g' v' v.

Lemma extends_groups : forall g g' v, gincl g g' -> extends g v g' v.
Proof. intros g g' v H. split; [exact H|]. split; [apply incl_refl|]. intros nm f Hin Hn. contradiction. Qed.

Lemma extends_refl : forall g v, extends g v g v.
Proof. intros g v. apply extends_groups. intros k o H. exact H. Qed.

Lemma Closed_extends : forall g v g' v' sels, extends g v g' v' -> Closed g v sels -> Closed g' v' sels.
Proof.
  intros g v g' v' sels (Hg & Hv & _) H. induction H as [sels Hf Hs Hi IH]. constructor.
  - intros. apply Hg. eapply Hf; eassumption.
  - intros. apply Hv. eapply Hs; eassumption.
  - intros. eapply IH; eassumption.
Qed.

Lemma extends_trans : forall g v g1 v1 g' v',
  extends g v g1 v1 -> extends g1 v1 g' v' -> extends g v g' v'.
Proof.
  intros g v g1 v1 g' v' (Hg1 & Hv1 & Hf1) H2. pose proof H2 as (Hg & Hv & Hf).
  split; [intros k o H; apply Hg, Hg1, H|]. split; [intros a Ha; apply Hv, Hv1, Ha|].
  intros nm f Hin Hn Hfd Hm. destruct (in_dec string_dec nm v1) as [Hi|Hi].
  - apply (Closed_extends _ _ _ _ _ H2), (Hf1 nm f); assumption.
  - apply (Hf nm f); assumption.
Qed.

(* entering a fragment: the names new in v1 are that fragment's, and once its body has been walked
   the body is closed *)
Lemma extends_enter : forall g v v1 body g1 v2,
  incl v v1 ->
  (forall nm f, In nm v1 -> ~ In nm v -> find_fragment nm (d_frags D) = Some f -> body = fr_sel f) ->
  extends g v1 g1 v2 -> Closed g1 v2 body -> extends g v g1 v2.
Proof.
  intros g v v1 body g1 v2 Hvv Hnew (Hg & Hv & Hf) Hb.
  split; [exact Hg|]. split; [intros a Ha; apply Hv, Hvv, Ha|].
  intros nm f Hin Hn Hfd Hm. destruct (in_dec string_dec nm v1) as [Hi|Hi].
  - rewrite <- (Hnew nm f Hi Hn Hfd). exact Hb.
  - apply (Hf nm f); assumption.
Qed.

Lemma step_visited : forall x v,
  match step x v with
  | Pass v1 => forall g, extends g v g v1
  | Add _ _ => True
  | Enter body v1 => incl v v1 /\ forall nm f, In nm v1 -> ~ In nm v -> find_fragment nm (d_frags D) = Some f ->
                                             body = fr_sel f
  end.
Proof.
  intros [id al nm args ds sub|id nm ds|id tc ds sub] v; cbn [CollectProofs.step gstep dirs_of].
  - destruct (included S ds vars); [exact I|intro; apply extends_refl].
  - destruct (included S ds vars && negb (nmem nm v)); [|intro; apply extends_refl].
    destruct (find_fragment nm (d_frags D)) as [f|] eqn:Ef; [|intro; apply extends_refl].
    assert (Hnew : forall nm0 f0, In nm0 (nm :: v) -> ~ In nm0 v -> find_fragment nm0 (d_frags D) = Some f0 -> f0 = f).
    { intros nm0 f0 [<-|Hin] Hn Hf0; [congruence|contradiction]. }
    destruct (fragment_matches S (Some (fr_cond f)) obj) eqn:Em.
    + split; [apply incl_tl, incl_refl|]. intros nm0 f0 Hi Hn Hf0. rewrite (Hnew _ _ Hi Hn Hf0). reflexivity.
    + (* a fragment of another type is marked visited; nothing is claimed about its body *)
      intro g. split; [intros k o H; exact H|]. split; [apply incl_tl, incl_refl|].
      intros nm0 f0 Hi Hn Hf0 Hm. rewrite (Hnew _ _ Hi Hn Hf0), Em in Hm. discriminate.
  - destruct (included S ds vars && fragment_matches S tc obj); [|intro; apply extends_refl].
    split; [apply incl_refl|intros; contradiction].
Qed.

Lemma collect_closed : forall fuel sels visited g g' v',
  collect fuel S D vars obj sels visited g = Some (g', v') ->
  extends g visited g' v' /\ Closed g' v' sels.
Proof.
  apply (collect_ind S D vars obj (fun sels v g g' v' => extends g v g' v' /\ Closed g' v' sels)).
  { intros v g. split; [apply extends_refl|apply Closed_nil]. }
  intros x rest v g g' v' H. pose proof (step_visited x v) as Hx.
  pose proof (Closed_cons g' v' x v rest) as Hcons.
  destruct (step x v) as [v1|k o|body v1].
  - destruct H as [He Hc]. split; [exact (extends_trans _ _ _ _ _ _ (Hx g) He)|].
    apply Hcons; [exact Hc|apply He].
  - destruct H as [He Hc].
    split; [exact (extends_trans _ _ _ _ _ _ (extends_groups _ _ v (add_occ_keeps k o g)) He)|].
    apply Hcons; [exact Hc|]. apply (proj1 He), in_group_add_occ. right. split; reflexivity.
  - destruct H as (g1 & v2 & [He1 Hc1] & [He Hc]). destruct Hx as [Hvv Hnew].
    split; [exact (extends_trans _ _ _ _ _ _ (extends_enter _ _ _ _ _ _ Hvv Hnew He1 Hc1) He)|].
    apply Hcons; [exact Hc|]. split; [|exact (Closed_extends _ _ _ _ _ He Hc1)].
    intros a Ha. apply (proj1 (proj2 He)), (proj1 (proj2 He1)), Ha.
Qed.

Lemma Closed_avoiding : forall g V V0, FragsClosed g V V0 ->
  forall sels k o, OccursAvoiding V0 sels k o -> Closed g V sels -> in_group g k o.
Proof.
  intros g V V0 HF sels k o Ho.
  induction Ho as [sels id al nm args ds sub Hin Hi
                  |sels id tc ds sub k o Hin Hi Hm Hs IHo
                  |sels id nm ds f k o Hin Hi Hn Hf Hm Hs IHo]; intros Hc;
    inversion Hc as [sels0 Cf Cs Ci]; subst.
  - eapply Cf; eassumption.
  - apply IHo. eapply Ci; eassumption.
  - apply IHo. eapply HF; [eapply Cs; eassumption|exact Hn|exact Hf|exact Hm].
Qed.

Lemma OccursAvoiding_nil : forall sels k o,
  Occurs S D vars obj sels k o <-> OccursAvoiding [] sels k o.
Proof.
  intros sels k o. split; intros H.
  - induction H.
    + eapply Oa_field; eassumption.
    + eapply Oa_inline; eassumption.
    + eapply Oa_spread; try eassumption. intros [].
  - induction H.
    + eapply Oc_field; eassumption.
    + eapply Oc_inline; eassumption.
    + eapply Oc_spread; eassumption.
Qed.

Theorem collect_complete_avoiding : forall fuel sels visited g g' v',
  collect fuel S D vars obj sels visited g = Some (g', v') ->
  forall k o, OccursAvoiding visited sels k o -> in_group g' k o.
Proof.
  intros fuel sels visited g g' v' H k o Ho.
  destruct (collect_closed _ _ _ _ _ _ H) as ((_ & _ & Hfr) & Hc). eapply Closed_avoiding; eassumption.
Qed.

Theorem collect_complete : forall fuel sels g' v',
  collect fuel S D vars obj sels [] [] = Some (g', v') ->
  forall k o, Occurs S D vars obj sels k o -> in_group g' k o.
Proof.
  intros fuel sels g' v' H k o Ho. eapply collect_complete_avoiding; [exact H|apply OccursAvoiding_nil, Ho].
Qed.

Lemma collect_complete_direct : forall fuel sels visited g g' v',
  collect fuel S D vars obj sels visited g = Some (g', v') ->
  forall k o, OccursDirect S vars obj sels k o -> in_group g' k o.
Proof.
  intros fuel sels visited g g' v' H k o Ho. eapply collect_complete_avoiding; [exact H|].
  clear H. induction Ho; [eapply Oa_field|eapply Oa_inline]; eassumption.
Qed.

Theorem collect_exact : forall fuel sels g' v',
  collect fuel S D vars obj sels [] [] = Some (g', v') ->
  forall k o, in_group g' k o <-> Occurs S D vars obj sels k o.
Proof.
  intros fuel sels g' v' H k o. split.
  - intros Hin. destruct (collect_sound _ _ _ _ _ _ _ _ _ _ H k o Hin) as [[os [[] _]]|Ho]. exact Ho.
  - eapply collect_complete. exact H.
Qed.

Theorem collect_key_present_iff : forall fuel sels g' v',
  collect fuel S D vars obj sels [] [] = Some (g', v') ->
  forall k, In k (map fst g') <-> exists o, Occurs S D vars obj sels k o.
Proof.
  intros fuel sels g' v' H k. split.
  - (* every key of the groups has an occurrence: add_occ keeps that *)
    intros Hin. assert (Ho : exists o, in_group g' k o); [|destruct Ho as [o Ho]; exists o; apply (collect_exact _ _ _ _ H), Ho].
    revert k Hin.
    refine (collect_rel S D vars obj (fun g g' => (forall k, In k (map fst g) -> exists o, in_group g k o) ->
                                                  forall k, In k (map fst g') -> exists o, in_group g' k o)
                        _ _ _ _ _ _ _ _ _ H _); auto; [|intros k []].
    intros k0 o0 g Hg k Hk. destruct (add_occ_key_in _ _ _ _ Hk) as [->|Hk'].
    + exists o0. apply in_group_add_occ. right. split; reflexivity.
    + destruct (Hg k Hk') as [o Ho]. exists o. apply in_group_add_occ. left. exact Ho.
  - intros [o Ho]. apply (collect_exact _ _ _ _ H) in Ho. destruct Ho as [os [Hin _]].
    apply in_map_iff. exists (k, os). split; [reflexivity|exact Hin].
Qed.

Lemma collect_all_closed : forall fuel sets visited g g',
  collect_all fuel S D vars obj sets visited g = Some g' ->
  exists v', extends g visited g' v' /\ forall s, In s sets -> Closed g' v' s.
Proof.
  intros fuel sets. induction sets as [|s r IH]; intros visited g g' H; cbn [collect_all] in H.
  - inversion H; subst. exists visited. split; [apply extends_refl|intros s []].
  - destruct (collect fuel S D vars obj s visited g) as [[g1 v1]|] eqn:E1; [|discriminate].
    destruct (collect_closed _ _ _ _ _ _ E1) as [He1 Hc1].
    destruct (IH _ _ _ H) as (v' & He & Hc).
    exists v'. split; [exact (extends_trans _ _ _ _ _ _ He1 He)|].
    intros s0 [<-|Hin]; [exact (Closed_extends _ _ _ _ _ He Hc1)|apply Hc, Hin].
Qed.

Lemma collect_all_sound_acc : forall fuel sets visited g g',
  collect_all fuel S D vars obj sets visited g = Some g' ->
  forall k o, in_group g' k o -> in_group g k o \/ exists s, In s sets /\ Occurs S D vars obj s k o.
Proof.
  intros fuel sets. induction sets as [|s r IH]; intros visited g g' H k o Hin; cbn [collect_all] in H.
  - inversion H; subst. left. exact Hin.
  - destruct (collect fuel S D vars obj s visited g) as [[g1 v1]|] eqn:E1; [|discriminate].
    destruct (IH _ _ _ H k o Hin) as [Hg|[s0 [Hs0 Ho]]].
    + destruct (collect_sound _ _ _ _ _ _ _ _ _ _ E1 k o Hg) as [Hg'|Ho]; [left; exact Hg'|].
      right. exists s. split; [left; reflexivity|exact Ho].
    + right. exists s0. split; [right; exact Hs0|exact Ho].
Qed.

Theorem collect_all_exact : forall fuel sets g',
  collect_all fuel S D vars obj sets [] [] = Some g' ->
  forall k o, in_group g' k o <-> exists s, In s sets /\ Occurs S D vars obj s k o.
Proof.
  intros fuel sets g' H k o. split.
  - intros Hin. destruct (collect_all_sound_acc _ _ _ _ _ H k o Hin) as [[os [[] _]]|Ho]. exact Ho.
  - intros [s [Hin Ho]]. destruct (collect_all_closed _ _ _ _ _ H) as (v' & (_ & _ & Hfr) & Hc).
    eapply Closed_avoiding; [exact Hfr|apply OccursAvoiding_nil, Ho|apply Hc, Hin].
Qed.

End Complete.

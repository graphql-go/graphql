(* Properties of CollectFields (Exec.collect): response keys are unique, every collected
   occurrence is an included occurrence reachable from the selection set.

   [step] says what the head selection of a selection set does (nothing, add a field occurrence,
   enter the body of a fragment); [collect_ind] is induction over a finished run in those terms.
   Every fact about collect here and in CollectComplete.v goes through it. *)
From Coq Require Import List String Bool.
From GQL Require Import Exec.Syntax Exec.Coerce Exec.Exec.
Import ListNotations.
Open Scope string_scope.
Open Scope list_scope.

Definition in_group (g : groups) (k : name) (o : occ) : Prop := exists os, In (k, os) g /\ In o os.

Definition key_of (al : option name) (nm : name) : name := match al with Some a => a | None => nm end.

(* the included field occurrences reachable from a selection set for an object of type obj *)
Inductive Occurs (S : schema) (D : document) (vars : list (name * jv)) (obj : name)
  : list selection -> name -> occ -> Prop :=
| Oc_field sels id al nm args ds sub :
    In (SField id al nm args ds sub) sels -> included S ds vars = true ->
    Occurs S D vars obj sels (key_of al nm) {| oc_id := id; oc_name := nm; oc_args := args; oc_sub := sub |}
| Oc_inline sels id tc ds sub k o :
    In (SInline id tc ds sub) sels -> included S ds vars = true -> fragment_matches S tc obj = true ->
    Occurs S D vars obj sub k o -> Occurs S D vars obj sels k o
| Oc_spread sels id nm ds f k o :
    In (SSpread id nm ds) sels -> included S ds vars = true ->
    find_fragment nm (d_frags D) = Some f -> fragment_matches S (Some (fr_cond f)) obj = true ->
    Occurs S D vars obj (fr_sel f) k o -> Occurs S D vars obj sels k o.

Lemma Occurs_tail : forall S D vars obj x sels k o,
  Occurs S D vars obj sels k o -> Occurs S D vars obj (x :: sels) k o.
Proof.
  intros S D vars obj x sels k o H. inversion H; subst.
  - eapply Oc_field; [right; eassumption|assumption].
  - eapply Oc_inline; [right; eassumption|assumption|assumption|assumption].
  - eapply Oc_spread; [right; eassumption|assumption|eassumption|assumption|assumption].
Qed.

Lemma nmem_In : forall k l, nmem k l = true <-> In k l.
Proof.
  intros k l. induction l as [|k' r IH]; cbn [nmem In].
  - split; [discriminate|contradiction].
  - rewrite orb_true_iff, IH, String.eqb_eq. split; intros [H|H]; auto.
Qed.

Lemma find_fragment_in : forall nm fs f, find_fragment nm fs = Some f -> In f fs /\ fr_name f = nm.
Proof.
  intros nm fs f. induction fs as [|f0 r IH]; cbn [find_fragment]; intros Hfind; [discriminate|].
  destruct (String.eqb nm (fr_name f0)) eqn:E.
  - inversion Hfind; subst f0. apply String.eqb_eq in E. split; [left; reflexivity|congruence].
  - destruct (IH Hfind) as [Hin Hn]. split; [right; exact Hin|exact Hn].
Qed.

Definition gincl (g g' : groups) : Prop := forall k o, in_group g k o -> in_group g' k o.

Lemma in_group_cons : forall k0 os0 g k o,
  in_group ((k0, os0) :: g) k o <-> (k = k0 /\ In o os0) \/ in_group g k o.
Proof.
  intros k0 os0 g k o. split.
  - intros [os [[E|Hin] Ho]]; [inversion E; subst; left; split; [reflexivity|exact Ho]|].
    right. exists os. split; assumption.
  - intros [[-> Ho]|[os [Hin Ho]]]; [exists os0; split; [left; reflexivity|exact Ho]|].
    exists os. split; [right; exact Hin|exact Ho].
Qed.

Lemma in_group_add_occ : forall k o g k' o',
  in_group (add_occ k o g) k' o' <-> in_group g k' o' \/ (k' = k /\ o' = o).
Proof.
  intros k o g k' o'. induction g as [|[k0 os0] g IH]; cbn [add_occ].
  - rewrite in_group_cons. cbn [In]. split.
    + intros [[-> [<-|[]]]|[os [[] _]]]. right. split; reflexivity.
    + intros [[os [[] _]]|[-> ->]]. left. split; [reflexivity|left; reflexivity].
  - destruct (String.eqb k k0) eqn:Ek; rewrite !in_group_cons; [|rewrite IH; symmetry; apply or_assoc].
    apply String.eqb_eq in Ek. subst k0. rewrite in_app_iff. cbn [In]. split.
    + intros [[-> [Ho|[<-|[]]]]|Hg]; [left; left; split; [reflexivity|exact Ho]|right; split; reflexivity|].
      left. right. exact Hg.
    + intros [[[-> Ho]|Hg]|[-> ->]]; [left; split; [reflexivity|left; exact Ho]|right; exact Hg|].
      left. split; [reflexivity|right; left; reflexivity].
Qed.

Lemma add_occ_keeps : forall k o g, gincl g (add_occ k o g).
Proof. intros k o g k' o' H. apply in_group_add_occ. left. exact H. Qed.

Lemma add_occ_key_in : forall k o g k',
  In k' (map fst (add_occ k o g)) -> k' = k \/ In k' (map fst g).
Proof.
  intros k o g k'. induction g as [|[k0 os0] g IH]; cbn [add_occ map fst In].
  - intros [<-|[]]. left. reflexivity.
  - destruct (String.eqb k k0); cbn [map fst In]; [intros H; right; exact H|].
    intros [H|H]; [right; left; exact H|]. destruct (IH H) as [E|Hin]; [left; exact E|right; right; exact Hin].
Qed.

Lemma add_occ_keys : forall k o g, NoDup (map fst g) -> NoDup (map fst (add_occ k o g)).
Proof.
  intros k o g. induction g as [|[k0 os0] g IH]; intros H; cbn [add_occ].
  - constructor; [intros []|constructor].
  - destruct (String.eqb k k0) eqn:Ek; [exact H|].
    cbn [map fst] in *. inversion H; subst. constructor; [|apply IH; assumption].
    intro Hin. apply add_occ_key_in in Hin. destruct Hin as [->|Hin]; [|contradiction].
    rewrite String.eqb_refl in Ek. discriminate.
Qed.

Inductive action :=
| Pass (v : list name)                           (* nothing collected; the visited list may grow *)
| Add (k : name) (o : occ)
| Enter (body : list selection) (v : list name).  (* an inline fragment, or a spread not yet visited *)

Definition dirs_of (x : selection) : list directive :=
  match x with SField _ _ _ _ ds _ | SSpread _ _ ds | SInline _ _ ds _ => ds end.

Definition gstep (S : schema) (D : document) (obj : name) (inc : bool) (x : selection) (visited : list name)
  : action :=
  match x with
  | SField id al nm args ds sub =>
    if inc then Add (key_of al nm) {| oc_id := id; oc_name := nm; oc_args := args; oc_sub := sub |}
    else Pass visited
  | SInline id tc ds sub => if inc && fragment_matches S tc obj then Enter sub visited else Pass visited
  | SSpread id nm ds =>
    if inc && negb (nmem nm visited) then
      match find_fragment nm (d_frags D) with
      | None => Pass visited
      | Some f =>
        if fragment_matches S (Some (fr_cond f)) obj then Enter (fr_sel f) (nm :: visited)
        else Pass (nm :: visited)
      end
    else Pass visited
  end.

Section Step.
Variables (S : schema) (D : document) (vars : list (name * jv)) (obj : name).

Definition step (x : selection) (visited : list name) : action :=
  gstep S D obj (included S (dirs_of x) vars) x visited.

Lemma collect_step : forall fuel x rest visited g,
  collect (Datatypes.S fuel) S D vars obj (x :: rest) visited g =
  match step x visited with
  | Pass v => collect fuel S D vars obj rest v g
  | Add k o => collect fuel S D vars obj rest visited (add_occ k o g)
  | Enter body v =>
    match collect fuel S D vars obj body v g with
    | Some (g1, v1) => collect fuel S D vars obj rest v1 g1
    | None => None
    end
  end.
Proof.
  intros fuel [id al nm args ds sub|id nm ds|id tc ds sub] rest visited g; cbn [collect step gstep dirs_of].
  - destruct (included S ds vars); reflexivity.
  - destruct (included S ds vars && negb (nmem nm visited)); [|reflexivity].
    destruct (find_fragment nm (d_frags D)) as [f|]; [|reflexivity].
    destruct (fragment_matches S (Some (fr_cond f)) obj); reflexivity.
  - destruct (included S ds vars && fragment_matches S tc obj); reflexivity.
Qed.

Lemma collect_ind : forall P : list selection -> list name -> groups -> groups -> list name -> Prop,
  (forall v g, P [] v g g v) ->
  (forall x rest v g g' v',
     match step x v with
     | Pass v1 => P rest v1 g g' v'
     | Add k o => P rest v (add_occ k o g) g' v'
     | Enter body v1 => exists g1 v2, P body v1 g g1 v2 /\ P rest v2 g1 g' v'
     end -> P (x :: rest) v g g' v') ->
  forall fuel sels v g g' v', collect fuel S D vars obj sels v g = Some (g', v') -> P sels v g g' v'.
Proof.
  intros P Hnil Hcons. induction fuel as [|fuel IH]; intros sels v g g' v' H; [discriminate|].
  destruct sels as [|x rest]; [inversion H; apply Hnil|].
  rewrite collect_step in H. apply Hcons.
  destruct (step x v) as [v1|k o|body v1]; try (eapply IH; exact H).
  destruct (collect fuel S D vars obj body v1 g) as [[g1 v2]|] eqn:E; [|discriminate].
  exists g1, v2. split; eapply IH; eassumption.
Qed.

Lemma step_occurs : forall x rest v,
  match step x v with
  | Pass _ => True
  | Add k o => Occurs S D vars obj (x :: rest) k o
  | Enter body _ => forall k o, Occurs S D vars obj body k o -> Occurs S D vars obj (x :: rest) k o
  end.
Proof.
  intros [id al nm args ds sub|id nm ds|id tc ds sub] rest v; cbn [step gstep dirs_of].
  - destruct (included S ds vars) eqn:Ei; [|exact I]. eapply Oc_field; [left; reflexivity|exact Ei].
  - destruct (included S ds vars) eqn:Ei; [|exact I]. destruct (negb (nmem nm v)); [|exact I]. cbn [andb].
    destruct (find_fragment nm (d_frags D)) as [f|] eqn:Ef; [|exact I].
    destruct (fragment_matches S (Some (fr_cond f)) obj) eqn:Em; [|exact I].
    intros k o. eapply Oc_spread; [left; reflexivity|exact Ei|exact Ef|exact Em].
  - destruct (included S ds vars) eqn:Ei; [|exact I].
    destruct (fragment_matches S tc obj) eqn:Em; [|exact I].
    intros k o. eapply Oc_inline; [left; reflexivity|exact Ei|exact Em].
Qed.

(* a run only extends the groups by add_occ: whatever add_occ preserves, a run preserves *)
Lemma collect_rel : forall R : groups -> groups -> Prop,
  (forall g, R g g) -> (forall g1 g2 g3, R g1 g2 -> R g2 g3 -> R g1 g3) -> (forall k o g, R g (add_occ k o g)) ->
  forall fuel sels v g g' v', collect fuel S D vars obj sels v g = Some (g', v') -> R g g'.
Proof.
  intros R Hrefl Htrans Hadd. apply (collect_ind (fun _ _ g g' _ => R g g')); [intros; apply Hrefl|].
  intros x rest v g g' v' H. destruct (step x v) as [v1|k o|body v1]; [exact H| |].
  - eapply Htrans; [apply Hadd|exact H].
  - destruct H as (g1 & v2 & H1 & H2). eapply Htrans; eassumption.
Qed.
End Step.

Lemma collect_keys_nodup : forall fuel S D vars obj sels visited g g' v',
  collect fuel S D vars obj sels visited g = Some (g', v') -> NoDup (map fst g) -> NoDup (map fst g').
Proof.
  intros fuel S D vars obj. revert fuel.
  apply (collect_rel S D vars obj (fun g g' => NoDup (map fst g) -> NoDup (map fst g'))); auto using add_occ_keys.
Qed.

Lemma collect_sound : forall fuel S D vars obj sels visited g g' v',
  collect fuel S D vars obj sels visited g = Some (g', v') ->
  forall k o, in_group g' k o -> in_group g k o \/ Occurs S D vars obj sels k o.
Proof.
  intros fuel S D vars obj. revert fuel.
  apply (collect_ind S D vars obj (fun sels _ g g' _ =>
           forall k o, in_group g' k o -> in_group g k o \/ Occurs S D vars obj sels k o));
    [intros; left; assumption|].
  intros x rest v g g' v' H k o Hin. pose proof (step_occurs S D vars obj x rest v) as Hx.
  destruct (step S D vars obj x v) as [v1|k0 o0|body v1].
  - destruct (H k o Hin) as [Hg|Hr]; [left; exact Hg|right; apply Occurs_tail, Hr].
  - destruct (H k o Hin) as [Hg|Hr]; [|right; apply Occurs_tail, Hr].
    apply in_group_add_occ in Hg. destruct Hg as [Hg|[-> ->]]; [left; exact Hg|right; exact Hx].
  - destruct H as (g1 & v2 & Hb & Hr).
    destruct (Hr k o Hin) as [Hg|Ho]; [|right; apply Occurs_tail, Ho].
    destruct (Hb k o Hg) as [Hg'|Ho]; [left; exact Hg'|right; apply Hx, Ho].
Qed.

(* completeness for occurrences that are reached without a named fragment spread *)
Inductive OccursDirect (S : schema) (vars : list (name * jv)) (obj : name)
  : list selection -> name -> occ -> Prop :=
| Od_field sels id al nm args ds sub :
    In (SField id al nm args ds sub) sels -> included S ds vars = true ->
    OccursDirect S vars obj sels (key_of al nm) {| oc_id := id; oc_name := nm; oc_args := args; oc_sub := sub |}
| Od_inline sels id tc ds sub k o :
    In (SInline id tc ds sub) sels -> included S ds vars = true -> fragment_matches S tc obj = true ->
    OccursDirect S vars obj sub k o -> OccursDirect S vars obj sels k o.

(* C10: the default-value sentence.  For every well-typed default (wt_default) the literal that
   astFromValue builds prints to a text that the library's lexer and parser read back as that
   literal, and coercing the literal against the same type gives back the configured value.
   Then: the description the resolvers' model reports is an exact description by the Spec. *)
From Coq Require Import List NArith ZArith Bool Lia Permutation String.
From GQL Require Import Base.Bytes Types.Schema Types.Consistent Types.Literal Types.Introspection
  Proofs.TypesNames Proofs.TypesRoundtrip Proofs.TypesNumbers Proofs.TypesLiteral.
Import ListNotations.
Open Scope string_scope.
Open Scope N_scope.

Lemma same_list_unfold : forall x y, same_value (VList x) (VList y) =
  (fix go (x y : list value) : bool :=
     match x, y with [], [] => true | u :: x', w :: y' => same_value u w && go x' y' | _, _ => false end) x y.
Proof. reflexivity. Qed.

Lemma same_list_cons : forall u x w y, same_value (VList (u :: x)) (VList (w :: y)) = same_value u w && same_value (VList x) (VList y).
Proof. reflexivity. Qed.

Lemma same_obj_cons : forall n u x m w y,
  same_value (VObj ((n, u) :: x)) (VObj ((m, w) :: y)) = bytes_eqb n m && same_value u w && same_value (VObj x) (VObj y).
Proof. reflexivity. Qed.

Lemma lit_eqb_list_cons : forall u x w y, lit_eqb (LList (u :: x)) (LList (w :: y)) = lit_eqb u w && lit_eqb (LList x) (LList y).
Proof. reflexivity. Qed.
Lemma lit_eqb_obj_cons : forall n u x m w y,
  lit_eqb (LObj ((n, u) :: x)) (LObj ((m, w) :: y)) = bytes_eqb n m && lit_eqb u w && lit_eqb (LObj x) (LObj y).
Proof. reflexivity. Qed.

Lemma lit_eqb_refl : forall l, lit_eqb l l = true.
Proof.
  induction l as [lx|lx|b|b|n|vs IH|fs IH] using lit_ind'.
  - apply bytes_eqb_refl.
  - apply bytes_eqb_refl.
  - apply bytes_eqb_refl.
  - destruct b; reflexivity.
  - apply bytes_eqb_refl.
  - induction IH as [|v r Hv _ IHr]; [reflexivity|]. rewrite lit_eqb_list_cons, Hv. exact IHr.
  - induction IH as [|[n v] r Hv _ IHr]; [reflexivity|]. rewrite lit_eqb_obj_cons, bytes_eqb_refl. cbn [snd] in Hv. rewrite Hv. exact IHr.
Qed.

Lemma float_ok_digits : forall neg d r dp, float_ok neg (d :: r) dp = true -> fdigits_ok (d :: r).
Proof.
  intros neg d r dp H. unfold float_ok in H. rewrite !andb_true_iff, !negb_true_iff, !N.eqb_neq in H.
  destruct H as [[[[[Hd Hl] Hall] _] _] _]. split; [exists d, r; repeat split; assumption|exact Hall].
Qed.

Lemma num_lit_wf : forall lx, num_lexeme_ok lx (floaty lx) = true -> lit_wf (num_lit lx) = true.
Proof. intros lx H. unfold num_lit. destruct (floaty lx); exact H. Qed.

Lemma coerce_float_num_lit : forall lx, coerce_scalar (s "Float") (num_lit lx) =
  let '(neg, ds, dp) := float_of_lexeme lx in Some (VFloat neg ds dp).
Proof. intro lx. unfold num_lit. destruct (floaty lx); reflexivity. Qed.

Lemma same_float_refl : forall n ds dp, same_value (VFloat n ds dp) (VFloat n ds dp) = true.
Proof. intros. cbn [same_value]. rewrite eqb_reflx, bytes_eqb_refl, Z.eqb_refl. reflexivity. Qed.

Definition rt (v : value) (ol : option lit) (co : lit -> option value) : Prop :=
  exists l v', ol = Some l /\ lit_wf l = true /\ co l = Some v' /\ same_value v v' = true.

Lemma scalar_roundtrip : forall nm v, wt_scalar nm v = true ->
  v <> VNull /\ rt v (scalar_lit (bytes_eqb nm (s "Float")) v) (coerce_scalar nm).
Proof.
  intros nm v H. unfold wt_scalar in H.
  destruct (bytes_eqb nm (s "Int")) eqn:EI.
  { apply bytes_eqb_eq in EI. subst nm. destruct v as [|z|n ds dp|b|b|l|kv]; try discriminate H.
    split; [discriminate|]. exists (LInt (dec_Z z)), (VInt z). split; [reflexivity|]. split; [apply dec_Z_int_token|].
    split; [|cbn [same_value]; apply Z.eqb_refl].
    change (coerce_scalar (s "Int") (LInt (dec_Z z))) with (let z' := Z_of_dec (dec_Z z) in if in_int32 z' then Some (VInt z') else None).
    rewrite Z_of_dec_Z. cbv zeta. rewrite H. reflexivity. }
  destruct (bytes_eqb nm (s "Float")) eqn:EF.
  { apply bytes_eqb_eq in EF. subst nm. destruct v as [|z|n ds dp|b|b|l|kv]; try discriminate H.
    - split; [discriminate|].
      destruct (float_of_Z z) as [[n ds] dp] eqn:EZ.
      exists (LFloat (dec_Z z ++ [46; 48])%list), (VFloat n ds dp). split; [reflexivity|]. split; [apply dec_Z_dot0_float_token|]. split.
      + change (coerce_scalar (s "Float") (LFloat (dec_Z z ++ [46; 48])%list))
          with (let '(neg, ds, dp) := float_of_lexeme (dec_Z z ++ [46; 48])%list in Some (VFloat neg ds dp)).
        rewrite float_of_int_dot0, EZ. reflexivity.
      + cbn [same_value]. rewrite EZ. rewrite eqb_reflx, bytes_eqb_refl, Z.eqb_refl. reflexivity.
    - split; [discriminate|]. exists (num_lit (fmt_g n ds dp)), (VFloat n ds dp). split; [reflexivity|].
      destruct ds as [|d r].
      + cbn [float_ok] in H. apply andb_true_iff in H. destruct H as [Hn Hp]. apply negb_true_iff in Hn. apply Z.eqb_eq in Hp. subst.
        split; [reflexivity|]. split; reflexivity.
      + pose proof (float_ok_digits _ _ _ _ H) as Hd.
        split; [apply num_lit_wf; apply (fmt_g_token n (d :: r) dp Hd)|]. split; [|apply same_float_refl].
        rewrite coerce_float_num_lit. rewrite (fmt_g_read n (d :: r) dp Hd). reflexivity. }
  destruct (bytes_eqb nm (s "Boolean")) eqn:EB.
  { apply bytes_eqb_eq in EB. subst nm. destruct v as [|z|n ds dp|b|b|l|kv]; try discriminate H.
    split; [discriminate|]. exists (LBool b), (VBool b). repeat split. cbn [same_value]. destruct b; reflexivity. }
  destruct (bytes_eqb nm (s "String") || bytes_eqb nm (s "ID")) eqn:ES; [|discriminate H].
  destruct v as [|z|n ds dp|b|b|l|kv]; try discriminate H.
  split; [discriminate|]. exists (LStr b), (VStr b). split; [reflexivity|]. split; [exact H|].
  split; [|cbn [same_value]; apply bytes_eqb_refl].
  unfold coerce_scalar. rewrite EI, EF, EB. destruct (bytes_eqb nm (s "String")); [reflexivity|]. cbn [orb] in ES. rewrite ES. reflexivity.
Qed.

Lemma list_roundtrip (f : value -> option lit) (g : lit -> option value) : forall l,
  Forall (fun x => rt x (f x) g) l ->
  forallb lit_wf (filter_some (map f l)) = true /\
  exists vs, all_some (map g (filter_some (map f l))) = Some vs /\ same_value (VList l) (VList vs) = true.
Proof.
  induction l as [|x r IH]; intro H.
  - split; [reflexivity|]. exists []. split; reflexivity.
  - inversion H as [|x' l' (y & v' & Hf & Hw & Hg & Hs) Hr]; subst. destruct (IH Hr) as (W & vs & Ha & Hsv).
    cbn [map]. rewrite Hf. cbn [filter_some map forallb all_some]. rewrite Hw, W, Hg, Ha. split; [reflexivity|].
    exists (v' :: vs). split; [reflexivity|]. rewrite same_list_cons, Hs, Hsv. reflexivity.
Qed.

Lemma in_filter_some {A} (x : A) : forall l, In x (filter_some l) <-> In (Some x) l.
Proof.
  induction l as [|[y|] r IH]; cbn [filter_some In]; [tauto| |].
  - rewrite IH. split; intros [E|H]; auto; left; congruence.
  - rewrite IH. split; [auto|intros [E|H]; [discriminate|exact H]].
Qed.

Lemma assoc_filter_map {A B} (G : name * A -> option B) : forall (sfs : list (name * A)) fd,
  NoDup (map fst sfs) -> In fd sfs ->
  assoc_name (fst fd) (filter_some (map (fun e => match G e with Some y => Some (fst e, y) | None => None end) sfs)) = G fd.
Proof.
  induction sfs as [|e r IH]; intros fd Hnd Hin; [contradiction|].
  cbn [map] in Hnd. inversion Hnd as [|? ? Hni Hnd']; subst. cbn [map filter_some].
  destruct Hin as [->|Hin].
  - destruct (G fd) as [y|] eqn:Eg.
    + cbn [filter_some assoc_name]. rewrite bytes_eqb_refl. reflexivity.
    + cbn [filter_some]. apply assoc_name_notin. intro Hx. apply Hni.
      apply in_map_iff in Hx. destruct Hx as [[n y] [Hn Hy]]. cbn [fst] in Hn. subst n.
      apply in_filter_some, in_map_iff in Hy. destruct Hy as (e & He & Hin).
      destruct (G e); inversion He. apply in_map. exact Hin.
  - assert (Hne : fst e <> fst fd) by (intro Heq; apply Hni; rewrite Heq; apply in_map; exact Hin).
    destruct (G e) as [y|]; cbn [filter_some assoc_name].
    + rewrite (bytes_eqb_false _ _ Hne). exact (IH fd Hnd' Hin).
    + exact (IH fd Hnd' Hin).
Qed.

Section Fields.
  Variables (wt : tref -> value -> bool) (dflt : name -> option value)
            (ast : tref -> value -> option lit) (co : tref -> lit -> option value).
  Hypothesis Hrt : forall t v, wt t v = true -> rt v (ast t v) (co t).
  Hypothesis Hnull : forall t, ast t VNull = None.

  Lemma wt_fields_keys : forall sfs kv, wt_fields wt dflt sfs kv = true -> incl (map fst kv) (map fst sfs).
  Proof.
    induction sfs as [|[fn ft] r IH]; intros kv H; cbn [wt_fields] in H.
    - destruct kv; [intros x []|discriminate].
    - destruct kv as [|[k x] kv'].
      + intros y [].
      + destruct (bytes_eqb k fn) eqn:E.
        * apply bytes_eqb_eq in E. subst k. apply andb_true_iff in H. destruct H as [_ H].
          intros y [Hy|Hy]; [left; exact Hy|right; exact (IH kv' H y Hy)].
        * destruct (dflt fn); [discriminate|]. intros y Hy. right. exact (IH _ H y Hy).
  Qed.

  (* The type's fields and the map are walked together.  L and M stand for the
     lookups in the whole map and in the whole object literal: on the fields
     still to come they agree with the lookups in what is left of the map. *)
  Variables (L : name -> value) (M : name -> option lit).
  Let lits (sfs : list (name * tref)) : list (name * lit) :=
    filter_some (map (fun fd => match ast (snd fd) (L (fst fd)) with Some l => Some (fst fd, l) | None => None end) sfs).
  Let vals (sfs : list (name * tref)) : list (name * value) :=
    filter_some (map (fun fd =>
       match (match M (fst fd) with Some x => co (snd fd) x | None => None end) with
       | Some v => Some (fst fd, v)
       | None => match dflt (fst fd) with Some dv => Some (fst fd, dv) | None => None end
       end) sfs).

  Lemma fields_roundtrip : forall sfs kv,
    NoDup (map fst sfs) -> wt_fields wt dflt sfs kv = true ->
    (forall fd, In fd sfs -> L (fst fd) = lookup_or_null (fst fd) kv /\ M (fst fd) = ast (snd fd) (L (fst fd))) ->
    forallb (fun f => name_lexeme_ok (fst f) && lit_wf (snd f)) (lits sfs) = true
    /\ same_value (VObj kv) (VObj (vals sfs)) = true.
  Proof.
    induction sfs as [|[fn ft] r IH]; intros kv Hnd Hwt HL; cbn [wt_fields] in Hwt.
    - destruct kv; [split; reflexivity|discriminate].
    - cbn [map] in Hnd. inversion Hnd as [|? ? Hni Hnd']; subst.
      destruct (HL (fn, ft) (or_introl eq_refl)) as [EL EM]. cbn [fst snd] in EL, EM. unfold lookup_or_null in EL.
      assert (Hskip : dflt fn = None -> wt_fields wt dflt r kv = true ->
                forallb (fun f => name_lexeme_ok (fst f) && lit_wf (snd f)) (lits ((fn, ft) :: r)) = true
                /\ same_value (VObj kv) (VObj (vals ((fn, ft) :: r))) = true).
      { intros Hd Hr. rewrite (assoc_name_notin kv fn) in EL by (intro Hin; exact (Hni (wt_fields_keys r kv Hr fn Hin))).
        unfold lits, vals. cbn [map filter_some fst snd]. rewrite EM, EL, Hnull, Hd.
        apply (IH kv Hnd' Hr). intros fd Hin. exact (HL fd (or_intror Hin)). }
      destruct kv as [|[k x] kv'].
      + destruct (dflt fn); [discriminate|]. exact (Hskip eq_refl Hwt).
      + destruct (bytes_eqb k fn) eqn:E; [|destruct (dflt fn); [discriminate|exact (Hskip eq_refl Hwt)]].
        apply bytes_eqb_eq in E. subst k.
        apply andb_true_iff in Hwt. destruct Hwt as [Hwt Hr]. apply andb_true_iff in Hwt. destruct Hwt as [Hname Hw].
        cbn [assoc_name] in EL. rewrite bytes_eqb_refl in EL.
        destruct (Hrt ft x Hw) as (l & v' & El & Wl & Hc & Hs).
        destruct (IH kv' Hnd' Hr) as [W S].
        { intros fd Hin. destruct (HL fd (or_intror Hin)) as [E1 E2]. split; [|exact E2].
          rewrite E1. unfold lookup_or_null. cbn [assoc_name]. rewrite bytes_eqb_false; [reflexivity|].
          intro Heq. apply Hni. rewrite Heq. exact (in_map fst _ _ Hin). }
        unfold lits, vals in *. cbn [map filter_some fst snd]. rewrite EM, EL, El, Hc. cbn [forallb fst snd]. rewrite Hname, Wl, W.
        split; [reflexivity|]. rewrite same_obj_cons, bytes_eqb_refl, Hs. exact S.
  Qed.
End Fields.

Lemma obj_roundtrip wt dflt ast co : (forall t v, wt t v = true -> rt v (ast t v) (co t)) -> (forall t, ast t VNull = None) ->
  forall sfs kv, NoDup (map fst sfs) -> wt_fields wt dflt sfs kv = true ->
    lit_wf (LObj (obj_lit ast sfs kv)) = true
    /\ same_value (VObj kv) (VObj (obj_val co dflt sfs (obj_lit ast sfs kv))) = true.
Proof.
  intros Hrt Hnull sfs kv Hnd Hwt.
  apply (fields_roundtrip wt dflt ast co Hrt Hnull (fun n => lookup_or_null n kv) (fun n => assoc_name n (obj_lit ast sfs kv)) sfs kv Hnd Hwt).
  intros fd Hin. split; [reflexivity|].
  exact (assoc_filter_map (fun fd => ast (snd fd) (lookup_or_null (fst fd) kv)) sfs fd Hnd Hin).
Qed.

Lemma index_of_nth' : forall names n k idx, NoDup names -> nth_error names idx = Some n ->
  index_of n names k = Some (k + Z.of_nat idx)%Z.
Proof.
  induction names as [|m r IH]; intros n k idx Hnd Hn; destruct idx; simpl in *; try discriminate.
  - inversion Hn; subst. rewrite bytes_eqb_refl. f_equal. lia.
  - inversion Hnd as [|x l Hni Hnd']; subst.
    destruct (bytes_eqb m n) eqn:E.
    + apply bytes_eqb_eq in E. subst. exfalso. apply Hni. exact (nth_error_In _ _ Hn).
    + rewrite (IH n (k + 1)%Z idx Hnd' Hn). f_equal. lia.
Qed.

Lemma ast_null : forall fuel ts t, ast_from_value fuel ts t VNull = None.
Proof.
  induction fuel as [|f IH]; intros ts t; [reflexivity|]. cbn [ast_from_value]. destruct t; try reflexivity. apply IH.
Qed.

Lemma default_roundtrip : forall fuel ts D t v, wt_default fuel ts D t v = true ->
  rt v (ast_from_value fuel ts t v) (coerce fuel ts D t).
Proof.
  induction fuel as [|f IH]; intros ts D t v H; [discriminate|].
  cbn [wt_default] in H. destruct t as [|i|t|t].
  - discriminate.
  - destruct (vfind ts i) as [vt|] eqn:Ev; [|discriminate].
    destruct (vt_def vt) as [|ifs fs|fs|ms|names|fs|] eqn:Ed; try discriminate.
    + destruct (scalar_roundtrip (vt_name vt) v H) as [Hnn (l & v' & El & Wl & Hc & Hs)].
      exists l, v'. split; [|split; [exact Wl|split; [|exact Hs]]].
      * cbn [ast_from_value]. rewrite Ev, Ed. unfold is_float_type. rewrite Ed.
        destruct v; try (contradiction Hnn; reflexivity); exact El.
      * cbn [coerce]. rewrite Ev, Ed. exact Hc.
    + destruct v as [|z|n ds dp|b|b|l|kv]; try discriminate.
      apply andb_true_iff in H. destruct H as [H Hn]. apply andb_true_iff in H. destruct H as [Hz Hnd].
      destruct (nth_error names (Z.to_nat (z - 1))) as [n|] eqn:En; [|discriminate].
      exists (LEnum n), (VInt z). split; [|split; [exact Hn|split]].
      * cbn [ast_from_value]. rewrite Ev, Ed, En, Hz. reflexivity.
      * cbn [coerce]. rewrite Ev, Ed.
        rewrite (index_of_nth' names n 1%Z _ (proj1 (nodup_names_sound names) Hnd) En).
        apply Z.ltb_lt in Hz. f_equal. f_equal. lia.
      * cbn [same_value]. apply Z.eqb_refl.
    + destruct v as [|z|n ds dp|b|b|l|kv]; try discriminate.
      apply andb_true_iff in H. destruct H as [Hnd Hf].
      assert (Hnd' : NoDup (map fst (sort_name fst fs))).
      { apply (Permutation_NoDup (l := map fst fs)); [apply Permutation_sym; apply Permutation_map; apply sort_name_perm|].
        apply nodup_names_sound. exact Hnd. }
      destruct (obj_roundtrip (wt_default f ts D) (ifield_default D i) (ast_from_value f ts) (coerce f ts D)
                  (fun t0 v0 Hw => IH ts D t0 v0 Hw) (ast_null f ts) (sort_name fst fs) kv Hnd' Hf) as [W S].
      exists (LObj (obj_lit (ast_from_value f ts) (sort_name fst fs) kv)),
             (VObj (obj_val (coerce f ts D) (ifield_default D i) (sort_name fst fs) (obj_lit (ast_from_value f ts) (sort_name fst fs) kv))).
      split; [|split; [exact W|split; [|exact S]]].
      * cbn [ast_from_value]. rewrite Ev, Ed. reflexivity.
      * cbn [coerce]. rewrite Ev, Ed. reflexivity.
  - destruct v as [|z|n ds dp|b|b|l|kv]; try discriminate.
    assert (Hall : Forall (fun x => rt x (ast_from_value f ts t x) (coerce f ts D t)) l).
    { apply Forall_forall. intros x Hx. apply IH. rewrite forallb_forall in H. exact (H x Hx). }
    destruct (list_roundtrip _ _ l Hall) as (W & vs & Ha & Hs).
    exists (LList (filter_some (map (ast_from_value f ts t) l))), (VList vs).
    split; [reflexivity|]. split; [exact W|]. split; [|exact Hs].
    cbn [coerce]. rewrite Ha. reflexivity.
  - destruct (IH ts D t v H) as (l & v' & El & Wl & Hc & Hs). exists l, v'. repeat split; assumption.
Qed.

(* the property's sentence: print, parse and coerce give back the configured default *)
Theorem default_literal_roundtrip : forall fuel ts D t v, wt_default fuel ts D t v = true ->
  exists l v', ast_from_value fuel ts t v = Some l
    /\ parse_lit (print_lit l) = Some l
    /\ coerce fuel ts D t l = Some v' /\ same_value v v' = true.
Proof.
  intros fuel ts D t v H. destruct (default_roundtrip fuel ts D t v H) as (l & v' & El & Wl & Hc & Hs).
  exists l, v'. split; [exact El|]. split; [exact (parse_print_lit l Wl)|]. split; assumption.
Qed.

Lemma dref_eqb_refl : forall d, dref_eqb d d = true.
Proof. induction d; cbn [dref_eqb]; auto. rewrite !bytes_eqb_refl. reflexivity. Qed.

Lemma list_match_map {A} (m : A -> A -> bool) (g : A -> A) (wt : A -> bool) : forall l,
  (forall x, wt x = true -> m x (g x) = true) -> forallb wt l = true -> list_match m l (map g l) = true.
Proof.
  induction l as [|x r IH]; intros H W; [reflexivity|]. cbn [forallb] in W. apply andb_true_iff in W.
  cbn [map list_match]. rewrite (H x (proj1 W)). exact (IH H (proj2 W)).
Qed.

Lemma list_match_refl {A} (m : A -> A -> bool) : (forall x, m x x = true) -> forall l, list_match m l l = true.
Proof. intros H l. induction l as [|x r IH]; [reflexivity|]. cbn [list_match]. rewrite H. exact IH. Qed.

Lemma opt_match_map {A} (m : A -> A -> bool) (g : A -> A) o :
  (forall x, o = Some x -> m x (g x) = true) -> opt_match m o (option_map g o) = true.
Proof. destruct o as [x|]; intro H; [exact (H x eq_refl)|reflexivity]. Qed.

Lemma opt_match_refl {A} (m : A -> A -> bool) : (forall x, m x x = true) -> forall o, opt_match m o o = true.
Proof. intros H [x|]; [apply H|reflexivity]. Qed.

Opaque lit_fuel.

Section Exact.
  Variable spec : bool.
  Variable ts : list vtype.
  Variable D : decor.

  Lemma default_exact : forall e, default_wt ts D e = true -> default_match spec ts D e (resolve_default ts e) = true.
  Proof.
    intros [|t v|text p] H; cbn [default_wt] in H; [reflexivity| |discriminate].
    destruct (default_roundtrip lit_fuel ts D t v H) as (l & v' & El & Wl & Hc & Hs).
    cbn [resolve_default]. rewrite El. cbn [default_match]. rewrite (parse_print_lit l Wl). destruct spec.
    - rewrite Hc. exact Hs.
    - rewrite El, bytes_eqb_refl, lit_eqb_refl. reflexivity.
  Qed.

  Lemma input_exact : forall i, default_wt ts D (di_default i) = true -> input_match spec ts D i (resolve_input ts i) = true.
  Proof.
    intros i H. unfold input_match, resolve_input. cbn [di_name di_desc di_type di_default].
    rewrite !bytes_eqb_refl, dref_eqb_refl, (default_exact _ H). reflexivity.
  Qed.

  Lemma inputs_exact : forall l, forallb (fun i => default_wt ts D (di_default i)) l = true ->
    list_match (input_match spec ts D) l (map (resolve_input ts) l) = true.
  Proof. intro l. apply list_match_map. exact input_exact. Qed.

  Lemma field_exact : forall f, field_wt ts D f = true -> field_match spec ts D f (resolve_field ts f) = true.
  Proof.
    intros f H. unfold field_match, resolve_field. cbn [df_name df_desc df_args df_type df_isdep df_reason].
    rewrite !bytes_eqb_refl, dref_eqb_refl, eqb_reflx, (opt_match_refl _ bytes_eqb_refl), (inputs_exact _ H). reflexivity.
  Qed.

  Lemma enum_exact : forall e, enum_match e e = true.
  Proof. intro e. unfold enum_match. rewrite !bytes_eqb_refl, eqb_reflx, (opt_match_refl _ bytes_eqb_refl). reflexivity. Qed.

  Lemma type_exact : forall t, type_wt ts D t = true -> type_match spec ts D t (resolve_type ts t) = true.
  Proof.
    intros t H. unfold type_wt in H. apply andb_true_iff in H. destruct H as [Hf Hi].
    unfold type_match, resolve_type. cbn [dt_kind dt_name dt_desc dt_fields dt_interfaces dt_possible dt_enums dt_inputs].
    rewrite !bytes_eqb_refl, !(opt_match_refl _ (list_match_refl _ dref_eqb_refl)), (opt_match_refl _ (list_match_refl _ enum_exact)).
    rewrite !opt_match_map; [reflexivity|..].
    - intros l E. rewrite E in Hi. exact (inputs_exact l Hi).
    - intros fs E. rewrite E in Hf. exact (list_match_map _ _ _ fs field_exact Hf).
  Qed.

  Lemma directive_exact : forall d, forallb (fun i => default_wt ts D (di_default i)) (ddr_args d) = true ->
    directive_match spec ts D d (resolve_directive ts d) = true.
  Proof.
    intros d H. unfold directive_match, resolve_directive. cbn [ddr_name ddr_desc ddr_locs ddr_args].
    rewrite !bytes_eqb_refl, (inputs_exact _ H). cbn [andb]. rewrite andb_true_r.
    apply list_match_refl. exact bytes_eqb_refl.
  Qed.
End Exact.

Theorem model_exact : forall spec V D, description_wt (v_types V) D (describe V D) = true ->
  matches spec (v_types V) D (describe V D) (introspect V D) = true.
Proof.
  intros spec V D H. unfold description_wt in H. apply andb_true_iff in H. destruct H as [Ht Hd].
  unfold matches, introspect. cbn [d_types d_query d_mutation d_subscription d_directives].
  rewrite !(opt_match_refl _ bytes_eqb_refl).
  rewrite (list_match_map _ _ _ _ (type_exact spec (v_types V) D) Ht), (list_match_map _ _ _ _ (directive_exact spec (v_types V) D) Hd).
  reflexivity.
Qed.

(* C04, isolation of sibling fields (non-interference).
   A failure -- or any other change of resolver behaviour -- below one field of a selection set
   does not alter what the sibling fields produce, as long as no failure escapes the selection
   set itself (which would null the enclosing position, siblings included).

   One simulation (exec_sim), by induction on fuel over the four mutually recursive functions of
   Exec/Exec.v: an execution at path p does not read the state it extends, and consults the
   resolver oracle only below p (the dethunk pass: below the deferred values it forces).  So
   under two oracles that agree there, run from [sapp s d] and from [d], it yields the same
   result with [s] put in front of the state ([xlift]).  Isolation follows entry by entry: a
   field whose key is not the one the two oracles disagree under is one run seen from two
   states; the fields of the differing key only record errors / calls under their own path. *)
From Coq Require Import List ZArith NArith String Bool.
From GQL Require Import Exec.Syntax Exec.Coerce Exec.Exec Exec.Request
     Proofs.ExecField Proofs.ExecInv Proofs.ExecPaths Proofs.ExecSerial.
Import ListNotations.
Open Scope string_scope.
Open Scope list_scope.

(* the state s followed by the increment d *)
Definition sapp (s d : st) : st :=
  {| st_errs := st_errs s ++ st_errs d; st_calls := st_calls s ++ st_calls d;
     st_tcalls := st_tcalls s ++ st_tcalls d; st_missing := st_missing s ++ st_missing d;
     st_escape := st_escape s || st_escape d |}.

Lemma sapp_st0_r : forall s, sapp s st0 = s.
Proof. intros [e c t m x]. unfold sapp. cbn. rewrite !app_nil_r, orb_false_r. reflexivity. Qed.
Lemma sapp_st0_l : forall d, sapp st0 d = d.
Proof. intros []. reflexivity. Qed.

Lemma sapp_add_err : forall e s d, add_err e (sapp s d) = sapp s (add_err e d).
Proof. intros. unfold add_err, sapp. cbn. rewrite app_assoc. reflexivity. Qed.
Lemma sapp_add_call : forall c s d, add_call c (sapp s d) = sapp s (add_call c d).
Proof. intros. unfold add_call, sapp. cbn. rewrite app_assoc. reflexivity. Qed.
Lemma sapp_add_tcall : forall c s d, add_tcall c (sapp s d) = sapp s (add_tcall c d).
Proof. intros. unfold add_tcall, sapp. cbn. rewrite app_assoc. reflexivity. Qed.
Lemma sapp_add_missing : forall c s d, add_missing c (sapp s d) = sapp s (add_missing c d).
Proof. intros. unfold add_missing, sapp. cbn. rewrite app_assoc. reflexivity. Qed.
Lemma sapp_set_escape : forall s d, set_escape (sapp s d) = sapp s (set_escape d).
Proof. intros. unfold set_escape, sapp. cbn. rewrite orb_true_r. reflexivity. Qed.

(* a result computed from the increment d, seen from the state s ++ d *)
Definition xlift {A : Type} (s : st) (r : xres A) : xres A :=
  match r with
  | XOk a d => XOk a (sapp s d)
  | XRaise e d => XRaise e (sapp s d)
  | XFuel => XFuel
  end.

Lemma xlift_st0 : forall A (r : xres A), xlift st0 r = r.
Proof. intros A [a d|e d|]; cbn; rewrite ?sapp_st0_l; reflexivity. Qed.

Lemma catch_at_lift : forall t s r, catch_at t (xlift s r) = xlift s (catch_at t r).
Proof.
  intros t s [q d|e d|]; cbn; try reflexivity.
  destruct (is_nonnull t); cbn; [reflexivity|]. rewrite sapp_add_err. reflexivity.
Qed.

(* a step, then what follows it from the state the step leaves *)
Lemma xlift_bind : forall A B (k1 k2 : A -> st -> xres B) s r,
  (forall a d, r = XOk a d -> k1 a (sapp s d) = xlift s (k2 a d)) ->
  match xlift s r with XOk a t => k1 a t | XRaise e t => XRaise e t | XFuel => XFuel end =
  xlift s (match r with XOk a t => k2 a t | XRaise e t => XRaise e t | XFuel => XFuel end).
Proof. intros A B k1 k2 s [a d|e d|] H; [apply H|..]; reflexivity. Qed.

Lemma xmap_lift : forall A B (f : A -> B) s r, xmap f (xlift s r) = xlift s (xmap f r).
Proof. intros A B f s [a d|e d|]; reflexivity. Qed.

(* Two runs f1, f2 with f1 (sapp s d) = xlift s (f2 d): from one state they are equal; from two
   states they differ by the states only (f2 does not read its state either). *)
Lemma sim_same : forall A (f1 f2 : st -> xres A),
  (forall s d, f1 (sapp s d) = xlift s (f2 d)) -> forall s, f1 s = f2 s.
Proof. intros A f1 f2 H s. rewrite <- (sapp_st0_l s) at 1. rewrite H. apply xlift_st0. Qed.

Lemma sim_two : forall A (f1 f2 : st -> xres A),
  (forall s d, f1 (sapp s d) = xlift s (f2 d)) -> (forall s d, f2 (sapp s d) = xlift s (f2 d)) ->
  forall s1 s2, exists r0, f1 s1 = xlift s1 r0 /\ f2 s2 = xlift s2 r0.
Proof.
  intros A f1 f2 H1 H2 s1 s2. exists (f2 st0). rewrite <- H1, <- H2, !sapp_st0_r. split; reflexivity.
Qed.

Record same_but_oracle (E1 E2 : env) : Prop := {
  sbo_S : en_S E1 = en_S E2; sbo_D : en_D E1 = en_D E2; sbo_vars : en_vars E1 = en_vars E2;
  sbo_tor : en_tor E1 = en_tor E2; sbo_serial : en_serial E1 = en_serial E2 }.

Lemma same_but_oracle_refl : forall E, same_but_oracle E E.
Proof. intro E. split; reflexivity. Qed.

Definition agree_under (p : path) (o1 o2 : oracle) : Prop := forall q, prefix p q -> o1 q = o2 q.

Lemma agree_under_refl : forall p o, agree_under p o o.
Proof. intros p o q _. reflexivity. Qed.

Lemma agree_under_weaken : forall p p' o1 o2, prefix p p' -> agree_under p o1 o2 -> agree_under p' o1 o2.
Proof. intros p p' o1 o2 Hp H q Hq. apply H. eapply prefix_trans; eassumption. Qed.

Definition agree_thunks (o1 o2 : oracle) (q : presp) : Prop :=
  Forall (fun tp => agree_under (snd tp) o1 o2) (thunks q).

Lemma agree_thunks_refl : forall o q, agree_thunks o o q.
Proof. intros o q. apply Forall_forall. intros tp _. apply agree_under_refl. Qed.

Lemma agree_thunks_under : forall p o1 o2 q, agree_under p o1 o2 -> thunks_ok p q -> agree_thunks o1 o2 q.
Proof.
  intros p o1 o2 q Ha Hq. eapply Forall_impl; [|exact Hq].
  intros tp [_ Hp]. eapply agree_under_weaken; eassumption.
Qed.

Lemma on_outcome_sim : forall f1 f2 e o s d,
  (forall v, f1 v (sapp s d) = xlift s (f2 v d)) -> on_outcome f1 e o (sapp s d) = xlift s (on_outcome f2 e o d).
Proof. intros f1 f2 e [] s d H; try reflexivity. apply H. Qed.

Lemma note_missing_sapp : forall o fp s d, note_missing o fp (sapp s d) = sapp s (note_missing o fp d).
Proof. intros [o|] fp s d; [reflexivity|apply sapp_add_missing]. Qed.

Lemma field_defer_lift : forall th t tv s s2 c0,
  field_defer th t tv (sapp s s2) (xlift s c0) = xlift s (field_defer th t tv s2 c0).
Proof.
  intros th t tv s s2 c0. unfold field_defer. destruct (th && negb (is_nonnull t)); [reflexivity|].
  destruct c0, th; cbn; rewrite ?sapp_set_escape; reflexivity.
Qed.

Lemma field_caught_sim : forall cmp1 cmp2 t nodes occs fp o th s s2,
  (forall v, cmp1 t nodes occs fp fp v (sapp s s2) = xlift s (cmp2 t nodes occs fp fp v s2)) ->
  field_caught cmp1 t nodes occs fp o th (sapp s s2) = xlift s (field_caught cmp2 t nodes occs fp o th s2).
Proof.
  intros cmp1 cmp2 t nodes occs fp o th s s2 Hc. unfold field_caught.
  rewrite (on_outcome_sim _ (cmp2 t nodes occs fp fp)), field_defer_lift, catch_at_lift; [reflexivity|exact Hc].
Qed.

Lemma field_finish_sim : forall ser dth1 dth2 p s s0 r,
  (forall y s1 d, thunks_ok p y -> dth1 y (sapp s1 d) = xlift s1 (dth2 y d)) -> inv1 p s0 r ->
  field_finish ser dth1 (xlift s r) = xlift s (field_finish ser dth2 r).
Proof.
  intros ser dth1 dth2 p s s0 [y d|e d|] Hd Hy; try reflexivity. cbn. destruct ser; [|reflexivity].
  rewrite (Hd y s d (proj2 Hy)). destruct (dth2 y d); reflexivity.
Qed.

Lemma items_loop_sim : forall cmp1 cmp2,
  (forall i x s d, cmp1 i x (sapp s d) = xlift s (cmp2 i x d)) ->
  forall l i s d, items_loop cmp1 l i (sapp s d) = xlift s (items_loop cmp2 l i d).
Proof.
  intros cmp1 cmp2 Hc. induction l as [|x l IH]; intros i s d; cbn [items_loop]; [reflexivity|].
  rewrite Hc. apply xlift_bind. intros y d' _. rewrite IH. apply (xmap_lift _ _ (cons y)).
Qed.

Lemma dethunk_list_sim : forall f1 f2 (P : presp -> Prop),
  (forall x s d, P x -> f1 x (sapp s d) = xlift s (f2 x d)) ->
  forall l s d, Forall P l -> dethunk_list f1 l (sapp s d) = xlift s (dethunk_list f2 l d).
Proof.
  intros f1 f2 P Hf. induction l as [|x l IH]; intros s d Hl; cbn [dethunk_list]; [reflexivity|].
  rewrite (Hf _ _ _ (Forall_inv Hl)). apply xlift_bind. intros y d' _.
  rewrite (IH _ _ (Forall_inv_tail Hl)). apply (xmap_lift _ _ (cons y)).
Qed.

Lemma dethunk_fields_sim : forall f1 f2 (P : presp -> Prop),
  (forall x s d, P x -> f1 x (sapp s d) = xlift s (f2 x d)) ->
  forall l s d, Forall (fun kv => P (snd kv)) l ->
    dethunk_fields f1 l (sapp s d) = xlift s (dethunk_fields f2 l d).
Proof.
  intros f1 f2 P Hf. induction l as [|[k x] l IH]; intros s d Hl; cbn [dethunk_fields]; [reflexivity|].
  rewrite (Hf _ _ _ (Forall_inv Hl)). apply xlift_bind. intros y d' _.
  rewrite (IH _ _ (Forall_inv_tail Hl)). apply (xmap_lift _ _ (cons (k, y))).
Qed.

Definition SIM (fuel : nat) (E1 E2 : env) : Prop :=
  (forall t nodes occs fpath p v s d, agree_under p (en_or E1) (en_or E2) ->
     complete fuel E1 t nodes occs fpath p v (sapp s d) = xlift s (complete fuel E2 t nodes occs fpath p v d)) /\
  (forall obj occs p src s d, agree_under p (en_or E1) (en_or E2) ->
     exec_object fuel E1 obj occs p src (sapp s d) = xlift s (exec_object fuel E2 obj occs p src d)) /\
  (forall obj src g p s d, agree_under p (en_or E1) (en_or E2) ->
     exec_groups fuel E1 obj src g p (sapp s d) = xlift s (exec_groups fuel E2 obj src g p d)) /\
  (forall q s d, agree_thunks (en_or E1) (en_or E2) q ->
     dethunk fuel E1 q (sapp s d) = xlift s (dethunk fuel E2 q d)).

Lemma exec_field_sim : forall fuel E1 E2 obj src k occs p s d,
  same_but_oracle E1 E2 -> SIM fuel E1 E2 -> agree_under (p ++ [PKey k]) (en_or E1) (en_or E2) ->
  exec_field fuel (complete fuel E1) (dethunk fuel E1) E1 obj src k occs p (sapp s d) =
  xlift s (exec_field fuel (complete fuel E2) (dethunk fuel E2) E2 obj src k occs p d).
Proof.
  intros fuel E1 E2 obj src k occs p s d [HS _ Hv _ Hser] [Sc [_ [_ Sd]]] Ha.
  rewrite !exec_field_unfold. cbv zeta. rewrite <- HS, <- Hv, <- Hser, <- (Ha _ (prefix_refl _)).
  destruct (String.eqb _ "__typename"); [reflexivity|].
  destruct (find_field _ (object_fields (en_S E1) obj)) as [fd|]; [|reflexivity].
  destruct (get_argument_values fuel (en_S E1) (f_args fd) _ (Some (en_vars E1))) as [args|]; [|reflexivity].
  rewrite sapp_add_call, note_missing_sapp.
  destruct (match en_or E1 _ with Some o => force o | None => _ end) as [o th]. rewrite !field_rest_eq.
  rewrite (field_caught_sim _ (complete fuel E2)) by (intro v; apply Sc, Ha).
  eapply field_finish_sim; [|apply field_caught_inv; intro v; apply (exec_inv fuel)].
  intros y s0 d0 Hy. apply Sd. eapply agree_thunks_under; eassumption.
Qed.

Theorem exec_sim : forall fuel E1 E2, same_but_oracle E1 E2 -> SIM fuel E1 E2.
Proof.
  induction fuel as [|fuel IH]; intros E1 E2 Hs; [repeat split; reflexivity|].
  destruct (IH E1 E2 Hs) as [IHc [IHo [IHg IHd]]].
  pose proof Hs as [HS HD Hv Ht _].
  repeat split.
  - intros t nodes occs fpath p v s d Ha. cbn [complete]. rewrite <- HS, <- Ht.
    destruct t as [n|t'|t'].
    + destruct (rv_nullish v); [reflexivity|].
      (* an interface and a union are completed alike *)
      destruct (lookup_type (en_S E1) n) as [[k|vals|fs ifs|fs|ms|fs]|]; try reflexivity; [apply IHo, Ha| |];
        (cbv zeta; rewrite sapp_add_tcall; destruct (en_tor E1 v) as [rt|]; [|reflexivity];
         destruct (possible_type (en_S E1) n rt); [apply IHo, Ha|reflexivity]).
    + destruct (rv_nullish v); [reflexivity|]. destruct v; try reflexivity.
      rewrite (items_loop_sim _ (fun i x s0 => catch_at t' (complete fuel E2 t' nodes occs fpath (p ++ [PIdx i]) x s0))).
      * apply (xmap_lift _ _ QList).
      * intros i x s0 d0. cbn beta. rewrite IHc, catch_at_lift; [reflexivity|].
        eapply agree_under_weaken; [apply prefix_app|exact Ha].
    + rewrite (IHc _ _ _ _ _ _ _ _ Ha). destruct (complete fuel E2 t' nodes occs fpath p v d) as [[]| |]; reflexivity.
  - intros obj occs p src s d Ha. cbn [exec_object]. rewrite <- HS, <- HD, <- Hv.
    destruct (collect_all fuel _ _ _ obj _ [] []) as [g|]; [|reflexivity].
    rewrite (IHg _ _ _ _ _ _ Ha). apply (xmap_lift _ _ QObj).
  - intros obj src g p s d Ha. cbn [exec_groups]. destruct g as [|[k occs] rest]; [reflexivity|].
    rewrite (exec_field_sim fuel E1 E2 obj src k occs p s d Hs (IH E1 E2 Hs))
      by (eapply agree_under_weaken; [apply prefix_app|exact Ha]).
    apply xlift_bind. intros y d' _. rewrite (IHg _ _ _ _ _ _ Ha). apply (xmap_lift _ _ (keyed k y)).
  - intros q s d Hq. destruct q as [|v|l|l|t nodes occs tp o]; try reflexivity.
    + cbn [dethunk]. rewrite (dethunk_list_sim _ (dethunk fuel E2) _ IHd);
        [apply (xmap_lift _ _ QList)|apply Forall_flat_map, Hq].
    + cbn [dethunk]. rewrite (dethunk_fields_sim _ (dethunk fuel E2) _ IHd);
        [apply (xmap_lift _ _ QObj)|apply Forall_flat_map, Hq].
    + apply Forall_inv in Hq. cbn [snd] in Hq. rewrite !dethunk_thunk.
      rewrite (on_outcome_sim _ (complete fuel E2 t nodes occs tp tp)) by (intro v; apply IHc, Hq).
      rewrite catch_at_lift. apply xlift_bind. intros y d' Ey. apply IHd.
      assert (Hy : inv1 tp d (catch_at t (on_outcome (complete fuel E2 t nodes occs tp tp)
                                            {| e_path := tp; e_nodes := nodes |} o d)))
        by (apply inv1_catch, inv1_on_outcome; intro v; apply (exec_inv fuel)).
      rewrite Ey in Hy. eapply agree_thunks_under; [eassumption|apply Hy].
Qed.

(* run from two arbitrary states under two oracles that agree below p, an execution at p gives
   the same result and the same state increment *)
Theorem exec_groups_sim : forall fuel E1 E2 obj src g p s1 s2, same_but_oracle E1 E2 ->
  agree_under p (en_or E1) (en_or E2) ->
  exists r0, exec_groups fuel E1 obj src g p s1 = xlift s1 r0 /\ exec_groups fuel E2 obj src g p s2 = xlift s2 r0.
Proof.
  intros fuel E1 E2 obj src g p s1 s2 Hs Ha.
  apply (sim_two _ (exec_groups fuel E1 obj src g p) (exec_groups fuel E2 obj src g p)); intros s d.
  - apply (exec_sim fuel E1 E2 Hs), Ha.
  - apply (exec_sim fuel E2 E2 (same_but_oracle_refl E2)), agree_under_refl.
Qed.

Theorem complete_sim : forall fuel E1 E2 t nodes occs fpath p v s1 s2, same_but_oracle E1 E2 ->
  agree_under p (en_or E1) (en_or E2) ->
  exists r0, complete fuel E1 t nodes occs fpath p v s1 = xlift s1 r0 /\
             complete fuel E2 t nodes occs fpath p v s2 = xlift s2 r0.
Proof.
  intros fuel E1 E2 t nodes occs fpath p v s1 s2 Hs Ha.
  apply (sim_two _ (complete fuel E1 t nodes occs fpath p v) (complete fuel E2 t nodes occs fpath p v)); intros s d.
  - apply (exec_sim fuel E1 E2 Hs), Ha.
  - apply (exec_sim fuel E2 E2 (same_but_oracle_refl E2)), agree_under_refl.
Qed.

(* decidable prefix test, to select the part of a trace that lies outside a subtree *)
Lemma pseg_eqb_eq : forall a b, pseg_eqb a b = true <-> a = b.
Proof.
  intros [x|x] [y|y]; cbn; split; intros H; try discriminate.
  - apply String.eqb_eq in H. subst. reflexivity.
  - inversion H. apply String.eqb_refl.
  - apply N.eqb_eq in H. subst. reflexivity.
  - inversion H. apply N.eqb_refl.
Qed.

Fixpoint prefixb (p q : path) : bool :=
  match p, q with
  | [], _ => true
  | x :: p', y :: q' => pseg_eqb x y && prefixb p' q'
  | _ :: _, [] => false
  end.

Lemma prefixb_spec : forall p q, prefixb p q = true <-> prefix p q.
Proof.
  induction p as [|x p IH]; intros q; cbn [prefixb].
  - split; [intros _; exists q; reflexivity|reflexivity].
  - destruct q as [|y q].
    + split; [discriminate|]. intros [r H]. discriminate.
    + rewrite andb_true_iff, pseg_eqb_eq, IH. split.
      * intros [-> [r ->]]. exists r. reflexivity.
      * intros [r H]. cbn in H. inversion H. split; [reflexivity|exists r; reflexivity].
Qed.

(* errors / resolver invocations recorded outside the subtree at fp, in the order recorded *)
Definition errs_out (fp : path) (s : st) : list gerr :=
  filter (fun e => negb (prefixb fp (e_path e))) (st_errs s).
Definition calls_out (fp : path) (s : st) : list call :=
  filter (fun c => negb (prefixb fp (c_path c))) (st_calls s).
Definition out_eq (fp : path) (s1 s2 : st) : Prop :=
  errs_out fp s1 = errs_out fp s2 /\ calls_out fp s1 = calls_out fp s2.

Lemma out_eq_refl : forall fp s, out_eq fp s s.
Proof. intros. split; reflexivity. Qed.

Lemma filter_all_under : forall A (f : A -> path) fp l,
  Forall (fun a => prefix fp (f a)) l -> filter (fun a => negb (prefixb fp (f a))) l = [].
Proof.
  intros A f fp l H. induction H as [|a l Ha _ IH]; [reflexivity|].
  cbn [filter]. apply prefixb_spec in Ha. rewrite Ha. cbn. exact IH.
Qed.

Lemma out_eq_same_delta : forall fp s1 s2 d, out_eq fp s1 s2 -> out_eq fp (sapp s1 d) (sapp s2 d).
Proof.
  intros fp s1 s2 d [H1 H2]. unfold out_eq, errs_out, calls_out in *. cbn [sapp st_errs st_calls].
  rewrite !filter_app, H1, H2. split; reflexivity.
Qed.

Lemma out_eq_under : forall fp s1 s2 s1' s2',
  out_eq fp s1 s2 -> ext fp s1 s1' -> ext fp s2 s2' -> out_eq fp s1' s2'.
Proof.
  intros fp s1 s2 s1' s2' [H1 H2] [[c1 [C1 D1]] [e1 [E1 F1]]] [[c2 [C2 D2]] [e2 [E2 F2]]].
  unfold out_eq, errs_out, calls_out in *. rewrite C1, C2, E1, E2, !filter_app.
  rewrite (filter_all_under _ e_path fp e1 F1), (filter_all_under _ e_path fp e2 F2).
  rewrite (filter_all_under _ c_path fp c1 D1), (filter_all_under _ c_path fp c2 D2).
  rewrite !app_nil_r. split; assumption.
Qed.

Definition agree_outside (fp : path) (o1 o2 : oracle) : Prop := forall q, ~ prefix fp q -> o1 q = o2 q.

Lemma agree_outside_sibling : forall p k k0 o1 o2, k0 <> k ->
  agree_outside (p ++ [PKey k]) o1 o2 -> agree_under (p ++ [PKey k0]) o1 o2.
Proof.
  intros p k k0 o1 o2 Hk H q Hq. apply H. intro Hq'.
  pose proof (snoc_apart p _ _ q Hq Hq') as E. inversion E. exact (Hk H1).
Qed.

Lemma agree_outside_weaken : forall fp fp' o1 o2, prefix fp fp' ->
  agree_outside fp' o1 o2 -> agree_outside fp o1 o2.
Proof. intros fp fp' o1 o2 Hp H q Hq. apply H. intro Hq'. apply Hq. eapply prefix_trans; eassumption. Qed.

(* two field lists that differ at most in the values of key k *)
Definition sib (k : name) (a b : name * presp) : Prop := fst a = fst b /\ (fst a <> k -> snd a = snd b).

Lemma sibs_alookup : forall k l1 l2, Forall2 (sib k) l1 l2 ->
  forall k', k' <> k -> alookup k' l1 = alookup k' l2.
Proof.
  intros k l1 l2 H k' Hk. induction H as [|[ka a] [kb b] l1 l2 [Hf Hs] _ IH]; [reflexivity|].
  cbn [fst snd] in Hf, Hs. subst kb. cbn [alookup].
  destruct (String.eqb k' ka) eqn:Ek; [|exact IH].
  apply String.eqb_eq in Ek. subst ka. rewrite (Hs Hk). reflexivity.
Qed.

Lemma sibs_keys : forall k l1 l2, Forall2 (sib k) l1 l2 -> map fst l1 = map fst l2.
Proof.
  intros k l1 l2 H. induction H as [|a b l1 l2 [Hf _] _ IH]; [reflexivity|].
  cbn [map]. rewrite Hf, IH. reflexivity.
Qed.

Definition keyed_ok (p : path) (kv : name * presp) : Prop := thunks_ok (p ++ [PKey (fst kv)]) (snd kv).

Lemma exec_field_ok : forall fuel E obj src k occs p s y s',
  exec_field fuel (complete fuel E) (dethunk fuel E) E obj src k occs p s = XOk y s' ->
  ext (p ++ [PKey k]) s s' /\ match y with Some q => thunks_ok (p ++ [PKey k]) q | None => True end.
Proof.
  intros fuel E obj src k occs p s y s' H. pose proof (proj1 (exec_field_inv fuel E obj src k occs p s)) as I.
  rewrite H in I. exact I.
Qed.

Lemma groups_keyed : forall fuel E obj src g p s fs s',
  exec_groups fuel E obj src g p s = XOk fs s' -> Forall (keyed_ok p) fs.
Proof.
  intros fuel E obj src g p s fs s'. apply (groups_entries (fun k y => thunks_ok (p ++ [PKey k]) y)).
  intros fuel0 k occs s0 y s0' H. exact (proj2 (exec_field_ok _ _ _ _ _ _ _ _ _ _ H)).
Qed.

Lemma sibs_out : forall k fp l1 l2 s1 s2, Forall2 (sib k) l1 l2 -> out_eq fp s1 s2 ->
  map fst l1 = map fst l2 /\ (forall k', k' <> k -> alookup k' l1 = alookup k' l2) /\
  errs_out fp s1 = errs_out fp s2 /\ calls_out fp s1 = calls_out fp s2.
Proof.
  intros k fp l1 l2 s1 s2 Hl Ho. split; [eapply sibs_keys, Hl|]. split; [apply sibs_alookup, Hl|exact Ho].
Qed.

(* a field that returns without raising is present iff its name is __typename or a field of obj *)
Definition selects (S : schema) (obj : name) (occs : list occ) : bool :=
  let fname := match occs with o :: _ => oc_name o | [] => "" end in
  String.eqb fname "__typename" ||
  match find_field fname (object_fields S obj) with Some _ => true | None => false end.

Lemma exec_field_shape : forall fuel' cmp dth E obj src k occs p s y s',
  exec_field fuel' cmp dth E obj src k occs p s = XOk y s' ->
  match y with Some _ => true | None => false end = selects (en_S E) obj occs.
Proof.
  intros fuel' cmp dth E obj src k occs p s y s'. unfold selects.
  apply exec_field_elim; unfold Conform.first_name.
  - intros -> H. inversion H. reflexivity.
  - intros -> -> H. inversion H. reflexivity.
  - discriminate.
  - intros fd args o th -> -> _ _. unfold field_finish.
    destruct (field_caught _ _ _ _ _ _ _ _) as [y0 s0|e0 s0|]; try discriminate.
    destruct (_ && _); [destruct (dth y0 s0); try discriminate|]; intros H; inversion H; reflexivity.
Qed.

(* Two runs under oracles that agree outside the subtree of key k of the selection set at p. *)
Section Isolation.
Variables (E1 E2 : env) (p : path) (k : name).
Hypothesis Hs : same_but_oracle E1 E2.
Hypothesis Ha : agree_outside (p ++ [PKey k]) (en_or E1) (en_or E2).

(* One entry, of key k0, in the two runs, which return y1, y2: under the key k both runs stay
   below p ++ [PKey k]; under any other key they are one run seen from two states. *)
Lemma entry_iso : forall A k0 (r1 r2 : xres A) s1 s2 y1 t1 y2 t2,
  r1 = XOk y1 t1 -> r2 = XOk y2 t2 ->
  (k0 = k -> ext (p ++ [PKey k]) s1 t1 /\ ext (p ++ [PKey k]) s2 t2) ->
  (k0 <> k -> exists r0, r1 = xlift s1 r0 /\ r2 = xlift s2 r0) ->
  (k0 <> k -> y1 = y2) /\ (out_eq (p ++ [PKey k]) s1 s2 -> out_eq (p ++ [PKey k]) t1 t2).
Proof.
  intros A k0 r1 r2 s1 s2 y1 t1 y2 t2 -> -> Hk Hne. destruct (string_dec k0 k) as [He|Hn].
  - destruct (Hk He). split; [contradiction|]. intro. eapply out_eq_under; eassumption.
  - destruct (Hne Hn) as [[a d|e d|] [R1 R2]]; try discriminate. injection R1 as -> ->. injection R2 as -> ->.
    split; [reflexivity|]. apply out_eq_same_delta.
Qed.

Theorem groups_iso : forall fuel obj src g s1 s2 fs1 s1' fs2 s2',
  exec_groups fuel E1 obj src g p s1 = XOk fs1 s1' ->
  exec_groups fuel E2 obj src g p s2 = XOk fs2 s2' ->
  Forall2 (sib k) fs1 fs2 /\ (out_eq (p ++ [PKey k]) s1 s2 -> out_eq (p ++ [PKey k]) s1' s2').
Proof.
  induction fuel as [|fuel IH]; intros obj src g s1 s2 fs1 s1' fs2 s2' H1 H2; [discriminate|].
  cbn [exec_groups] in H1, H2. destruct g as [|[k0 occs] rest].
  { injection H1 as <- <-. injection H2 as <- <-. split; [constructor|auto]. }
  apply xstep_ok in H1. destruct H1 as [y1 [t1 [ys1 [F1 [G1 ->]]]]].
  apply xstep_ok in H2. destruct H2 as [y2 [t2 [ys2 [F2 [G2 ->]]]]].
  destruct (IH obj src rest t1 t2 _ _ _ _ G1 G2) as [Hsib Hout].
  destruct (entry_iso _ k0 _ _ s1 s2 _ _ _ _ F1 F2) as [Hy Ho].
  { intros ->. split; [apply (exec_field_ok _ _ _ _ _ _ _ _ _ _ F1)|apply (exec_field_ok _ _ _ _ _ _ _ _ _ _ F2)]. }
  { intro Hn. pose proof (agree_outside_sibling p k k0 _ _ Hn Ha) as Hk. apply sim_two; intros s d.
    - apply exec_field_sim; [exact Hs|apply exec_sim, Hs|exact Hk].
    - apply exec_field_sim; [apply same_but_oracle_refl|apply exec_sim, same_but_oracle_refl|apply agree_under_refl]. }
  split; [|auto].
  (* the entry is present in both runs or in neither *)
  pose proof (exec_field_shape _ _ _ _ _ _ _ _ _ _ _ _ F1) as S1.
  pose proof (exec_field_shape _ _ _ _ _ _ _ _ _ _ _ _ F2) as S2.
  rewrite <- (sbo_S _ _ Hs), <- S1 in S2.
  destruct y1, y2; try discriminate; [|exact Hsib].
  constructor; [|exact Hsib]. split; [reflexivity|]. intro Hn. apply Hy in Hn. inversion Hn. reflexivity.
Qed.

Lemma dethunk_fields_iso : forall fuel l1 l2,
  Forall2 (sib k) l1 l2 -> Forall (keyed_ok p) l1 -> Forall (keyed_ok p) l2 ->
  forall s1 s2 ys1 s1' ys2 s2',
    dethunk_fields (dethunk fuel E1) l1 s1 = XOk ys1 s1' ->
    dethunk_fields (dethunk fuel E2) l2 s2 = XOk ys2 s2' ->
    Forall2 (sib k) ys1 ys2 /\ (out_eq (p ++ [PKey k]) s1 s2 -> out_eq (p ++ [PKey k]) s1' s2').
Proof.
  intros fuel l1 l2 Hl. destruct (exec_inv fuel) as [_ [_ [_ XId]]].
  induction Hl as [|[ka a] [kb b] l1 l2 [Hf Hv] _ IH]; intros K1 K2 s1 s2 ys1 s1' ys2 s2' H1 H2.
  { injection H1 as <- <-. injection H2 as <- <-. split; [constructor|auto]. }
  cbn [fst snd] in Hf, Hv. subst kb. cbn [dethunk_fields] in H1, H2.
  pose proof (Forall_inv K1) as Ka. pose proof (Forall_inv K2) as Kb. unfold keyed_ok in Ka, Kb. cbn [fst snd] in Ka, Kb.
  pose proof (XId E1 a s1 _ Ka) as I1. pose proof (XId E2 b s2 _ Kb) as I2.
  apply xstep_ok in H1. destruct H1 as [y1 [t1 [zs1 [F1 [G1 ->]]]]].
  apply xstep_ok in H2. destruct H2 as [y2 [t2 [zs2 [F2 [G2 ->]]]]].
  rewrite F1 in I1. rewrite F2 in I2.
  destruct (IH (Forall_inv_tail K1) (Forall_inv_tail K2) t1 t2 _ _ _ _ G1 G2) as [Hsib Hout].
  destruct (entry_iso _ ka _ _ s1 s2 _ _ _ _ F1 F2) as [Hy Ho].
  { intros ->. split; [exact (proj1 I1)|exact (proj1 I2)]. }
  { intro Hn. rewrite <- (Hv Hn). apply (sim_two _ (dethunk fuel E1 a) (dethunk fuel E2 a)); intros s d.
    - apply (exec_sim fuel E1 E2 Hs). eapply agree_thunks_under; [apply (agree_outside_sibling p k ka _ _ Hn Ha)|exact Ka].
    - apply (exec_sim fuel E2 E2 (same_but_oracle_refl E2)), agree_thunks_refl. }
  split; [|auto]. constructor; [|exact Hsib]. split; [reflexivity|exact Hy].
Qed.

Theorem forced_iso : forall fuel fuel' obj src g s fs1 s1 fs2 s2 q1 s1' q2 s2',
  exec_groups fuel E1 obj src g p s = XOk fs1 s1 ->
  exec_groups fuel E2 obj src g p s = XOk fs2 s2 ->
  dethunk fuel' E1 (QObj fs1) s1 = XOk q1 s1' ->
  dethunk fuel' E2 (QObj fs2) s2 = XOk q2 s2' ->
  exists ys1 ys2, q1 = QObj ys1 /\ q2 = QObj ys2 /\ Forall2 (sib k) ys1 ys2 /\ out_eq (p ++ [PKey k]) s1' s2'.
Proof.
  intros fuel fuel' obj src g s fs1 s1 fs2 s2 q1 s1' q2 s2' H1 H2 D1 D2.
  destruct (groups_iso fuel obj src g s s _ _ _ _ H1 H2) as [Hsib Hout].
  destruct fuel' as [|fuel']; [discriminate|]. cbn [dethunk] in D1, D2.
  destruct (dethunk_fields (dethunk fuel' E1) fs1 s1) as [ys1 t1|e1 t1|] eqn:F1; try discriminate.
  destruct (dethunk_fields (dethunk fuel' E2) fs2 s2) as [ys2 t2|e2 t2|] eqn:F2; try discriminate.
  injection D1 as <- <-. injection D2 as <- <-.
  destruct (dethunk_fields_iso fuel' fs1 fs2 Hsib (groups_keyed _ _ _ _ _ _ _ _ _ H1)
              (groups_keyed _ _ _ _ _ _ _ _ _ H2) _ _ _ _ _ _ F1 F2) as [Hsib' Hout'].
  exists ys1, ys2. repeat split; try assumption; apply Hout', Hout, out_eq_refl.
Qed.
End Isolation.

(* ---- non-vacuity: the failure of the non-null child n of o (which nulls o) against a run
        where it succeeds: the hypotheses hold, o differs, the sibling i is the same ---- *)
Definition Si : schema := {|
  s_types := [("Int", TScalar SInt);
              ("O", TObject [{| f_name := "n"; f_args := []; f_type := TNonNull (TNamed "Int") |}] []);
              ("Q", TObject [{| f_name := "i"; f_args := []; f_type := TNamed "Int" |};
                             {| f_name := "o"; f_args := []; f_type := TNamed "O" |}] [])];
  s_query := "Q"; s_mutation := None |}.
Definition Di : document := {|
  d_ops := [{| o_kind := OpQuery; o_name := None; o_vars := [];
               o_sel := [SField 2%N None "o" [] [] [SField 6%N None "n" [] [] []]; SField 12%N None "i" [] [] []] |}];
  d_frags := [] |}.
Lemma path_eqb_eq : forall a b, path_eqb a b = true -> a = b.
Proof.
  induction a as [|x a IH]; intros [|y b] H; cbn in H; try discriminate; [reflexivity|].
  apply andb_true_iff in H. destruct H as [H1 H2]. apply pseg_eqb_eq in H1. subst y.
  rewrite (IH b H2). reflexivity.
Qed.

Definition ori (n : outcome) : oracle := fun p =>
  if path_eqb p [PKey "o"; PKey "n"] then Some n
  else match p with
       | [PKey "i"] => Some (OThunk (OVal (RInt 7%Z)))
       | [PKey "o"] => Some (OVal (RObj 1%N "O"))
       | _ => None
       end.

Example isolation_nonvacuous :
  agree_outside [PKey "o"; PKey "n"] (ori OErr) (ori (OVal (RInt 1%Z))) /\
  match request 20 Si Di None [] (RObj 0%N "root") (ori OErr) (fun _ => None),
        request 20 Si Di None [] (RObj 0%N "root") (ori (OVal (RInt 1%Z))) (fun _ => None) with
  | RDone (Some d1) s1, RDone (Some d2) s2 =>
    d1 = PObj [("o", PNull); ("i", PLeaf (JInt 7))] /\
    d2 = PObj [("o", PObj [("n", PLeaf (JInt 1))]); ("i", PLeaf (JInt 7))] /\
    map e_path (st_errs s1) = [[PKey "o"; PKey "n"]] /\ st_errs s2 = []
  | _, _ => False
  end.
Proof.
  split.
  - intros q Hq. unfold ori.
    destruct (path_eqb q [PKey "o"; PKey "n"]) eqn:Eq; [|reflexivity].
    exfalso. apply Hq. apply path_eqb_eq in Eq. subst q. apply prefix_refl.
  - vm_compute. repeat split; reflexivity.
Qed.

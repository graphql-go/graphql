(* C14 -- the iterative loop of Visit produces exactly the recursive walk.
   Route (design-notes/probes/visitor_machine_is_walk.v, extended to the real state):
   every reachable loop state is the concretisation `conc` of an abstract stack of frames
   (a zipper into the tree); the meaning of an abstract stack is its continuation `kont`
   (the trace still to be produced); one loop iteration is one `seq` law.  Key, parent, path
   and ancestors are functions of the frames (`inner`), consistent along the stack (`wf`).
   The same step lemma carries a decreasing measure, which gives termination. *)
From Coq Require Import List NArith Bool Arith Lia.
From GQL Require Import Visitor.VisitorTree Visitor.VisitorWalk Visitor.VisitorLoop
     Proofs.VisitorWalkProofs.
Import ListNotations.

Lemma pop_snoc {A} (l : list A) x : pop (l ++ [x]) = (Some x, l).
Proof. unfold pop. rewrite rev_app_distr. cbn. rewrite rev_involutive. reflexivity. Qed.

(* the five position variables of the loop while some container is the current one *)
Record cctx := mkC {
  c_path : list pkey; c_parent : option gnode; c_pslice : list gnode;
  c_ancs : list (option gnode); c_ancsl : list (list gnode) }.
Definition c_root : cctx := mkC [] None [] [] [].

(* a container being traversed: the node / list, the position of the container that holds
   it, the key under which it sits there, and how many of its keys are consumed *)
Inductive aframe :=
| ANode (n : gnode) (own : cctx) (key : option pkey) (done : nat)
| AList (l : list gnode) (own : cctx) (key : option pkey) (done : nat).

Inductive astate := AInit | ASkipped | ARun (fs : list aframe).

Definition proj (c : cctx) : wctx :=
  mkWctx (c_path c) (option_map g_id (c_parent c)) (map (option_map g_id) (c_ancs c)).

Section Sim.
Variable keys_of : N -> list N.
Variable sel : N -> phase -> option N.
Variable pol : N -> phase -> action.
Variable root : gnode.

Notation walk := (walk keys_of sel pol).
Notation wkeys := (wkeys keys_of sel pol).
Notation wlist := (wlist keys_of sel pol).
Notation wslot := (wslot keys_of sel pol).
Notation step := (step keys_of sel pol).
Notation run := (run keys_of sel pol).
Notation nsteps := (nsteps keys_of).
Notation ksteps := (ksteps keys_of).
Notation lsteps := (lsteps keys_of).
Notation sstep := (sstep keys_of).

Definition fr_parent f := match f with ANode n _ _ _ => Some n | AList _ _ _ _ => None end.
Definition fr_slice f := match f with ANode _ _ _ _ => [] | AList l _ _ _ => l end.
Definition fr_keys f := match f with ANode n _ _ _ => KFields (keys_of (g_kind n)) | AList l _ _ _ => KNodes l end.
Definition fr_inSlice f := match f with ANode _ _ _ _ => false | AList _ _ _ _ => true end.
Definition fr_done f := match f with ANode _ _ _ d => d | AList _ _ _ d => d end.
Definition fr_own f := match f with ANode _ o _ _ => o | AList _ o _ _ => o end.
Definition fr_key f := match f with ANode _ _ k _ => k | AList _ _ k _ => k end.
Definition bump f := match f with ANode n o k d => ANode n o k (S d) | AList l o k d => AList l o k (S d) end.

Definition inner (f : aframe) : cctx :=
  mkC (c_path (fr_own f) ++ optl (fr_key f)) (fr_parent f) (fr_slice f)
      (c_ancs (fr_own f) ++ [c_parent (fr_own f)]) (c_ancsl (fr_own f) ++ [c_pslice (fr_own f)]).

Definition saved (f : aframe) : sframe := mkFrame (fr_done f) (fr_keys f) [] (fr_inSlice f).
Definition root_saved : sframe := mkFrame 0 (KNodes [root]) [] false.

Definition conc (a : astate) : vstate :=
  match a with
  | AInit => init_state root
  | ASkipped => mkState [] None [] false false (KNodes [root]) 1 [] [] [] [] false
  | ARun [] => init_state root
  | ARun (f :: below) =>
    mkState (map saved below ++ [root_saved]) (fr_parent f) (fr_slice f) (fr_inSlice f) false
            (fr_keys f) (fr_done f) [] (c_path (inner f)) (c_ancs (inner f)) (c_ancsl (inner f)) false
  end.

Definition is_root_frame (f : aframe) : Prop := exists n d, f = ANode n c_root None d.

Fixpoint wf_frames (fs : list aframe) : Prop :=
  match fs with
  | [] => False
  | f :: below =>
    match below with
    | [] => is_root_frame f
    | g :: _ => fr_own f = inner g /\ fr_key f <> None
                /\ fr_done g < keys_len (fr_keys g) /\ wf_frames below
    end
  end.

Definition wf (a : astate) : Prop :=
  match a with
  | AInit | ASkipped => True
  | ARun [] => False
  | ARun (f :: below) => wf_frames (f :: below) /\ fr_done f <= keys_len (fr_keys f)
  end.

(* what a frame still produces from its remaining keys, and after them *)
Definition kont_top (f : aframe) : tr :=
  match f with
  | ANode n _ _ d => wkeys (proj (inner f)) (g_slots n) (skipn d (keys_of (g_kind n)))
  | AList l _ _ d => wlist (proj (inner f)) d (skipn d l)
  end.
Definition after (f : aframe) : tr :=
  match f with
  | ANode n own key _ => leave_tr sel pol (proj own) key n
  | AList _ _ _ _ => nil_tr
  end.
Fixpoint kont_below (fs : list aframe) : tr :=
  match fs with
  | [] => nil_tr
  | g :: r => seq (kont_top (bump g)) (seq (after g) (kont_below r))
  end.
Definition kont (a : astate) : tr :=
  match a with
  | AInit => walk w_root None root
  | ASkipped => nil_tr
  | ARun [] => nil_tr
  | ARun (f :: below) => seq (kont_top f) (seq (after f) (kont_below below))
  end.

(* iterations still needed (upper bound) *)
Definition mtop (f : aframe) : nat :=
  match f with
  | ANode n _ _ d => S (ksteps (g_slots n) (skipn d (keys_of (g_kind n))))
  | AList l _ _ d => S (lsteps (skipn d l))
  end.
Fixpoint mbelow (fs : list aframe) : nat :=
  match fs with [] => 0 | g :: r => mtop (bump g) + mbelow r end.
Definition msr (a : astate) : nat :=
  match a with
  | AInit => nsteps root
  | ASkipped => 1
  | ARun [] => 0
  | ARun (f :: below) => mtop f + mbelow below
  end.

Definition sim_ok (k : tr) (m : nat) (o : outcome) : Prop :=
  match o with
  | Next st' evs => exists a', st' = conc a' /\ wf a' /\ k = seq (evs, false) (kont a') /\ msr a' < m
  | Stop st' evs => fst k = evs /\ v_edits st' = [] /\ v_rebuilt st' = false
  end.

Lemma inner_bump f : inner (bump f) = inner f.
Proof. destruct f; reflexivity. Qed.

Lemma proj_inner f :
  proj (inner f) = w_inner (proj (fr_own f)) (fr_key f) (option_map g_id (fr_parent f)).
Proof. unfold proj, inner, w_inner. cbn. rewrite map_app. reflexivity. Qed.

Lemma wf_frames_bump f below : wf_frames (f :: below) -> wf_frames (bump f :: below).
Proof.
  cbn [wf_frames]. destruct below as [|g r].
  - intros (n & d & ->). exists n, (S d). reflexivity.
  - intros H. destruct f; exact H.
Qed.

Lemma wf_key_none f below : wf_frames (f :: below) -> fr_key f = None -> c_path (fr_own f) = [].
Proof.
  cbn [wf_frames]. destruct below as [|g r].
  - intros (n & d & ->) _. reflexivity.
  - intros (_ & H & _) E. contradiction.
Qed.

Lemma pop_path own (key : option pkey) :
  (key = None -> c_path own = []) -> pop (c_path own ++ optl key) = (key, c_path own).
Proof.
  destruct key as [k|]; cbn [optl]; intros H.
  - apply pop_snoc.
  - rewrite app_nil_r, (H eq_refl). reflexivity.
Qed.

Lemma nsteps_ge2 n : 2 <= nsteps n.
Proof. rewrite nsteps_unfold. lia. Qed.

Lemma ev_enter fn ch k f :
  ev_of PEnter fn ch (Some k) (fr_parent f) (c_path (inner f) ++ [k]) (c_ancs (inner f))
  = mk_event PEnter (proj (inner f)) (Some k) ch fn.
Proof. reflexivity. Qed.

Lemma skipn_nth {A} (l : list A) d x : nth_error l d = Some x -> skipn d l = x :: skipn (S d) l.
Proof.
  revert d; induction l as [|y l IH]; intros [|d] H; cbn in *; try discriminate.
  - inversion H; reflexivity.
  - apply IH; exact H.
Qed.

Lemma nth_lt {A} (l : list A) d : d < length l -> exists x, nth_error l d = Some x.
Proof.
  intros H. destruct (nth_error l d) eqn:E; [eauto|]. apply nth_error_None in E. lia.
Qed.

Lemma kont_bump f below : kont (ARun (bump f :: below)) = kont_below (f :: below).
Proof. destruct f; reflexivity. Qed.

Lemma sim_next a' evs k m :
  wf a' -> k = seq (evs, false) (kont a') -> msr a' < m -> sim_ok k m (Next (conc a') evs).
Proof. intros Hw Hk Hm. exists a'. auto. Qed.

Lemma sim_bump f below evs m :
  wf_frames (f :: below) -> fr_done f < keys_len (fr_keys f) -> mbelow (f :: below) < m ->
  sim_ok (seq (evs, false) (kont_below (f :: below))) m (Next (conc (ARun (bump f :: below))) evs).
Proof.
  intros Hwf Hd Hm. apply sim_next; [|rewrite kont_bump; reflexivity | exact Hm].
  split; [apply wf_frames_bump; exact Hwf | destruct f; cbn in *; lia].
Qed.

(* a node frame is pushed: what remains is the node's children, its leave, and the rest *)
Lemma push_node_sim ch own key fs evs :
  wf (ARun (ANode ch own key 0 :: fs)) ->
  sim_ok (seq (seq (evs, false) (seq (wkeys (w_inner (proj own) key (Some (g_id ch))) (g_slots ch) (keys_of (g_kind ch)))
                                     (leave_tr sel pol (proj own) key ch))) (kont_below fs))
         (nsteps ch + mbelow fs) (Next (conc (ARun (ANode ch own key 0 :: fs))) evs).
Proof.
  intros Hwf. apply sim_next; [exact Hwf | |].
  - cbn [kont kont_top after skipn]. rewrite (proj_inner (ANode _ _ _ _)), !seq_assoc. reflexivity.
  - cbn [msr mtop skipn]. rewrite (nsteps_unfold keys_of ch). lia.
Qed.

Lemma enter_child f below k ch :
  wf_frames (f :: below) -> fr_done f < keys_len (fr_keys f) ->
  sim_ok (seq (walk (proj (inner f)) (Some k) ch) (kont_below (f :: below)))
         (nsteps ch + mbelow (f :: below))
         (enter_node keys_of sel pol (conc (ARun (f :: below))) (fr_done f) (Some k) (Some ch) []
                     (c_path (inner f) ++ [k])).
Proof.
  intros Hwf Hd.
  assert (Hwf' : wf (ARun (ANode ch (inner f) (Some k) 0 :: f :: below))).
  { split; [|cbn; lia]. cbn [wf_frames]. repeat split; try assumption. discriminate. }
  unfold enter_node. rewrite walk_unfold. unfold act, emit.
  destruct (sel (g_kind ch) PEnter) as [fn|] eqn:Es.
  - change (v_parent (conc (ARun (f :: below)))) with (fr_parent f).
    change (v_ancestors (conc (ARun (f :: below)))) with (c_ancs (inner f)).
    rewrite ev_enter.
    destruct (pol (g_id ch) PEnter) eqn:Ep.
    + apply (push_node_sim ch (inner f) (Some k) (f :: below)), Hwf'.
    + rewrite pop_snoc. replace (set_next _ _) with (conc (ARun (bump f :: below))) by (destruct f; reflexivity).
      apply sim_bump; [exact Hwf | exact Hd |]. pose proof (nsteps_ge2 ch). lia.
    + split; [reflexivity|]. split; reflexivity.
  - apply (push_node_sim ch (inner f) (Some k) (f :: below)), Hwf'.
Qed.

Lemma conc_bump f below :
  set_next (conc (ARun (f :: below))) (S (fr_done f)) = conc (ARun (bump f :: below)).
Proof. destruct f; reflexivity. Qed.

Lemma frame_done f : fr_done f = keys_len (fr_keys f) -> kont_top f = nil_tr /\ mtop f = 1.
Proof. destruct f; cbn; intros ->; rewrite skipn_all; split; reflexivity. Qed.

Lemma step_leave_sim f below :
  wf (ARun (f :: below)) -> fr_done f = keys_len (fr_keys f) ->
  sim_ok (kont (ARun (f :: below))) (msr (ARun (f :: below)))
         (step_leave sel pol (conc (ARun (f :: below)))).
Proof.
  intros [Hwf _] Hd.
  cbn [kont msr]. destruct (frame_done f Hd) as [-> ->]. rewrite seq_nil_l.
  unfold step_leave.
  cbn [conc v_stack v_path v_ancestors v_ancestorsSlice v_edits v_parent v_parentSlice
       v_inSlice v_prevInSlice v_rebuilt inner c_path c_ancs c_ancsl].
  rewrite (pop_path (fr_own f) (fr_key f) (wf_key_none f below Hwf)), !pop_snoc.
  cbn [is_nil negb join orl orb].
  destruct below as [|g r].
  - destruct Hwf as (n & d & ->). cbn [map app fr_parent fr_own fr_key after kont_below].
    rewrite seq_nil_r. unfold leave_tr, act, emit.
    destruct (sel (g_kind n) PLeave) as [fn|]; cbn [sim_ok].
    + destruct (pol (g_id n) PLeave); cbn; repeat split; reflexivity.
    + cbn; repeat split; reflexivity.
  - cbn [wf_frames] in Hwf. destruct Hwf as (Hown & Hkey & Hdg & Hwfg).
    cbn [map app]. rewrite Hown.
    (* the popped state is the frame below, one key further *)
    replace (mkState _ _ _ _ _ _ _ _ _ _ _ _) with (conc (ARun (bump g :: r))) by (destruct g; reflexivity).
    assert (Hnn : is_nil (v_stack (conc (ARun (bump g :: r)))) = false).
    { cbn. destruct (map saved r); reflexivity. }
    destruct f as [n own key d|l own key d]; cbn [fr_parent after fr_key fr_own] in *.
    + subst own. unfold leave_tr, act, emit.
      destruct (sel (g_kind n) PLeave) as [fn|]; [destruct (pol (g_id n) PLeave)|]; rewrite ?Hnn;
        try (apply sim_bump; [exact Hwfg | exact Hdg | lia]).
      repeat split; reflexivity.
    + rewrite Hnn. apply (sim_bump g r []); [exact Hwfg | exact Hdg | lia].
Qed.

(* the first remaining item of the top frame, its trace it and its m iterations, split off *)
Lemma kont_item f below it m :
  kont_top f = seq it (kont_top (bump f)) -> mtop f = m + mtop (bump f) ->
  kont (ARun (f :: below)) = seq it (kont_below (f :: below))
  /\ msr (ARun (f :: below)) = m + mbelow (f :: below).
Proof.
  intros Hk Hm. cbn [kont msr kont_below mbelow]. rewrite Hk, Hm, seq_assoc, Nat.add_assoc. split; reflexivity.
Qed.

Lemma step_enter_sim f below :
  wf (ARun (f :: below)) -> fr_done f < keys_len (fr_keys f) ->
  sim_ok (kont (ARun (f :: below))) (msr (ARun (f :: below)))
         (step_enter keys_of sel pol root (conc (ARun (f :: below))) (fr_done f)).
Proof.
  intros [Hwf _] Hd.
  destruct f as [n own key d|l own key d].
  - (* inside a node: the next key names a field *)
    cbn [fr_done fr_keys keys_len] in Hd.
    destruct (nth_lt _ _ Hd) as [k Hk].
    destruct (kont_item (ANode n own key d) below (wslot (proj (inner (ANode n own key d))) k (find_slot k (g_slots n)))
                        (sstep (find_slot k (g_slots n)))) as [-> ->].
    { cbn [kont_top bump]. rewrite (skipn_nth _ _ _ Hk). reflexivity. }
    { cbn [mtop bump]. rewrite (skipn_nth _ _ _ Hk). cbn [VisitorLoop.ksteps]. rewrite Nat.add_succ_r. reflexivity. }
    unfold step_enter.
    cbn [conc v_inSlice v_parent v_keys v_parentSlice v_path fr_inSlice fr_parent fr_keys fr_done key_at].
    rewrite Hk. cbn [option_map field_value].
    destruct (find_slot k (g_slots n)) as [[nm [ch|]|nm [|c0 l]]|] eqn:Ef;
      cbn [is_some is_nil negb andb orb wslot sstep optl];
      (* an absent child, an empty list, no such field: the index moves on *)
      try (apply (sim_bump (ANode n own key d) below []); [assumption | assumption | lia]).
    + apply (enter_child (ANode n own key d) below (KName k) ch Hwf Hd).
    + (* a non-empty list: its frame is pushed without an event *)
      unfold enter_node.
      apply (sim_next (ARun (AList (c0 :: l) (inner (ANode n own key d)) (Some (KName k)) 0 :: ANode n own key d :: below))).
      { split; [|cbn; lia]. cbn [wf_frames]. repeat split; try assumption. discriminate. }
      { cbn [kont kont_top after skipn]. rewrite (proj_inner (AList _ _ _ _)).
        cbn [fr_own fr_key fr_parent option_map]. rewrite !seq_nil_l. reflexivity. }
      { cbn [msr mtop skipn]. lia. }
  - (* inside a list: the next key is an index *)
    cbn [fr_done fr_keys keys_len] in Hd.
    destruct (nth_lt _ _ Hd) as [ch Hk].
    destruct (kont_item (AList l own key d) below (walk (proj (inner (AList l own key d))) (Some (KIdx (N.of_nat d))) ch)
                        (nsteps ch)) as [-> ->].
    { cbn [kont_top bump]. rewrite (skipn_nth _ _ _ Hk). reflexivity. }
    { cbn [mtop bump]. rewrite (skipn_nth _ _ _ Hk). cbn [VisitorLoop.lsteps]. rewrite Nat.add_succ_r. reflexivity. }
    unfold step_enter.
    cbn [conc v_inSlice v_parent v_keys v_parentSlice v_path fr_inSlice fr_parent fr_keys fr_done fr_slice].
    destruct l as [|c0 l']; [cbn in Hd; lia|].
    cbn [slice_value]. rewrite Nat2N.id, Hk.
    cbn [is_some is_nil negb andb orb optl].
    apply (enter_child (AList (c0 :: l') own key d) below (KIdx (N.of_nat d)) ch Hwf Hd).
Qed.

Lemma step_sim a : wf a -> sim_ok (kont a) (msr a) (step root (conc a)).
Proof.
  destruct a as [| |[|f below]]; intros Hwf.
  - unfold VisitorLoop.step, step_enter, enter_node. cbn [conc init_state v_keys v_next keys_len length Nat.eqb
      v_inSlice v_parent v_parentSlice v_path v_ancestors is_some is_nil negb andb orb].
    cbn [kont msr]. rewrite walk_unfold. unfold act, emit.
    assert (Hw : wf (ARun [ANode root c_root None 0])).
    { split; [exists root, 0; reflexivity | cbn; lia]. }
    destruct (sel (g_kind root) PEnter) as [fn|]; [destruct (pol (g_id root) PEnter)|];
      try (rewrite <- (seq_nil_r (seq _ _)), <- (Nat.add_0_r (nsteps root));
           apply (push_node_sim root c_root None []), Hw).
    + apply (sim_next ASkipped); [exact I | reflexivity |]. cbn [msr]. pose proof (nsteps_ge2 root). lia.
    + repeat split; reflexivity.
  - cbn. repeat split; reflexivity.
  - destruct Hwf.
  - unfold VisitorLoop.step.
    change (v_next (conc (ARun (f :: below)))) with (fr_done f).
    change (v_keys (conc (ARun (f :: below)))) with (fr_keys f).
    destruct Hwf as [Hwf Hd].
    destruct (Nat.eqb_spec (keys_len (fr_keys f)) (fr_done f)) as [E|E].
    + apply step_leave_sim; [split; assumption | symmetry; exact E].
    + apply step_enter_sim; [split; assumption | lia].
Qed.

Lemma msr_pos a : wf a -> 0 < msr a.
Proof.
  destruct a as [| |[|f below]]; cbn [msr wf]; [pose proof (nsteps_ge2 root) | | tauto | destruct f; cbn]; lia.
Qed.

Theorem run_spec : forall fuel a acc, wf a ->
  run fuel root (conc a) acc = Done (rev acc ++ fst (kont a)) false false
  \/ (fuel < msr a /\ run fuel root (conc a) acc = OutOfFuel).
Proof.
  induction fuel as [|fuel IH]; intros a acc Hwf; [right; split; [apply msr_pos, Hwf | reflexivity]|].
  cbn [VisitorLoop.run]. pose proof (step_sim a Hwf) as S.
  destruct (step root (conc a)) as [st' es|st' es]; cbn [sim_ok] in S.
  - destruct S as (a' & -> & Hwf' & Hk & Hlt).
    destruct (IH a' (rev es ++ acc) Hwf') as [->|[Hf ->]]; [left | right; split; [lia | reflexivity]].
    rewrite Hk, fst_seq_cont, rev_app_distr, rev_involutive, app_assoc. reflexivity.
  - left. destruct S as (Hk & He & Hr). rewrite He, Hr, Hk, rev_app_distr, rev_involutive. reflexivity.
Qed.

Theorem visit_loop_is_walk : forall fuel evs rp rb,
  visit_loop keys_of sel pol fuel root = Done evs rp rb ->
  evs = walk_events keys_of sel pol root /\ rp = false /\ rb = false.
Proof.
  intros fuel evs rp rb H. change (run fuel root (conc AInit) [] = Done evs rp rb) in H.
  destruct (run_spec fuel AInit [] I) as [E|[_ E]]; rewrite E in H; [inversion H; auto | discriminate].
Qed.

Theorem visit_loop_terminates : forall fuel,
  loop_fuel keys_of root <= fuel ->
  visit_loop keys_of sel pol fuel root = Done (walk_events keys_of sel pol root) false false.
Proof.
  intros fuel H. destruct (run_spec fuel AInit [] I) as [E|[Hlt _]]; [exact E | cbn in Hlt; unfold loop_fuel in H; lia].
Qed.

End Sim.

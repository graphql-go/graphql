(* The type map reducer (Types/Schema.v visit / reduce / add_type): one equation
   for a step of visit that covers the six kinds of definition, the invariant
   principle built on it, and independence of the result from surplus fuel. *)
From Coq Require Import List NArith Bool Lia.
From GQL Require Import Base.Bytes Types.Schema.
Import ListNotations.
Open Scope N_scope.

Lemma fold_res_app {A} (f : tmap -> A -> res tmap) l1 l2 tm :
  fold_res f (l1 ++ l2) tm = match fold_res f l1 tm with OK tm1 => fold_res f l2 tm1 | e => e end.
Proof.
  revert tm. induction l1 as [|x r IH]; intros tm; simpl; auto.
  destruct (f tm x); auto.
Qed.

Lemma fold_res_inv {A} (f : tmap -> A -> res tmap) (P : tmap -> Prop) (l : list A) :
  (forall tm x tm', In x l -> P tm -> f tm x = OK tm' -> P tm') ->
  forall tm tm', P tm -> fold_res f l tm = OK tm' -> P tm'.
Proof.
  induction l as [|x r IH]; intros Hf tm tm' HP H; simpl in H.
  - inversion H; subst; exact HP.
  - destruct (f tm x) as [tm1| |] eqn:E; try discriminate.
    apply (IH (fun tm0 y tm0' Hy => Hf tm0 y tm0' (or_intror Hy)) tm1 tm').
    + exact (Hf tm x tm1 (or_introl eq_refl) HP E).
    + exact H.
Qed.

Lemma fold_res_ext {A} (f g : tmap -> A -> res tmap) : forall l tm,
  (forall tm x, f tm x <> OutOfFuel -> g tm x = f tm x) ->
  fold_res f l tm <> OutOfFuel -> fold_res g l tm = fold_res f l tm.
Proof.
  induction l as [|x r IH]; intros tm Hfg H; simpl in *; [reflexivity|].
  destruct (f tm x) as [tm1| |] eqn:E.
  - rewrite (Hfg tm x) by (rewrite E; discriminate). rewrite E. apply IH; assumption.
  - rewrite (Hfg tm x) by (rewrite E; discriminate). rewrite E. reflexivity.
  - exfalso. apply H. reflexivity.
Qed.

Lemma fold_res_fuel {A} (f : tmap -> A -> res tmap) (P : tmap -> Prop) :
  (forall tm x, P tm -> f tm x <> OutOfFuel) ->
  (forall tm x tm', P tm -> f tm x = OK tm' -> P tm') ->
  forall l tm, P tm -> fold_res f l tm <> OutOfFuel.
Proof.
  intros Hstep Hkeep. induction l as [|x r IH]; intros tm HP; simpl; [discriminate|].
  destruct (f tm x) as [tm1| |] eqn:E.
  - exact (IH tm1 (Hkeep tm x tm1 HP E)).
  - discriminate.
  - exfalso. exact (Hstep tm x HP E).
Qed.

(* what the reducer has established about a definition when it enters it in the map *)
Definition static_ok (defs : list (N * tdef)) (d : tdef) : Prop :=
  ctor_err d = false /\
  match d with
  | DScalar _ _ _ _ | DEnum _ _ => True
  | DObject _ ifs fs _ => define_interfaces defs ifs <> None /\ define_field_map defs fs <> None
  | DInterface _ fs _ => define_field_map defs fs <> None
  | DUnion _ ms rt => define_union_types defs ms rt <> None
  | DInput _ fs => define_input_field_map defs fs <> None
  end.

(* What visit does with a definition it enters: the references it reduces, in
   order, and whether every lazy part of the definition is defined.  An object
   whose interfaces are defined and whose fields are not still has its
   interfaces reduced before the error comes back: the flag is false. *)
Definition follow (defs : list (N * tdef)) (d : tdef) : option (list tref * bool) :=
  match d with
  | DScalar _ _ _ _ | DEnum _ _ => Some ([], true)
  | DObject _ ifs fs _ =>
    match define_interfaces defs ifs with
    | None => None
    | Some ids => Some match define_field_map defs fs with
                       | Some vfs => (map TNamed ids ++ field_refs vfs, true)
                       | None => (map TNamed ids, false)
                       end
    end
  | DInterface _ fs _ => option_map (fun vfs => (field_refs vfs, true)) (define_field_map defs fs)
  | DUnion _ ms rt => option_map (fun ids => (map TNamed ids, true)) (define_union_types defs ms rt)
  | DInput _ fs => option_map (fun l => (map snd l, true)) (define_input_field_map defs fs)
  end.

Lemma visit_eq defs f tm id : visit defs (S f) tm id =
  match find_def defs id with
  | None => Err
  | Some d =>
    if ctor_err d then Err else
    match tm_find (def_name d) tm with
    | Some id' => if id' =? id then OK tm else Err
    | None =>
      match follow defs d with
      | None => Err
      | Some (l, ok) =>
        match fold_res (reduce defs f) l ((def_name d, id) :: tm) with
        | OK tm' => if ok then OK tm' else Err
        | e => e
        end
      end
    end
  end.
Proof.
  cbn [visit]. destruct (find_def defs id) as [d|]; [|reflexivity].
  destruct (ctor_err d); [reflexivity|]. destruct (tm_find (def_name d) tm); [reflexivity|].
  destruct d as [n ? ? ?|n ifs fs ?|n fs ?|n ms rt|n ?|n fs]; cbn [follow def_name option_map]; try reflexivity.
  - destruct (define_interfaces defs ifs); [|reflexivity].
    destruct (define_field_map defs fs); [rewrite fold_res_app|]; destruct (fold_res _ (map TNamed _) _); try reflexivity.
    destruct (fold_res _ _ _); reflexivity.
  - destruct (define_field_map defs fs); [|reflexivity]. cbn [option_map]. destruct (fold_res _ _ _); reflexivity.
  - destruct (define_union_types defs ms rt); [|reflexivity]. cbn [option_map]. destruct (fold_res _ _ _); reflexivity.
  - destruct (define_input_field_map defs fs); [|reflexivity]. cbn [option_map]. destruct (fold_res _ _ _); reflexivity.
Qed.

Lemma follow_static defs d l : ctor_err d = false -> follow defs d = Some (l, true) -> static_ok defs d.
Proof.
  intros Hc H. split; [exact Hc|].
  destruct d as [| ? ifs fs ?| ? fs ?| ? ms rt| |? fs]; cbn [follow] in H; auto.
  - destruct (define_interfaces defs ifs); [|discriminate].
    destruct (define_field_map defs fs); [split|]; discriminate.
  - destruct (define_field_map defs fs); discriminate.
  - destruct (define_union_types defs ms rt); discriminate.
  - destruct (define_input_field_map defs fs); discriminate.
Qed.

Lemma add_type_eq defs fuel tm t :
  add_type defs fuel tm t = if type_err defs (norm t) then Err else reduce defs fuel tm (norm t).
Proof. unfold add_type. destruct (norm t); reflexivity. Qed.

Definition edge (defs : list (N * tdef)) (x i : N) : Prop :=
  exists d l t, find_def defs x = Some d /\ follow defs d = Some (l, true) /\ In t l /\ target_of defs t = TgtTo i.

(* A property P of type maps that survives every insertion the reducer makes
   holds of the map it returns.  Q is a property of the types the reducer is
   sent to that is inherited along references; an insertion may rely on it. *)
Section Invariant.
  Variable defs : list (N * tdef).
  Variable P : tmap -> Prop.
  Variable Q : N -> Prop.
  Hypothesis P_insert : forall tm id d,
    P tm -> Q id -> find_def defs id = Some d -> static_ok defs d -> tm_find (def_name d) tm = None ->
    P ((def_name d, id) :: tm).
  Hypothesis Q_edge : forall x i, Q x -> edge defs x i -> Q i.

  Lemma reduce_step (f : nat)
    (IH : forall tm id tm', P tm -> Q id -> visit defs f tm id = OK tm' -> P tm') :
    forall tm t tm', P tm -> (forall i, target_of defs t = TgtTo i -> Q i) -> reduce defs f tm t = OK tm' -> P tm'.
  Proof.
    intros tm t tm' HP HQ H. unfold reduce in H. destruct (target_of defs t) as [| |i]; try discriminate.
    - inversion H; subst; exact HP.
    - exact (IH tm i tm' HP (HQ i eq_refl) H).
  Qed.

  Lemma visit_inv : forall fuel tm id tm', P tm -> Q id -> visit defs fuel tm id = OK tm' -> P tm'.
  Proof.
    induction fuel as [|f IH]; intros tm id tm' HP HQ H; [discriminate|]. rewrite visit_eq in H.
    destruct (find_def defs id) as [d|] eqn:Ed; [|discriminate].
    destruct (ctor_err d) eqn:Ec; [discriminate|].
    destruct (tm_find (def_name d) tm) as [id'|] eqn:Et.
    - destruct (id' =? id); inversion H; subst; exact HP.
    - destruct (follow defs d) as [[l [|]]|] eqn:Ef; try discriminate;
        destruct (fold_res _ l _) as [tm2| |] eqn:E2; inversion H; subst.
      refine (fold_res_inv _ P l _ _ _ (P_insert _ _ _ HP HQ Ed (follow_static _ _ _ Ec Ef) Et) E2).
      intros tm0 t tm0' Ht HP0. apply (reduce_step f IH); [exact HP0|].
      intros i Hi. apply (Q_edge id); [exact HQ|]. exists d, l, t. auto.
  Qed.

  Lemma reduce_inv fuel : forall tm t tm', P tm -> (forall i, target_of defs t = TgtTo i -> Q i) ->
    reduce defs fuel tm t = OK tm' -> P tm'.
  Proof. exact (reduce_step fuel (visit_inv fuel)). Qed.

  Lemma add_type_inv fuel tm t tm' : P tm -> (forall i, target_of defs (norm t) = TgtTo i -> Q i) ->
    add_type defs fuel tm t = OK tm' -> P tm'.
  Proof.
    intros HP HQ H. rewrite add_type_eq in H. destruct (type_err defs (norm t)); [discriminate|].
    exact (reduce_inv fuel _ _ _ HP HQ H).
  Qed.

  Lemma add_types_inv fuel ts tm tm' : P tm -> (forall t i, In t ts -> target_of defs (norm t) = TgtTo i -> Q i) ->
    fold_res (add_type defs fuel) ts tm = OK tm' -> P tm'.
  Proof.
    intros HP HQ. apply (fold_res_inv _ P ts); [|exact HP].
    intros tm0 t tm0' Ht HP0. exact (add_type_inv fuel tm0 t tm0' HP0 (fun i => HQ t i Ht)).
  Qed.
End Invariant.

(* the common case: nothing is needed of the types visited *)
Section Invariant0.
  Variable defs : list (N * tdef).
  Variable P : tmap -> Prop.
  Hypothesis P_insert : forall tm id d,
    P tm -> find_def defs id = Some d -> static_ok defs d -> tm_find (def_name d) tm = None -> P ((def_name d, id) :: tm).

  Lemma reduce_inv0 fuel tm t tm' : P tm -> reduce defs fuel tm t = OK tm' -> P tm'.
  Proof.
    intros HP. exact (reduce_inv defs P (fun _ => True) (fun tm id d h _ => P_insert tm id d h) (fun _ _ _ _ => I) fuel tm t tm' HP (fun _ _ => I)).
  Qed.

  Lemma add_type_inv0 fuel tm t tm' : P tm -> add_type defs fuel tm t = OK tm' -> P tm'.
  Proof.
    intros HP H. rewrite add_type_eq in H. destruct (type_err defs (norm t)); [discriminate|]. exact (reduce_inv0 fuel _ _ _ HP H).
  Qed.
End Invariant0.

Lemma visit_mono defs : forall f f' tm id, (f <= f')%nat -> visit defs f tm id <> OutOfFuel ->
  visit defs f' tm id = visit defs f tm id.
Proof.
  induction f as [|f IH]; intros f' tm id Hle H; [contradiction H; reflexivity|].
  destruct f' as [|f']; [lia|]. rewrite !visit_eq in *.
  destruct (find_def defs id) as [d|]; [|reflexivity].
  destruct (ctor_err d); [reflexivity|]. destruct (tm_find (def_name d) tm); [reflexivity|].
  destruct (follow defs d) as [[l ok]|]; [|reflexivity].
  rewrite (fold_res_ext (reduce defs f) (reduce defs f')); [reflexivity| |].
  - intros tm0 t. unfold reduce. destruct (target_of defs t); try reflexivity. apply IH. lia.
  - intro E. apply H. rewrite E. reflexivity.
Qed.

Lemma add_type_mono defs f f' tm t : (f <= f')%nat -> add_type defs f tm t <> OutOfFuel ->
  add_type defs f' tm t = add_type defs f tm t.
Proof.
  intros Hle. rewrite !add_type_eq. destruct (type_err defs (norm t)); [reflexivity|].
  unfold reduce. destruct (target_of defs (norm t)); try reflexivity. apply visit_mono. exact Hle.
Qed.

Lemma add_types_mono defs f f' ts tm tm' : (f <= f')%nat ->
  fold_res (add_type defs f) ts tm = OK tm' -> fold_res (add_type defs f') ts tm = OK tm'.
Proof.
  intros Hle H. rewrite (fold_res_ext (add_type defs f) (add_type defs f')); [exact H| |rewrite H; discriminate].
  intros tm0 t. apply add_type_mono. exact Hle.
Qed.

(* From the validator's document (wdoc, with node ids) to the hypotheses of the overlap
   theorems on its erasure: no fragment cycle (NoFragmentCycles' declarative predicate) =>
   no_cycle, hence a rank; UniqueArgumentNames silent => args_ok. *)
From Coq Require Import List Bool String NArith Relations.
From GQL Require Import Exec.Syntax Validate.VSyntax Validate.Overlap Validate.OverlapSpec Validate.OverlapWf Validate.Rules
     Proofs.ValidateRules Proofs.ValidateOverlap Proofs.ValidateRun Proofs.ValidateCost Proofs.ValidateL1
     Proofs.ValidateCycles Proofs.ValidateReflect Proofs.ValidateWf Proofs.ValidateRank.
Import ListNotations.
Open Scope string_scope.
Open Scope list_scope.

Section WSelInd.
Variable P : wsel -> Prop.
Hypothesis Hf : forall id al nm args ds ssid sub, Forall P sub -> P (WField id al nm args ds ssid sub).
Hypothesis Hs : forall id nid g ds, P (WSpread id nid g ds).
Hypothesis Hi : forall id tc ds ssid sub, Forall P sub -> P (WInline id tc ds ssid sub).
Fixpoint wsel_ind' (s : wsel) : P s :=
  match s with
  | WField id al nm args ds ssid sub =>
    Hf id al nm args ds ssid sub
       ((fix go (l : list wsel) : Forall P l :=
           match l with [] => Forall_nil P | x :: r => Forall_cons x (wsel_ind' x) (go r) end) sub)
  | WSpread id nid g ds => Hs id nid g ds
  | WInline id tc ds ssid sub =>
    Hi id tc ds ssid sub
       ((fix go (l : list wsel) : Forall P l :=
           match l with [] => Forall_nil P | x :: r => Forall_cons x (wsel_ind' x) (go r) end) sub)
  end.
End WSelInd.

Definition direct (ss : list wsel) : list (N * (N * name)) :=
  flat_map (fun x => match x with WSpread id nid g _ => [(id, (nid, g))] | _ => [] end) ss.

Lemma ctx_go_map : forall l,
  (fix go (l : list wsel) : list (list (N * (N * name))) :=
     match l with [] => [] | x :: r => ctx_spreads_sel x :: go r end) l = map ctx_spreads_sel l.
Proof. induction l as [|x r IH]; simpl; [reflexivity | rewrite IH; reflexivity]. Qed.

Lemma ctx_spreads_sel_field : forall id al nm args ds ssid sub,
  ctx_spreads_sel (WField id al nm args ds ssid sub) = ctx_spreads sub.
Proof. intros. simpl. rewrite ctx_go_map. reflexivity. Qed.
Lemma ctx_spreads_sel_inline : forall id tc ds ssid sub,
  ctx_spreads_sel (WInline id tc ds ssid sub) = ctx_spreads sub.
Proof. intros. simpl. rewrite ctx_go_map. reflexivity. Qed.

Lemma all_spreads_go : forall l,
  (fix go (l : list selection) : list name :=
     match l with [] => [] | x :: r => all_spreads_sel x ++ go r end) l = all_spreads l.
Proof. unfold all_spreads. induction l as [|x r IH]; simpl; [reflexivity | rewrite IH; reflexivity]. Qed.

Lemma spreads_erase_list : forall ss h,
  Forall (fun x => forall h, In h (all_spreads_sel (erase_sel x)) <->
                   (exists id nid ds, x = WSpread id nid h ds) \/ In h (map (fun p => snd (snd p)) (ctx_spreads_sel x))) ss ->
  (In h (all_spreads (map erase_sel ss)) <-> In h (spread_names ss)).
Proof.
  intros ss h IH. rewrite Forall_forall in IH. unfold all_spreads, spread_names, ctx_spreads.
  split; intro Hh; [rewrite map_app | rewrite map_app in Hh].
  - apply in_flat_map in Hh. destruct Hh as [y [Hy Hh]]. apply in_map_iff in Hy. destruct Hy as [x [<- Hx]].
    apply in_or_app. destruct (proj1 (IH x Hx h) Hh) as [(id & nid & ds & ->)|H].
    + left. apply in_map_iff. exists (id, (nid, h)). split; [reflexivity|].
      apply in_flat_map. exists (WSpread id nid h ds). split; [exact Hx | left; reflexivity].
    + right. apply in_map_iff in H. destruct H as [p [Ep Hp]]. apply in_map_iff. exists p. split; [exact Ep|].
      apply in_concat. exists (ctx_spreads_sel x). split; [|exact Hp]. apply -> in_rev. apply in_map. exact Hx.
  - apply in_flat_map. apply in_app_or in Hh. destruct Hh as [Hh|Hh]; apply in_map_iff in Hh; destruct Hh as [p [<- Hp]].
    + apply in_flat_map in Hp. destruct Hp as [x [Hx Hp]]. exists (erase_sel x). split; [apply in_map; exact Hx|].
      apply (proj2 (IH x Hx _)). left. destruct x as [| id nid g ds |]; [destruct Hp | | destruct Hp].
      destruct Hp as [<-|[]]. exists id, nid, ds. reflexivity.
    + apply in_concat in Hp. destruct Hp as [l [Hl Hp]]. apply in_rev, in_map_iff in Hl. destruct Hl as [x [<- Hx]].
      exists (erase_sel x). split; [apply in_map; exact Hx|]. apply (proj2 (IH x Hx _)). right. apply (in_map (fun p => snd (snd p))). exact Hp.
Qed.

Lemma spreads_erase_sel : forall x h, In h (all_spreads_sel (erase_sel x)) <->
  (exists id nid ds, x = WSpread id nid h ds) \/ In h (map (fun p => snd (snd p)) (ctx_spreads_sel x)).
Proof.
  induction x as [id al nm args ds ssid sub IH | id nid g ds | id tc ds ssid sub IH] using wsel_ind'; intro h.
  - rewrite ctx_spreads_sel_field. simpl. rewrite all_spreads_go.
    split; [right; apply (proj1 (spreads_erase_list sub h IH)); assumption|].
    intros [(? & ? & ? & E)|H]; [discriminate E | apply (proj2 (spreads_erase_list sub h IH)); exact H].
  - simpl. split; [intros [<-|[]]; left; exists id, nid, ds; reflexivity|].
    intros [(? & ? & ? & E)|[]]. injection E as _ _ <- _. left. reflexivity.
  - rewrite ctx_spreads_sel_inline. simpl. rewrite all_spreads_go.
    split; [right; apply (proj1 (spreads_erase_list sub h IH)); assumption|].
    intros [(? & ? & ? & E)|H]; [discriminate E | apply (proj2 (spreads_erase_list sub h IH)); exact H].
Qed.

Lemma spreads_erase : forall ss h, In h (all_spreads (map erase_sel ss)) <-> In h (spread_names ss).
Proof. intros ss h. apply spreads_erase_list. apply Forall_forall. intros x _. apply spreads_erase_sel. Qed.

Lemma clos_trans_incl : forall {A} (R R' : A -> A -> Prop),
  (forall a b, R a b -> R' a b) -> forall a b, clos_trans A R a b -> clos_trans A R' a b.
Proof.
  intros A R R' H a b T. induction T as [a b E | a c b _ IH1 _ IH2]; [apply t_step, H, E | exact (t_trans _ _ _ _ _ IH1 IH2)].
Qed.

Lemma edgeD_edge : forall S W g h, edgeD S (erase W) g h -> edge W g h.
Proof.
  intros S W g h [b [Eb Hh]]. apply fbody_some in Eb. destruct Eb as [fr [Ef Eb]]. subst b. unfold bodyf in Hh. simpl in Hh.
  destruct (frag_some _ _ _ Ef) as [Hin En].
  simpl in Hin. apply in_map_iff in Hin. destruct Hin as [f [E Hf]]. subst fr. simpl in *.
  exists f. split; [exact Hf|]. split; [exact En|]. apply (proj1 (spreads_erase _ _)). exact Hh.
Qed.

Theorem no_cycle_of_W : forall S W, ~ Violates_no_fragment_cycles W -> no_cycle S (erase W).
Proof.
  intros S W H g R. apply H. exists g. exact (clos_trans_incl _ _ (edgeD_edge S W) g g R).
Qed.

Theorem acyclic_of_W : forall S W, ~ Violates_no_fragment_cycles W -> acyclic S (erase W).
Proof. intros S W H. apply rank_exists. apply no_cycle_of_W. exact H. Qed.

Lemma NoDup_names_nodup : forall l, NoDup l -> names_nodup l = true.
Proof.
  induction l as [|x r IH]; intro H; [reflexivity|]. inversion H as [|? ? Hx Hr]; subst. simpl.
  rewrite (IH Hr), andb_true_r. apply negb_true_iff. apply nmem_not_in. exact Hx.
Qed.

Section Args.
Variable S : schema.
Definition ok_item (i : item) : Prop :=
  match i with IField _ _ _ _ args _ _ => NoDup (map wa_name args) | _ => True end.
Definition ok_node (y : selection) : Prop := names_nodup (map fst (node_args y)) = true.

Lemma walk_go_flat : forall pt ty fd l,
  (fix go (l : list wsel) : list item :=
     match l with [] => [] | x :: r => walk_sel S pt ty fd x ++ go r end) l = flat_map (walk_sel S pt ty fd) l.
Proof. intros. induction l as [|x r IH]; simpl; [reflexivity | rewrite IH; reflexivity]. Qed.

Lemma ok_lists : forall sub,
  Forall (fun x => forall pt ty fd, (forall i, In i (walk_sel S pt ty fd x) -> ok_item i) ->
                   ok_node (erase_sel x) /\ forall l y, In l (sel_lists (erase_sel x)) -> In y l -> ok_node y) sub ->
  forall pt ty fd, (forall i, In i (flat_map (walk_sel S pt ty fd) sub) -> ok_item i) ->
  forall l y, In l (lists_of (map erase_sel sub)) -> In y l -> ok_node y.
Proof.
  intros sub IH pt ty fd Hok l y Hl Hy. rewrite Forall_forall in IH.
  assert (Hx : forall x, In x sub -> forall i, In i (walk_sel S pt ty fd x) -> ok_item i).
  { intros x Hx i Hi. apply Hok. apply in_flat_map. exists x. split; assumption. }
  destruct Hl as [Hl|Hl].
  - subst l. apply in_map_iff in Hy. destruct Hy as [x [E Hin]]. subst y.
    apply (proj1 (IH x Hin pt ty fd (Hx x Hin))).
  - apply in_flat_map in Hl. destruct Hl as [z [Hz Hl]]. apply in_map_iff in Hz. destruct Hz as [x [E Hin]]. subst z.
    apply (proj2 (IH x Hin pt ty fd (Hx x Hin)) l y Hl Hy).
Qed.

Lemma ok_sel : forall x pt ty fd, (forall i, In i (walk_sel S pt ty fd x) -> ok_item i) ->
  ok_node (erase_sel x) /\ forall l y, In l (sel_lists (erase_sel x)) -> In y l -> ok_node y.
Proof.
  induction x as [id al nm args ds ssid sub IH | id nid g ds | id tc ds ssid sub IH] using wsel_ind'; intros pt ty fd Hok.
  - split.
    + unfold ok_node. simpl. rewrite map_map. simpl. apply NoDup_names_nodup.
      apply (Hok (IField pt (ti_fdef S pt nm) id nm args ssid (Rules.nonempty sub))). simpl. left. reflexivity.
    + simpl erase_sel. rewrite sel_lists_field. intros l y Hl Hy.
      refine (ok_lists sub IH _ _ _ _ l y Hl Hy).
      intros i Hi. apply Hok. simpl. right. apply in_app_iff. right. apply in_app_iff. right.
      rewrite walk_go_flat. exact Hi.
  - split; [reflexivity|]. intros l y [].
  - split; [reflexivity|]. simpl erase_sel. rewrite sel_lists_inline. intros l y Hl Hy.
    refine (ok_lists sub IH _ _ _ _ l y Hl Hy).
    intros i Hi. apply Hok. simpl. right. apply in_app_iff. right. rewrite walk_go_flat. exact Hi.
Qed.

Lemma ok_top : forall ss pt ty fd, (forall i, In i (walk_sels S pt ty fd ss) -> ok_item i) ->
  forall l y, In l (lists_of (map erase_sel ss)) -> In y l -> ok_node y.
Proof.
  intros ss pt ty fd Hok. apply (ok_lists ss) with (pt := pt) (ty := ty) (fd := fd); [|exact Hok].
  apply Forall_forall. intros x _ pt' ty' fd'. apply ok_sel.
Qed.

Theorem args_ok_of_W : forall W, rule_unique_argument_names S W = [] -> args_ok (erase W) = true.
Proof.
  intros W Hr.
  assert (Hok : forall i, In i (doc_items S W) -> ok_item i).
  { intros i Hi. destruct i as [pt fdd id nm args ssid hs| | | | |]; try exact I. simpl.
    destruct (names_nodup (map wa_name args)) eqn:E; [apply names_nodup_NoDup; exact E|]. exfalso.
    assert (V : rule_unique_argument_names S W <> []).
    { apply unique_argument_names_iff. exists (IField pt fdd id nm args ssid hs). split; [exact Hi|]. simpl.
      intro ND. rewrite (NoDup_names_nodup _ ND) in E. discriminate. }
    apply V. exact Hr. }
  unfold args_ok. apply forallb_forall. intros y Hy. apply in_concat in Hy. destruct Hy as [l [Hl Hy]].
  unfold doc_lists in Hl. simpl in Hl. rewrite !flat_map_concat_map, !map_map, <- !flat_map_concat_map in Hl.
  apply in_app_iff in Hl. destruct Hl as [Hl|Hl]; apply in_flat_map in Hl; destruct Hl as [o [Ho Hl]]; simpl in Hl.
  - refine (ok_top (wo_sel o) _ _ _ _ l y Hl Hy). intros i Hi. apply Hok. unfold doc_items. apply in_app_iff. left.
    apply in_flat_map. exists o. split; [exact Ho|]. unfold op_items. apply in_app_iff. right. exact Hi.
  - refine (ok_top (wf_sel o) _ _ _ _ l y Hl Hy). intros i Hi. apply Hok. unfold doc_items. apply in_app_iff. right.
    apply in_flat_map. exists o. split; [exact Ho|]. unfold frag_items. apply in_app_iff. right. exact Hi.
Qed.
End Args.

(* With unique fragment names the erased document has exactly the validator's edges: the
   certified test ranked_b decides NoFragmentCycles' declarative predicate. *)
Lemma last_fragment_unique : forall fs f acc, NoDup (map fr_name fs) -> In f fs -> last_fragment (fr_name f) fs acc = Some f.
Proof.
  induction fs as [|x r IH]; intros f acc ND Hin; [destruct Hin|]. simpl in ND. inversion ND as [|? ? Hx ND']; subst. simpl.
  destruct Hin as [Hin|Hin].
  - subst x. rewrite String.eqb_refl. apply last_fragment_skip. intros y Hy E. apply Hx. rewrite <- E. apply in_map. exact Hy.
  - apply IH; assumption.
Qed.

Lemma edge_edgeD : forall S W g h, NoDup (map wf_name (w_frags W)) -> edge W g h -> edgeD S (erase W) g h.
Proof.
  intros S W g h ND [f [Hf [En Hh]]]. subst g.
  exists (resolve S (wf_cond f), map erase_sel (wf_sel f)). split; [|simpl; apply (proj2 (spreads_erase _ _)); exact Hh].
  apply (fbody_frag S (erase W) (wf_name f) (erase_frag f)). unfold frag. simpl.
  change (wf_name f) with (fr_name (erase_frag f)). apply last_fragment_unique.
  - rewrite map_map. simpl. exact ND.
  - apply in_map. exact Hf.
Qed.

Theorem cycles_oracle : forall W, NoDup (map wf_name (w_frags W)) ->
  (ranked_b (erase W) = true <-> ~ Violates_no_fragment_cycles W).
Proof.
  intros W ND. set (S := {| s_types := []; s_query := ""; s_mutation := None |}). split.
  - intros H [g R]. apply (proj1 (ranked_b_acyclic S (erase W))) in H.
    apply (acyclic_no_cycle S (erase W) H g).
    exact (clos_trans_incl _ _ (fun a b => edge_edgeD S W a b ND) g g R).
  - intro H. apply (proj2 (ranked_b_acyclic S (erase W))). apply acyclic_of_W. exact H.
Qed.

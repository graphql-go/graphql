(* Completeness of the parser model with respect to the grammar: a derivable
   token list is parsed to the derived AST (executable definitions here, the rest in
   SyntaxCompleteSDL.v).  The parser decides by one token of lookahead, so each statement
   says which kinds of token must not follow the piece ([Complete], its last argument), and
   the side conditions are about the kinds a piece may begin with. *)
From Coq Require Import String List Bool Lia Arith.
From GQL Require Import Base.Bytes Syntax.Lexer Syntax.Ast Syntax.Parser Syntax.Grammar Proofs.SyntaxSound.
Import ListNotations.
Open Scope N_scope.

Definition hk (rest : list token) : option tkind := match rest with t :: _ => Some (tk t) | [] => None end.
Definition nk (k : tkind) (rest : list token) : Prop := hk rest <> Some k.

Lemma tkind_beq_refl : forall k, tkind_beq k k = true.
Proof. destruct k; reflexivity. Qed.
Lemma tkind_beq_neq : forall a b, a <> b -> tkind_beq a b = false.
Proof. intros a b H. destruct (tkind_beq a b) eqn:E; [apply tkind_beq_eq in E; contradiction|reflexivity]. Qed.

Lemma peek_nk : forall k pe rest, nk k rest -> peek k (pe, rest) = false.
Proof.
  intros k pe [|t r] H; [reflexivity|]. unfold peek; simpl. apply tkind_beq_neq. intro E. apply H. simpl. congruence.
Qed.
Lemma peek_yes : forall k pe t r, tk t = k -> peek k (pe, t :: r) = true.
Proof. intros k pe t r <-. unfold peek; simpl. apply tkind_beq_refl. Qed.
Lemma skip_nk : forall k pe rest, nk k rest -> skip k (pe, rest) = Ok (false, (pe, rest)).
Proof. intros k pe rest H. unfold skip. rewrite (peek_nk _ _ _ H). reflexivity. Qed.
Lemma skip_yes : forall k pe t r, tk t = k -> skip k (pe, t :: r) = Ok (true, (tend t, r)).
Proof. intros k pe t r H. unfold skip. rewrite (peek_yes _ _ _ _ H). reflexivity. Qed.
Lemma expect_yes : forall k pe t r, tk t = k -> expect k (pe, t :: r) = Ok (t, (tend t, r)).
Proof. intros k pe t r <-. unfold expect; simpl. rewrite tkind_beq_refl. reflexivity. Qed.
Lemma expect_kw_yes : forall w pe t r, tk t = NAME -> tval t = w -> expect_kw w (pe, t :: r) = Ok (t, (tend t, r)).
Proof. intros w pe t r K <-. unfold expect_kw; simpl. rewrite K, bytes_eqb_refl. reflexivity. Qed.
Lemma cur_is_kw_yes : forall w pe t r, tk t = NAME -> tval t = w -> cur_is_kw w (pe, t :: r) = true.
Proof. intros w pe t r K <-. unfold cur_is_kw. cbn [snd]. rewrite K, bytes_eqb_refl. reflexivity. Qed.
Lemma cur_is_kw_no : forall w pe t r, tk t = NAME -> tval t <> w -> cur_is_kw w (pe, t :: r) = false.
Proof. intros w pe t r K V. unfold cur_is_kw. cbn [snd]. rewrite K. apply bytes_eqb_false. exact V. Qed.
Lemma cur_is_kw_nk : forall w pe rest, nk NAME rest -> cur_is_kw w (pe, rest) = false.
Proof.
  intros w pe [|t r] H; [reflexivity|]. unfold cur_is_kw. cbn [snd]. rewrite tkind_beq_neq; [reflexivity|].
  intro E. apply H. simpl. congruence.
Qed.
Lemma parse_name_yes : forall pe t r, tk t = NAME -> parse_name (pe, t :: r) = Ok (tok_name t, (tend t, r)).
Proof. intros pe t r K. unfold parse_name. rewrite (expect_yes _ _ _ _ K). reflexivity. Qed.
Lemma parse_named_yes : forall pe t r, tk t = NAME -> parse_named (pe, t :: r) = Ok (tok_named t, (tend t, r)).
Proof. intros pe t r K. unfold parse_named. rewrite (parse_name_yes _ _ _ K). reflexivity. Qed.

Lemma nk_cons : forall k t r, tk t <> k -> nk k (t :: r).
Proof. intros k t r H E. simpl in E. congruence. Qed.
Lemma nk_cons_eq : forall k k' t r, tk t = k' -> k' <> k -> nk k (t :: r).
Proof. intros k k' t r <- H. apply nk_cons. exact H. Qed.

Lemma endof_nonnil : forall p pe pe', p <> [] -> endof pe p = endof pe' p.
Proof. intros [|t p] pe pe' H; [contradiction|reflexivity]. Qed.

Lemma mkl_span_c : forall p pe rest, p <> [] -> mkl (cur_start (pe, p ++ rest)) (endof pe p, rest) = span p.
Proof. intros [|t p] pe rest H; [contradiction|reflexivity]. Qed.

(* what a piece may begin with (starts: or be empty), what a rest must not begin with *)
Definition starts (ks : list tkind) (p : list token) : Prop := p = [] \/ exists k, hk p = Some k /\ In k ks.
Definition nks (fs : list tkind) (rest : list token) : Prop := forall k, In k fs -> nk k rest.
Definition disjoint (ks fs : list tkind) : Prop := forall k, In k ks -> ~ In k fs.

(* facts about concrete sets of kinds, by evaluation *)
Definition memb (k : tkind) (ks : list tkind) : bool := existsb (tkind_beq k) ks.

Lemma memb_In : forall k ks, In k ks -> memb k ks = true.
Proof. intros k ks H. apply existsb_exists. exists k. split; [exact H|apply tkind_beq_refl]. Qed.

Lemma notin_dec : forall k ks, memb k ks = false -> ~ In k ks.
Proof. intros k ks H Hk. rewrite (memb_In _ _ Hk) in H. discriminate H. Qed.

Lemma disjoint_dec : forall ks fs, forallb (fun k => negb (memb k fs)) ks = true -> disjoint ks fs.
Proof. intros ks fs H k Hk. apply notin_dec. apply negb_true_iff. exact (proj1 (forallb_forall _ _) H k Hk). Qed.

Lemma incl_dec : forall fs fs', forallb (fun k => memb k fs') fs = true -> incl fs fs'.
Proof.
  intros fs fs' H k Hk. pose proof (proj1 (forallb_forall _ _) H k Hk) as M. apply existsb_exists in M.
  destruct M as (x & Hx & E). apply tkind_beq_eq in E. subst x. exact Hx.
Qed.

Ltac sets := first [apply disjoint_dec | apply incl_dec | apply notin_dec]; reflexivity.

Lemma first_in_starts : forall ks p, first_in ks p -> starts ks p.
Proof. intros ks p (t & p' & -> & H). right. exists (tk t). split; [reflexivity|exact H]. Qed.

Lemma nk_app : forall k ks p rest, starts ks p -> ~ In k ks -> nk k rest -> nk k (p ++ rest).
Proof.
  intros k ks p rest [->|(k' & H1 & H2)] Hk Hr; [exact Hr|].
  destruct p as [|t p]; [discriminate H1|]. simpl in H1. inversion H1; subst k'.
  intro E. simpl in E. inversion E as [E']. rewrite E' in H2. contradiction.
Qed.

Lemma nks_nil : forall rest, nks [] rest.
Proof. intros rest k []. Qed.

Lemma nks_cons : forall fs t r, ~ In (tk t) fs -> nks fs (t :: r).
Proof. intros fs t r H k Hk E. simpl in E. inversion E; subst k. contradiction. Qed.

Lemma nks_first : forall ks fs p rest, first_in ks p -> disjoint ks fs -> nks fs (p ++ rest).
Proof. intros ks fs p rest (t & p' & -> & H) D. apply nks_cons. exact (D _ H). Qed.

Lemma nks_app : forall fs ks p rest, starts ks p -> disjoint fs ks -> nks fs rest -> nks fs (p ++ rest).
Proof. intros fs ks p rest S D F k Hk. exact (nk_app _ _ _ _ S (D _ Hk) (F _ Hk)). Qed.

Lemma nks_sub : forall fs fs' rest, nks fs' rest -> incl fs fs' -> nks fs rest.
Proof. intros fs fs' rest F S k Hk. exact (F _ (S _ Hk)). Qed.

Lemma nk_nks : forall k rest, nks [k] rest -> nk k rest.
Proof. intros k rest F. exact (F k (or_introl eq_refl)). Qed.

Lemma peek_hk : forall k pe p, hk p = Some k -> peek k (pe, p) = true.
Proof. intros k pe [|t r] H; [discriminate|]. simpl in H. inversion H. apply peek_yes. reflexivity. Qed.

Lemma peek_first : forall k pe p rest, first_in [k] p -> peek k (pe, p ++ rest) = true.
Proof. intros k pe p rest (t & p' & -> & [H|[]]). apply peek_yes. symmetry. exact H. Qed.

Lemma optdelim_starts : forall A (I : list token -> A -> Prop) o c p l, DOptDelim I o c p l -> starts [o] p.
Proof. intros A I o c p l D. destruct D as [|p l D]; [left; reflexivity|]. exact (first_in_starts _ _ (delim_first D)). Qed.

Lemma direcs_starts : forall p l, DDirecs p l -> starts [AT] p.
Proof.
  intros p l D. destruct D as [|p a ps l Hd _]; [left; reflexivity|].
  destruct (direc_first _ _ Hd) as (t & p' & -> & H). right. exists (tk t). split; [reflexivity|exact H].
Qed.

Lemma optselset_starts : forall p o, DOpt DSelSet p o -> starts [BRACE_L] p.
Proof. intros p o D. destruct D as [|p a D]; [left; reflexivity|]. exact (first_in_starts _ _ (selset_first D)). Qed.

(* side conditions of the steps below: which token kinds cannot come next, and fuel bounds *)
Create HintDb nk.
#[export] Hint Resolve optdelim_starts direcs_starts optselset_starts first_in_starts delim_first selset_first direc_first : nk.
#[export] Hint Resolve nk_nks nks_nil nks_first nks_app : nk.
#[export] Hint Extern 1 (nks _ (?t :: _)) => (apply nks_cons; match goal with K : tk t = _ |- _ => rewrite K end) : nk.
#[export] Hint Extern 1 (nks _ ?r) => (match goal with F : nks _ r |- _ => apply (nks_sub _ _ _ F) end) : nk.
#[export] Hint Extern 1 (~ In _ _) => sets : nk.
#[export] Hint Extern 1 (disjoint _ _) => sets : nk.
#[export] Hint Extern 1 (incl _ _) => sets : nk.
Ltac sc := lazymatch goal with
  | |- (_ < _)%nat => lia
  | |- (_ <= _)%nat => lia
  | |- nk _ _ => solve [eauto 14 with nk]
  | |- nks _ _ => solve [eauto 14 with nk]
  | |- first_in _ _ => solve [eauto with nk]
  | |- _ => first [eassumption | reflexivity]
  end.
(* One call along a chain: the lemma L says what the call at its head returns ([call]), or
   decides a test somewhere in it ([test]). *)
Lemma bind_eq : forall A B (e : res A) (k : A -> res B) a r, e = Ok a -> k a = r ->
  match e with Ok x => k x | Err => Err | OutOfFuel => OutOfFuel end = r.
Proof. intros A B e k a r -> H. exact H. Qed.
Ltac test L := erewrite L by sc; cbv beta iota.
Ltac call L := first [eapply bind_eq; [eapply L; sc | cbv beta iota] | test L].
(* the token list of the goal as  p1 ++ ... ++ pn ++ rest *)
Ltac norm := cbv zeta; repeat first [rewrite <- app_assoc | progress cbn [app]].
Ltac lens H := repeat first [rewrite app_length in H | progress cbn [length] in H].
(* the Loc and the final state, once the chain is through *)
Ltac eo := unfold mkl, span, endof, cur_start, tokloc; cbn [fst snd start_of app];
  repeat (first [rewrite fold_left_app | progress cbn [fold_left app]]); reflexivity.

(* A parser is complete for a relation, below n tokens, before a rest that starts with none of fs *)
Definition Complete {A} (P : pst -> res (A * pst)) (I : list token -> A -> Prop) (n : nat) (fs : list tkind) : Prop :=
  forall p a pe rest, I p a -> (length p < n)%nat -> nks fs rest -> P (pe, p ++ rest) = Ok (a, (endof pe p, rest)).

(* The loops, over an arbitrary item parser: items begin with a kind in ks and are parsed
   before anything that does not begin with a kind in fs. *)
Section Loops.
  Context {A : Type}.
  Variable item : pst -> res (A * pst).
  Variable J : list token -> A -> Prop.
  Variable n : nat.
  Variables ks fs : list tkind.
  Hypothesis first : forall p a, J p a -> first_in ks p.
  Hypothesis item_complete : Complete item J n fs.

  Lemma DStar_next : forall close ps l c rest, DStar J ps l -> disjoint (close :: ks) fs -> tk c = close ->
    nks fs (ps ++ c :: rest).
  Proof.
    intros close ps l c rest D Hd Hc. destruct D as [|p a ps l Hpa _].
    - apply nks_cons. rewrite Hc. apply Hd. left; reflexivity.
    - rewrite <- app_assoc. apply (nks_first ks); [exact (first _ _ Hpa)|]. intros k Hk. apply Hd. right; exact Hk.
  Qed.

  Lemma many_complete : forall close, ~ In close ks -> disjoint (close :: ks) fs ->
    forall ps l, DStar J ps l -> forall fuel c rest pe, tk c = close -> (length ps < fuel)%nat -> (length ps < n)%nat ->
    many fuel item close (pe, ps ++ c :: rest) = Ok (l, (tend c, rest)).
  Proof.
    intros close Hc Hd ps l D. induction D as [|p a ps l Hpa Hrest IH]; intros fuel c rest pe Kc Hf Hn;
      (destruct fuel; [simpl in Hf; lia|]); cbn [many].
    - cbn [app]. rewrite (peek_yes _ _ _ _ Kc). reflexivity.
    - rewrite app_length in Hf, Hn. destruct (first _ _ Hpa) as (t & p' & -> & Ht).
      rewrite <- app_assoc. rewrite peek_nk by (apply (nk_cons_eq _ (tk t)); [reflexivity|intros <-; contradiction]).
      rewrite (item_complete _ _ pe _ Hpa ltac:(lia) (DStar_next close _ _ _ _ Hrest Hd Kc)).
      rewrite (IH fuel c rest _ Kc ltac:(simpl in Hf; lia) ltac:(lia)). reflexivity.
  Qed.

  Lemma reverse_complete : forall open close ne, ~ In close ks -> disjoint (close :: ks) fs ->
    forall fuel, (fuel <= n)%nat -> Complete (reverse fuel open item close ne) (DDelim J open close ne) (S fuel) [].
  Proof.
    intros open close ne Hc Hd fuel Hn p l pe rest D Hl _. destruct D as [o ps c l Ho Kc Hs Hne].
    cbn [length] in Hl. rewrite app_length in Hl. cbn [length] in Hl.
    unfold reverse. cbn [app]. rewrite (expect_yes _ _ _ _ Ho). rewrite <- app_assoc. cbn [app].
    rewrite (many_complete close Hc Hd _ _ Hs fuel c rest (tend o) Kc ltac:(lia) ltac:(lia)).
    assert (E : ne && is_nil l = false).
    { destruct ne; [|reflexivity]. destruct l; [exfalso; apply Hne; reflexivity|reflexivity]. }
    rewrite E. f_equal. f_equal. f_equal.
    change (o :: ps ++ [c]) with ([o] ++ ps ++ [c]). rewrite !endof_app. reflexivity.
  Qed.

  (* "for peek(k) { item }", items beginning with k *)
  Lemma while_peek_complete : forall k, ks = [k] -> ~ In k fs ->
    forall fuel, (fuel <= n)%nat -> Complete (while_peek fuel k item) (DStar J) fuel (k :: fs).
  Proof.
    intros k -> Hk fuel Hn ps l pe rest D. revert fuel Hn pe.
    induction D as [|p a ps l Hpa Hrest IH]; intros fuel Hn pe Hf F; (destruct fuel; [simpl in Hf; lia|]); cbn [while_peek].
    - cbn [app]. rewrite peek_nk by (apply F; left; reflexivity). reflexivity.
    - rewrite app_length in Hf. rewrite <- app_assoc. rewrite (peek_first _ _ _ _ (first _ _ Hpa)).
      rewrite (item_complete _ _ pe _ Hpa ltac:(lia)).
      + rewrite (IH fuel ltac:(lia) _ ltac:(destruct (first _ _ Hpa) as (t & p' & -> & _); simpl in Hf; lia) F).
        rewrite endof_app. reflexivity.
      + destruct Hrest as [|p2 a2 ps2 l2 H2 _].
        * intros k' Hk'. apply F. right; exact Hk'.
        * rewrite <- app_assoc. apply (nks_first [k]); [exact (first _ _ H2)|]. intros k' [<-|[]]. exact Hk.
  Qed.
End Loops.
Arguments many_complete {A item J n ks fs}.
Arguments reverse_complete {A item J n ks fs}.
Arguments while_peek_complete {A item J n ks fs}.

(* "for { item; if !skip(sep) break }", items that need no lookahead *)
Lemma sep_by_complete : forall A (item : pst -> res (A * pst)) J ks sep fuel,
  Complete item J fuel [] -> (forall p a, J p a -> first_in ks p) -> Complete (sep_by fuel sep item) (DSep J sep) fuel [sep].
Proof.
  intros A item J ks sep fuel Hi Hne ps l pe rest D. revert fuel Hi pe.
  induction D as [p a Hpa|p a s ps l Hpa Ks Hrest IH]; intros fuel Hi pe Hf F; (destruct fuel; [simpl in Hf; lia|]); cbn [sep_by].
  - rewrite (Hi _ _ pe rest Hpa Hf (nks_nil _)). cbv beta iota. rewrite skip_nk by (apply F; left; reflexivity). reflexivity.
  - rewrite app_length in Hf. cbn [length] in Hf. rewrite <- app_assoc. cbn [app].
    rewrite (Hi _ _ pe _ Hpa ltac:(lia) (nks_nil _)). cbv beta iota. rewrite (skip_yes _ _ _ _ Ks). cbv beta iota.
    rewrite (IH fuel (fun p0 a0 pe0 r0 D0 L0 => Hi p0 a0 pe0 r0 D0 (Nat.lt_lt_succ_r _ _ L0)) (tend s)
               ltac:(destruct (Hne _ _ Hpa) as (t & p' & -> & _); simpl in Hf; lia) F).
    rewrite endof_app. reflexivity.
Qed.
Arguments sep_by_complete {A item J ks}.

Lemma opt_delim_complete : forall A (item : pst -> res (A * pst)) (I : list token -> A -> Prop) open close fuel ks fs,
  (forall p a, I p a -> first_in ks p) -> Complete item I fuel fs ->
  ~ In close ks -> disjoint (close :: ks) fs ->
  Complete (fun st => if peek open st then reverse fuel open item close true st else Ok ([], st)) (DOptDelim I open close) (S fuel) [open].
Proof.
  intros A item I open close fuel ks fs Hf Hi Hc Hd p l pe rest D Hl F. cbv beta. destruct D as [|p l D].
  - cbn [app]. rewrite peek_nk by (apply F; left; reflexivity). reflexivity.
  - rewrite (peek_first _ _ _ _ (delim_first D)).
    exact (reverse_complete Hf Hi open close true Hc Hd fuel (le_n _) p l pe rest D Hl (nks_nil _)).
Qed.
Arguments opt_delim_complete {A item I open close fuel ks fs}.

Lemma parse_value_complete : forall fuel c p v, DValue c p v -> (length p < fuel)%nat ->
  forall pe rest, parse_value fuel c (pe, p ++ rest) = Ok (v, (endof pe p, rest)).
Proof.
  induction fuel as [|f IH]; intros c p v D Hl pe rest; [lia|].
  assert (IHc : Complete (parse_value f c) (DValue c) f []) by (intros p0 a pe0 r0 D0 L0 _; exact (IH c p0 a D0 L0 pe0 r0)).
  destruct D as [d n Hc Kd Kn|t K|t K|t [K|K]|t K V|t K V|t K V1 V2 V3|p l Dl|p l Dl];
    try (destruct t as [k s e w]; cbn [tk tval] in *; subst; reflexivity).
  - subst c. cbn [parse_value app snd]. rewrite Kd. unfold parse_variable. rewrite (expect_yes _ _ _ _ Kd).
    rewrite (parse_name_yes _ _ _ Kn). reflexivity.
  - cbn [parse_value app snd]. rewrite K. rewrite (bytes_eqb_false _ _ V1), (bytes_eqb_false _ _ V2), (bytes_eqb_false _ _ V3). reflexivity.
  - destruct (delim_first Dl) as (o & p' & -> & [Ko|[]]). cbn [parse_value app snd]. rewrite <- Ko.
    change (o :: p' ++ rest) with ((o :: p') ++ rest).
    rewrite (reverse_complete (DValue_first_in c) IHc BRACKET_L BRACKET_R false
               ltac:(sets) ltac:(sets) f (le_n f) _ l pe rest Dl Hl (nks_nil _)).
    reflexivity.
  - assert (Co : Complete (parse_objfield_with (parse_value f c)) (DObjFieldOf (DValue c)) f []).
    { intros p0 a pe0 r0 [n cl pv v Kn Kc Hv] L0 _. unfold parse_objfield_with. norm.
      call parse_name_yes. call expect_yes. cbn [length] in L0. call IH. eo. }
    destruct (delim_first Dl) as (o & p' & -> & [Ko|[]]). cbn [parse_value app snd]. rewrite <- Ko.
    change (o :: p' ++ rest) with ((o :: p') ++ rest).
    rewrite (reverse_complete (DObjField_first _) Co BRACE_L BRACE_R false
               ltac:(sets) ltac:(sets) f (le_n f) _ l pe rest Dl Hl (nks_nil _)).
    reflexivity.
Qed.

Lemma parse_type_complete : forall fuel p t, DType p t -> (length p < fuel)%nat ->
  forall pe rest, nk BANG rest -> parse_type fuel (pe, p ++ rest) = Ok (t, (endof pe p, rest)).
Proof.
  induction fuel as [|f IH]; intros p t D Hl pe rest Hn; [lia|].
  destruct D as [n Kn|o p t c Ko Dt Kc|p t b Dt NN Kb].
  - cbn [parse_type app snd]. rewrite Kn. call parse_named_yes. call skip_nk. reflexivity.
  - cbn [parse_type app snd]. rewrite Ko. unfold advance. cbn [snd]. rewrite <- app_assoc. cbn [app]. lens Hl.
    call IH. call expect_yes. call skip_nk. eo.
  - rewrite <- app_assoc. lens Hl. destruct Dt as [n Kn|o p t c Ko Dt Kc|p t b' Dt NN' Kb']; [| |discriminate NN].
    + cbn [parse_type app snd]. rewrite Kn. call parse_named_yes. call skip_yes. reflexivity.
    + cbn [parse_type app snd]. rewrite Ko. unfold advance. cbn [snd]. rewrite <- app_assoc. cbn [app]. lens Hl.
      call IH. call expect_yes. call skip_yes. eo.
Qed.

Lemma parse_argument_complete : forall fuel, Complete (parse_argument fuel) DArgument fuel [].
Proof.
  intros fuel p a pe rest [n c pv v Kn Kc Dv] Hl _. cbn [length] in Hl.
  unfold parse_argument. norm. call parse_name_yes. call expect_yes. call parse_value_complete. eo.
Qed.

Lemma parse_arguments_complete : forall fuel, Complete (parse_arguments fuel) DArguments (S fuel) [PAREN_L].
Proof.
  intro fuel. apply (opt_delim_complete DArgument_first (parse_argument_complete fuel)); sets.
Qed.

Lemma parse_directive_complete : forall fuel, Complete (parse_directive fuel) DDirec (S fuel) [PAREN_L].
Proof.
  intros fuel p d pe rest [a n pa args Ka Kn Da] Hl F. cbn [length] in Hl.
  unfold parse_directive. norm. call expect_yes. call parse_name_yes. call parse_arguments_complete. eo.
Qed.

Lemma parse_directives_complete : forall fuel, Complete (parse_directives fuel) DDirecs fuel [AT; PAREN_L].
Proof.
  intro fuel. apply (while_peek_complete direc_first (parse_directive_complete fuel) AT eq_refl); [sets|lia].
Qed.

Definition sel_follow : list tkind := [COLON; PAREN_L; AT; BRACE_L].

Section Selections.
  Variable psel : pst -> res (selset * pst).
  Variable fuel : nat.
  Hypothesis Hpsel : Complete psel DSelSet fuel [].

  Lemma field_tail_complete : forall pa args pd dirs ps sub al nm start pe rest,
    DArguments pa args -> DDirecs pd dirs -> DOpt DSelSet ps sub ->
    (length pa + (length pd + length ps) < fuel)%nat -> nks sel_follow rest ->
    (' (args0, st4) <- parse_arguments fuel (pe, pa ++ pd ++ ps ++ rest) ;;
     ' (dirs0, st5) <- parse_directives fuel st4 ;;
     if peek BRACE_L st5 then ' (ss, st6) <- psel st5 ;; Ok (SField al nm args0 dirs0 (Some ss) (mkl start st6), st6)
     else Ok (SField al nm args0 dirs0 None (mkl start st5), st5))
    = Ok (SField al nm args dirs sub (mkloc start (endof pe (pa ++ pd ++ ps))), (endof pe (pa ++ pd ++ ps), rest)).
  Proof.
    intros pa args pd dirs ps sub al nm start pe rest Da Dd Ds Hl F.
    call parse_arguments_complete. call parse_directives_complete.
    destruct Ds as [|ps ss Dss]; [cbn [app]; test peek_nk | test peek_first; call Hpsel]; eo.
  Qed.

  Lemma parse_selection_complete : Complete (parse_selection_with psel fuel) (DSelectionOf DSelSet) fuel sel_follow.
  Proof.
    intros p s pe rest D Hl F.
    destruct D as [pn al nm pa args pd dirs ps sub Dn Da Dd Ds | sp pn nmm pd dirs Ks Dn Dd | sp pt tc pd dirs ps ss Ks Dt Dd Dss];
      lens Hl; unfold parse_selection_with; norm.
    - remember (al, nm) as an eqn:E in Dn.
      destruct Dn as [t Kt | a c t Ka Kc Kt]; injection E as <- <-; cbn [app]; lens Hl; test peek_nk; unfold parse_field_with; norm;
        call parse_name_yes.
      + call skip_nk. call field_tail_complete. eo.
      + call skip_yes. call parse_name_yes. call field_tail_complete. eo.
    - destruct Dn as [t Kt Vt]. cbn [app]. test peek_yes. unfold parse_fragment_with. call expect_yes.
      test peek_yes. test cur_is_kw_no. cbn [negb andb]. cbv iota. unfold parse_fragment_name. test cur_is_kw_no. call parse_name_yes.
      call parse_directives_complete. eo.
    - cbn [app]. test peek_yes. unfold parse_fragment_with. call expect_yes.
      destruct Dt as [|pt tc [o t Ko Vo Kt]]; cbn [app]; lens Hl.
      + test peek_nk. cbn [andb]. cbv iota. test cur_is_kw_nk. call parse_directives_complete. call Hpsel. eo.
      + test cur_is_kw_yes. cbn [negb]. rewrite andb_false_r. unfold advance. cbn [snd]. call parse_named_yes.
        call parse_directives_complete. call Hpsel. eo.
  Qed.
End Selections.

Lemma parse_selset_complete : forall fuel, Complete (parse_selset fuel) DSelSet fuel [].
Proof.
  induction fuel as [|f IH]; intros p ss pe rest D Hl _; [lia|].
  destruct D as [p l D]. cbn [parse_selset].
  rewrite (reverse_complete selection_first (parse_selection_complete _ _ IH) BRACE_L BRACE_R true
             ltac:(sets) ltac:(sets) f (le_n f) p l pe rest D Hl (nks_nil _)).
  cbv beta iota. rewrite mkl_span_c by (eapply delim_nonnil; eassumption). reflexivity.
Qed.

Lemma parse_vardef_complete : forall fuel, Complete (parse_vardef fuel) DVarDef fuel [BANG; EQUALS].
Proof.
  intros fuel p v pe rest [d n c pt t pv dv Kd Kn Kc Dt Dv] Hl F. lens Hl.
  unfold parse_vardef. norm. call expect_yes. call parse_name_yes. call expect_yes.
  destruct Dv as [|pv' v' [e pv0 v0 Ke Dv0]]; cbn [app]; lens Hl; call parse_type_complete.
  - call skip_nk. eo.
  - call skip_yes. call parse_value_complete. eo.
Qed.

Lemma parse_vardefs_complete : forall fuel, Complete (parse_vardefs fuel) DVarDefs (S fuel) [PAREN_L].
Proof.
  intro fuel. apply (opt_delim_complete DVarDef_first (parse_vardef_complete fuel)); sets.
Qed.

Lemma parse_optype_yes : forall pe k r op, tk k = NAME -> optype_of (tval k) = Some op ->
  parse_optype (pe, k :: r) = Ok (op, (tend k, r)).
Proof.
  intros pe k r op K H. unfold parse_optype. rewrite (expect_yes _ _ _ _ K). cbv beta iota.
  unfold optype_of in H.
  destruct (bytes_eqb (tval k) (kw "query")); [inversion H; reflexivity|].
  destruct (bytes_eqb (tval k) (kw "mutation")); [inversion H; reflexivity|].
  destruct (bytes_eqb (tval k) (kw "subscription")); [inversion H; reflexivity|discriminate].
Qed.

Lemma parse_operation_complete : forall fuel p o, DOperation p o -> (length p < fuel)%nat -> forall pe rest,
  parse_operation fuel (pe, p ++ rest) = Ok (DOp o, (endof pe p, rest)).
Proof.
  intros fuel p o D Hl pe rest. unfold parse_operation.
  destruct D as [p ss Ds | k op pn nm pv vds pd dirs ps ss Kk Ho Dn Dv Dd Ds].
  - test peek_first. call parse_selset_complete. rewrite mkl_span_c by (eapply selset_nonnil; eassumption). reflexivity.
  - lens Hl. norm. test peek_nk. call parse_optype_yes.
    destruct Dn as [|pn n0 [t Kt]]; cbn [app]; lens Hl; [test peek_nk|test peek_yes; call parse_name_yes];
      call parse_vardefs_complete; call parse_directives_complete; call parse_selset_complete; eo.
Qed.

Lemma parse_fragment_definition_complete : forall fuel p f, DFragment p f -> (length p < fuel)%nat -> forall pe rest,
  parse_fragment_definition fuel (pe, p ++ rest) = Ok (DFrag f, (endof pe p, rest)).
Proof.
  intros fuel p f [fk pn n o t pd dirs ps ss Kf Vf [tn Ktn Vtn] Ko Vo Kt Dd Ds] Hl pe rest. lens Hl.
  unfold parse_fragment_definition, parse_fragment_name. norm.
  call expect_kw_yes. test cur_is_kw_no. call parse_name_yes. call expect_kw_yes. call parse_named_yes.
  call parse_directives_complete. call parse_selset_complete. eo.
Qed.

Definition is_exec (d : definition) : bool := match d with DOp _ | DFrag _ => true | _ => false end.
Definition exec_only (d : document) : bool := forallb is_exec (doc_defs d).

Lemma typesystem_not_exec : forall p d, DTypeSystem p d -> is_exec d = false.
Proof. intros p d D. destruct D; reflexivity. Qed.

Lemma optype_of_query : forall v op, optype_of v = Some op ->
  bytes_eqb v (kw "fragment") = false /\
  (bytes_eqb v (kw "query") || bytes_eqb v (kw "mutation") || bytes_eqb v (kw "subscription")) = true.
Proof.
  intros v op H. unfold optype_of in H.
  destruct (bytes_eqb v (kw "query")) eqn:E1; [apply bytes_eqb_eq in E1; subst; split; reflexivity|].
  destruct (bytes_eqb v (kw "mutation")) eqn:E2; [apply bytes_eqb_eq in E2; subst; split; reflexivity|].
  destruct (bytes_eqb v (kw "subscription")) eqn:E3; [apply bytes_eqb_eq in E3; subst; split; reflexivity|discriminate].
Qed.

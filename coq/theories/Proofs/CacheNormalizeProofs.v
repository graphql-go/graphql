(* Proofs about literal normalisation: the reduced model (Cache/Normalize.v) is transparent and
   preserves validation verdicts; on mutable Argument cells (Cache/NormalizeHeap.v) the caller's
   document is not modified, and the in-place walk on the clone computes the functional
   normalisation. *)
From Coq Require Import List NArith Bool Lia FinFun.
From GQL Require Import Cache.Normalize Cache.NormalizeHeap.
Import ListNotations.
Open Scope N_scope.

Section NormProofs.
  Context {L cval : Type}.
  Notation value := (@value L).
  Notation sel := (@sel L).
  Notation nst := (@nst L cval).
  Variable value_eqb : value -> value -> bool.
  Variable cval_eqb : cval -> cval -> bool.
  Variable synth_name : N -> name.
  Variable field_def : otype -> name -> option (option otype).
  Variable arg_ty : otype -> name -> name -> option ty.
  Variable dir_arg_ty : name -> name -> option ty.
  Variable tc_obj : name -> option otype.
  Variable coerce : ty -> value -> (name -> option cval) -> option cval.
  Variable lit_valid : ty -> value -> bool.
  Variable var_coerce : ty -> cval -> option cval.
  Variable taken : list name.
  Variable env : name -> option cval.

  Hypothesis value_eqb_eq : forall a b, value_eqb a b = true -> a = b.
  Hypothesis value_eqb_refl : forall a, value_eqb a a = true.
  Hypothesis cval_eqb_eq : forall a b, cval_eqb a b = true -> a = b.
  Hypothesis synth_name_inj : forall a b, synth_name a = synth_name b -> a = b.
  (* valueFromAST reads the variables that occur in the value, and a variable is its value *)
  Hypothesis coerce_local : forall t v e1 e2, (forall x, In x (value_vars v) -> e1 x = e2 x) -> coerce t v e1 = coerce t v e2.
  Hypothesis coerce_var : forall t x e, coerce t (VVar x) e = e x.

  Notation extract_value := (extract_value cval_eqb coerce lit_valid var_coerce).
  Notation find_shared := (find_shared value_eqb).
  Notation try_extract := (try_extract value_eqb cval_eqb synth_name coerce lit_valid var_coerce taken).
  Notation norm_args := (norm_args value_eqb cval_eqb synth_name arg_ty coerce lit_valid var_coerce taken).
  Notation norm_sel := (norm_sel value_eqb cval_eqb synth_name field_def arg_ty tc_obj coerce lit_valid var_coerce taken).
  Notation normalize := (normalize value_eqb cval_eqb synth_name field_def arg_ty tc_obj coerce lit_valid var_coerce taken).
  Notation sub_value := (sub_value value_eqb cval_eqb coerce lit_valid var_coerce).
  Notation sub_args := (sub_args value_eqb cval_eqb arg_ty coerce lit_valid var_coerce).
  Notation sub_sel := (sub_sel value_eqb cval_eqb field_def arg_ty tc_obj coerce lit_valid var_coerce).
  Notation denote := (denote field_def arg_ty dir_arg_ty tc_obj coerce).
  Notation denote_arg := (denote_arg coerce).
  Notation denote_dir := (denote_dir dir_arg_ty coerce).

  Fixpoint sel_ind' (P : sel -> Prop)
           (HF : forall al nm args ds sub, Forall P sub -> P (Field al nm args ds sub))
           (HI : forall tc ds sub, Forall P sub -> P (Inline tc ds sub))
           (HS : forall f ds, P (Spread f ds)) (s : sel) {struct s} : P s :=
    match s with
    | Field al nm args ds sub =>
      HF al nm args ds sub ((fix go (l : list sel) : Forall P l :=
                               match l with [] => Forall_nil P | x :: r => Forall_cons x (sel_ind' P HF HI HS x) (go r) end) sub)
    | Inline tc ds sub =>
      HI tc ds sub ((fix go (l : list sel) : Forall P l :=
                       match l with [] => Forall_nil P | x :: r => Forall_cons x (sel_ind' P HF HI HS x) (go r) end) sub)
    | Spread f ds => HS f ds
    end.

  Definition ext (a b : nst) : Prop := incl (n_synth a) (n_synth b).

  Definition sext (a b : nst) : Prop :=
    forall t v x, find_shared t v (n_shared a) = Some x -> find_shared t v (n_shared b) = Some x.

  Definition wf (st : nst) : Prop :=
    (forall x t c, In (x, (t, c)) (n_synth st) ->
                   var_coerce t c = Some c /\ ~ In x taken /\ exists k, k < n_counter st /\ x = synth_name k) /\
    (forall t v x, In (t, v, x) (n_shared st) -> exists c, extract_value t v = Some c /\ In (x, (t, c)) (n_synth st)) /\
    NoDup (map fst (n_synth st)) /\ NoDup (map snd (n_shared st)).

  Definition agrees (env' : name -> option cval) (st : nst) : Prop :=
    (forall x t c, In (x, (t, c)) (n_synth st) -> env' x = Some c) /\
    (forall y, In y taken -> env' y = env y).

  Lemma ext_refl : forall a, ext a a.
  Proof. intro a. apply incl_refl. Qed.
  Lemma ext_trans : forall a b c, ext a b -> ext b c -> ext a c.
  Proof. intros a b c. apply incl_tran. Qed.
  Lemma sext_refl : forall a, sext a a.
  Proof. intros a t v x H. exact H. Qed.
  Lemma sext_trans : forall a b c, sext a b -> sext b c -> sext a c.
  Proof. intros a b c H1 H2 t v x H. apply H2. apply H1. exact H. Qed.

  Lemma agrees_ext : forall env' a b, ext a b -> agrees env' b -> agrees env' a.
  Proof. intros env' a b E [H1 H2]. split; [|exact H2]. intros x t c Hin. apply (H1 x t c). apply E. exact Hin. Qed.

  (* What a stretch of the walk from st to st' guarantees: the state stays well formed and only
     grows; `sub stF` holds of every final state that keeps what st' shares, `den env'` under every
     environment that agrees with st'. *)
  Definition walks (st st' : nst) (sub : nst -> Prop) (den : (name -> option cval) -> Prop) : Prop :=
    wf st' /\ ext st st' /\ sext st st' /\
    (forall stF, sext st' stF -> sub stF) /\ (forall env', agrees env' st' -> den env').

  Lemma walks_refl : forall st (sub : nst -> Prop) (den : (name -> option cval) -> Prop),
    wf st -> (forall stF, sext st stF -> sub stF) -> (forall env', agrees env' st -> den env') -> walks st st sub den.
  Proof.
    intros st sub den W B D. split; [exact W|split; [apply ext_refl|split; [apply sext_refl|split]]]; auto.
  Qed.

  Lemma walks_impl : forall st st' sub den (sub' : nst -> Prop) (den' : (name -> option cval) -> Prop),
    walks st st' sub den -> (forall stF, sub stF -> sub' stF) ->
    (forall env', agrees env' st' -> den env' -> den' env') -> walks st st' sub' den'.
  Proof.
    intros st st' sub den sub' den' (W & X & S & B & D) HB HD.
    split; [exact W|split; [exact X|split; [exact S|split]]]; auto.
  Qed.

  Lemma walks_trans : forall st st1 st2 sub1 den1 sub2 den2 (sub : nst -> Prop) (den : (name -> option cval) -> Prop),
    walks st st1 sub1 den1 -> walks st1 st2 sub2 den2 ->
    (forall stF, sub1 stF -> sub2 stF -> sub stF) ->
    (forall env', agrees env' st2 -> den1 env' -> den2 env' -> den env') ->
    walks st st2 sub den.
  Proof.
    intros st st1 st2 sub1 den1 sub2 den2 sub den (W1 & X1 & S1 & B1 & D1) (W2 & X2 & S2 & B2 & D2) HB HD.
    split; [exact W2|split; [eapply ext_trans; eassumption|split; [eapply sext_trans; eassumption|split]]].
    - intros stF HF. apply HB; [apply B1; eapply sext_trans; eassumption|apply B2; exact HF].
    - intros env' HA. apply HD; [exact HA|apply D1; eapply agrees_ext; eassumption|apply D2; exact HA].
  Qed.

  Lemma incl_flat_in : forall A B (f : A -> list B) l t x, incl (flat_map f l) t -> In x l -> incl (f x) t.
  Proof. intros A B f l t x H Hx y Hy. apply H, in_flat_map. exists x. split; assumption. Qed.

  Lemma map_fixed : forall A (f : A -> A) l, (forall x, In x l -> f x = x) -> map f l = l.
  Proof. intros A f l H. rewrite <- (map_id l) at 2. apply map_ext_in, H. Qed.

  Lemma Forall_all : forall A (P : A -> Prop), (forall x, P x) -> forall l, Forall P l.
  Proof. intros A P H l. apply Forall_forall. intros x _. apply H. Qed.

  Lemma NoDup_map_inj : forall A B (f : A -> B) l a b, NoDup (map f l) -> In a l -> In b l -> f a = f b -> a = b.
  Proof.
    induction l as [|z l IH]; intros a b Hd Ha Hb E; [contradiction|]. inversion Hd as [|? ? Hn Hd']; subst.
    destruct Ha as [<-|Ha]; destruct Hb as [<-|Hb]; [reflexivity| | |exact (IH a b Hd' Ha Hb E)].
    - destruct Hn. rewrite E. exact (in_map f l b Hb).
    - destruct Hn. rewrite <- E. exact (in_map f l a Ha).
  Qed.

  Lemma restrict_agree : forall (e1 e2 : name -> option cval) xs,
    (forall x, In x xs -> e1 x = e2 x) -> restrict e1 xs = restrict e2 xs.
  Proof. intros e1 e2 xs H. unfold restrict. apply map_ext_in. intros x Hx. rewrite (H x Hx). reflexivity. Qed.

  Lemma mem_true : forall x l, mem x l = true <-> In x l.
  Proof.
    intros x l. unfold mem. rewrite existsb_exists. split.
    - intros [y [Hy E]]. apply N.eqb_eq in E. subst. exact Hy.
    - intro H. exists x. split; [exact H|apply N.eqb_refl].
  Qed.

  Lemma next_name_spec : forall f k x k', next_name synth_name taken f k = Some (x, k') ->
    ~ In x taken /\ exists j, k <= j /\ j < k' /\ x = synth_name j.
  Proof.
    induction f as [|f IH]; intros k x k' H; simpl in H; [discriminate|].
    destruct (mem (synth_name k) taken) eqn:M.
    - destruct (IH _ _ _ H) as [H1 [j [Ha [Hb Hc]]]]. split; [exact H1|]. exists j. repeat split; try assumption. lia.
    - injection H as Hx Hk. subst. split.
      + intro Hin. apply mem_true in Hin. congruence.
      + exists k. repeat split; lia.
  Qed.

  Lemma next_name_none : forall f k, next_name synth_name taken f k = None ->
    incl (map (fun i => synth_name (k + N.of_nat i)) (seq 0 f)) taken.
  Proof.
    induction f as [|f IH]; intros k H; simpl in *; [intros x []|].
    destruct (mem (synth_name k) taken) eqn:M; [|discriminate].
    intros x [Hx|Hx].
    - subst x. rewrite N.add_0_r. apply mem_true. exact M.
    - rewrite <- seq_shift in Hx. rewrite map_map in Hx. apply (IH (k + 1) H).
      apply in_map_iff in Hx. destruct Hx as [i [E Hi]]. apply in_map_iff. exists i. split; [|exact Hi].
      rewrite <- E. f_equal. lia.
  Qed.

  (* the loop finds a name: more candidates than taken names *)
  Lemma next_name_total : forall k, next_name synth_name taken (name_fuel taken) k <> None.
  Proof.
    intros k H. apply next_name_none in H.
    assert (ND : NoDup (map (fun i => synth_name (k + N.of_nat i)) (seq 0 (name_fuel taken)))).
    { apply Injective_map_NoDup; [|apply seq_NoDup].
      intros a b E. apply synth_name_inj in E. lia. }
    pose proof (NoDup_incl_length ND H) as Hl. rewrite map_length, seq_length in Hl.
    unfold name_fuel in Hl. lia.
  Qed.

  Lemma find_shared_spec : forall t v sh x, find_shared t v sh = Some x -> In (t, v, x) sh.
  Proof.
    intros t v sh x H. unfold Normalize.find_shared in H.
    destruct (find (fun e => (fst (fst e) =? t) && value_eqb (snd (fst e)) v) sh) as [e|] eqn:F; [|discriminate].
    injection H as H. apply find_some in F. destruct F as [Hin Hb].
    apply andb_true_iff in Hb. destruct Hb as [Hb1 Hb2]. apply N.eqb_eq in Hb1. apply value_eqb_eq in Hb2.
    destruct e as [[t' l'] x']. simpl in *. subst. exact Hin.
  Qed.

  Lemma find_shared_cons_same : forall t v x sh, find_shared t v ((t, v, x) :: sh) = Some x.
  Proof. intros. unfold Normalize.find_shared. simpl. rewrite N.eqb_refl, value_eqb_refl. reflexivity. Qed.

  Lemma find_shared_cons_other : forall t v x sh t2 v2 y,
    find_shared t v sh = None -> find_shared t2 v2 sh = Some y -> find_shared t2 v2 ((t, v, x) :: sh) = Some y.
  Proof.
    intros t v x sh t2 v2 y Hn Hs. unfold Normalize.find_shared. simpl.
    destruct ((t =? t2) && value_eqb v v2) eqn:E; [|exact Hs].
    apply andb_true_iff in E. destruct E as [E1 E2]. apply N.eqb_eq in E1. apply value_eqb_eq in E2. subst.
    rewrite Hn in Hs. discriminate Hs.
  Qed.

  Lemma unchanged_arg : forall env' ot (v : value), (forall y, In y taken -> env' y = env y) ->
    incl (value_vars v) taken -> denote_arg env' ot v = denote_arg env ot v.
  Proof.
    intros env' ot v HA Hv. unfold Normalize.denote_arg. destruct ot as [t|].
    - f_equal. apply coerce_local. intros x Hx. apply HA. apply Hv. exact Hx.
    - f_equal. apply restrict_agree. intros x Hx. apply HA. apply Hv. exact Hx.
  Qed.

  Lemma extract_value_closed : forall t v c, extract_value t v = Some c ->
    value_vars v = [] /\ lit_valid t v = true /\ coerce t v no_vars = Some c /\ var_coerce t c = Some c.
  Proof.
    intros t v c H. unfold Normalize.extract_value in H.
    destruct (value_vars v); [|discriminate].
    destruct (lit_valid t v); simpl in H; [|discriminate].
    destruct (coerce t v no_vars) as [c0|]; [|discriminate].
    destruct (var_coerce t c0) as [c'|] eqn:VC; [|discriminate].
    destruct (cval_eqb c' c0) eqn:CE; [|discriminate].
    injection H as <-. apply cval_eqb_eq in CE. subst c'. repeat split; assumption.
  Qed.

  Lemma wf_add : forall st x t (v : value) c k, wf st -> extract_value t v = Some c -> var_coerce t c = Some c ->
    (~ In x taken /\ exists j, n_counter st <= j /\ j < k /\ x = synth_name j) ->
    wf (mkN k ((t, v, x) :: n_shared st) (n_synth st ++ [(x, (t, c))])).
  Proof.
    intros st x t v c k [W1 [W2 [W3 W4]]] EV VC [Hfresh [j [Hj1 [Hj2 Hj3]]]].
    assert (Hnew : ~ In x (map fst (n_synth st))).
    { intro Hin. apply in_map_iff in Hin. destruct Hin as [[y [t0 c0]] [Ey Hin]]. simpl in Ey. subst y.
      destruct (W1 _ _ _ Hin) as [_ [_ [k0 [Hk0 Ex]]]]. rewrite Hj3 in Ex. apply synth_name_inj in Ex. lia. }
    split; [|split; [|split]]; simpl.
    - intros y t0 c0 Hin. apply in_app_or in Hin. destruct Hin as [Hin|[Hin|[]]].
      + destruct (W1 _ _ _ Hin) as [A [B [k0 [C D]]]]. split; [exact A|split; [exact B|]]. exists k0. split; [lia|exact D].
      + injection Hin as <- <- <-. split; [exact VC|split; [exact Hfresh|]]. exists j. split; assumption.
    - intros t0 l0 y [Hin|Hin].
      + injection Hin as <- <- <-. exists c. split; [exact EV|]. apply in_or_app. right. left. reflexivity.
      + destruct (W2 _ _ _ Hin) as [c0 [A B]]. exists c0. split; [exact A|]. apply in_or_app. left. exact B.
    - rewrite map_app. apply (NoDup_Add (Add_app x (map fst (n_synth st)) [])). rewrite app_nil_r. split; assumption.
    - constructor; [|exact W4]. intro Hin. apply in_map_iff in Hin. destruct Hin as [[[t0 v0] y] [Ey Hin]]. simpl in Ey. subst y.
      destruct (W2 _ _ _ Hin) as [c0 [_ Hs]]. exact (Hnew (in_map fst _ _ Hs)).
  Qed.

  Lemma try_extract_ok : forall st t (v : value) st' v',
    try_extract st t v = (st', v') -> wf st -> incl (value_vars v) taken ->
    walks st st' (fun stF => v' = sub_value stF t v)
          (fun env' => denote_arg env' (Some t) v' = denote_arg env (Some t) v).
  Proof.
    intros st t v st' v' H W Hv. unfold Normalize.try_extract in H.
    destruct (extract_value t v) as [c|] eqn:EV.
    - destruct (extract_value_closed _ _ _ EV) as [Hnv [_ [HC VC]]].
      assert (Den : forall env' x, env' x = Some c -> denote_arg env' (Some t) (VVar x) = denote_arg env (Some t) v).
      { intros env' x Hx. unfold Normalize.denote_arg. rewrite coerce_var, Hx. f_equal.
        rewrite <- HC. apply coerce_local. rewrite Hnv. intros y []. }
      destruct (find_shared t v (n_shared st)) as [x|] eqn:FS.
      + injection H as <- <-. apply walks_refl; [exact W| |].
        * intros stF HF. unfold Normalize.sub_value. rewrite EV, (HF _ _ _ FS). reflexivity.
        * intros env' [HA _]. apply Den. apply find_shared_spec in FS.
          destruct W as [_ [W2 _]]. destruct (W2 _ _ _ FS) as [c0 [E0 Hin]].
          rewrite EV in E0. injection E0 as <-. apply (HA _ _ _ Hin).
      + destruct (next_name synth_name taken (name_fuel taken) (n_counter st)) as [[x k']|] eqn:NN;
          [|exfalso; exact (next_name_total _ NN)].
        injection H as <- <-. split; [|split; [|split; [|split]]].
        * exact (wf_add st x t v c k' W EV VC (next_name_spec _ _ _ _ NN)).
        * unfold ext. simpl. apply incl_appl. apply incl_refl.
        * intros t2 v2 y Hy. simpl. apply find_shared_cons_other; assumption.
        * intros stF HF. unfold Normalize.sub_value. rewrite EV.
          rewrite (HF t v x); [reflexivity|]. simpl. apply find_shared_cons_same.
        * intros env' [HA _]. apply Den. apply (HA x t c). simpl. apply in_or_app. right. left. reflexivity.
    - injection H as <- <-. apply walks_refl; [exact W| |].
      + intros stF _. unfold Normalize.sub_value. rewrite EV. reflexivity.
      + intros env' HA. apply unchanged_arg; [apply HA|exact Hv].
  Qed.

  Definition dargs (e : name -> option cval) (o : otype) (nm : name) (args : list (name * value)) :=
    map (fun a => (fst a, denote_arg e (arg_ty o nm (fst a)) (snd a))) args.

  Lemma norm_args_ok : forall o nm (args : list (name * value)) st st' args',
    norm_args st o nm args = (st', args') -> wf st -> incl (args_vars args) taken ->
    walks st st' (fun stF => args' = sub_args stF o nm args) (fun env' => dargs env' o nm args' = dargs env o nm args).
  Proof.
    intros o nm. induction args as [|[a v] r IH]; intros st st' args' H W Hv; simpl in H.
    - injection H as <- <-. apply walks_refl; [exact W|reflexivity|reflexivity].
    - destruct (match arg_ty o nm a with Some t => try_extract st t v | None => (st, v) end) as [st1 v1] eqn:E1.
      destruct (norm_args st1 o nm r) as [st2 r'] eqn:E2. injection H as <- <-.
      unfold args_vars in Hv. simpl in Hv. apply incl_app_inv in Hv. destruct Hv as [Hv1 Hv2].
      assert (Step : walks st st1 (fun stF => v1 = match arg_ty o nm a with Some t => sub_value stF t v | None => v end)
                           (fun env' => denote_arg env' (arg_ty o nm a) v1 = denote_arg env (arg_ty o nm a) v)).
      { destruct (arg_ty o nm a) as [t|]; [eapply try_extract_ok; eassumption|].
        injection E1 as <- <-. apply walks_refl; [exact W|reflexivity|].
        intros env' HA. apply unchanged_arg; [apply HA|exact Hv1]. }
      apply (walks_trans _ _ _ _ _ _ _ _ _ Step (IH _ _ _ E2 (proj1 Step) Hv2)).
      + intros stF -> ->. reflexivity.
      + intros env' _ E3 E4. unfold dargs in *. simpl. rewrite E3, E4. reflexivity.
  Qed.

  Lemma unchanged_dirs : forall env' (ds : list (@dir L)), (forall y, In y taken -> env' y = env y) ->
    incl (dirs_vars ds) taken -> map (denote_dir env') ds = map (denote_dir env) ds.
  Proof.
    intros env' ds HA Hd. apply map_ext_in. intros d Hin. unfold Normalize.denote_dir. f_equal.
    apply map_ext_in. intros a Ha. f_equal. apply unchanged_arg; [exact HA|].
    exact (incl_flat_in _ _ _ _ _ _ (incl_flat_in _ _ _ _ _ _ Hd Hin) Ha).
  Qed.

  Lemma unchanged_opaque : forall env' (s : sel), (forall y, In y taken -> env' y = env y) ->
    incl (sel_vars s) taken -> opaque env' s = opaque env s.
  Proof.
    intros env' s HA Hs. unfold Normalize.opaque. f_equal. apply restrict_agree.
    intros x Hx. apply HA. apply Hs. exact Hx.
  Qed.

  Lemma denote_agree : forall (s : sel) o env', (forall y, In y taken -> env' y = env y) ->
    incl (sel_vars s) taken -> denote env' o s = denote env o s.
  Proof.
    intros s. pattern s. apply sel_ind'; clear s.
    - intros al nm args ds sub HF o env' HE Hv. rewrite Forall_forall in HF.
      simpl in Hv. apply incl_app_inv in Hv. destruct Hv as [Ha Hv]. apply incl_app_inv in Hv. destruct Hv as [Hd Hsub].
      simpl. destruct (field_def o nm) as [ft|] eqn:FD.
      + rewrite (unchanged_dirs env' ds HE Hd). f_equal.
        * apply map_ext_in. intros a Hin. f_equal. apply unchanged_arg; [exact HE|].
          exact (incl_flat_in _ _ _ _ _ _ Ha Hin).
        * destruct ft as [o'|]; apply map_ext_in; intros s Hs;
            [apply (HF s Hs)|apply unchanged_opaque]; try exact HE; exact (incl_flat_in _ _ _ _ _ _ Hsub Hs).
      + apply unchanged_opaque; [exact HE|]. simpl. apply incl_app; [exact Ha|apply incl_app; assumption].
    - intros tc ds sub HF o env' HE Hv. rewrite Forall_forall in HF.
      simpl in Hv. apply incl_app_inv in Hv. destruct Hv as [Hd Hsub].
      simpl. rewrite (unchanged_dirs env' ds HE Hd). f_equal.
      apply map_ext_in. intros s Hs. apply (HF s Hs); [exact HE|exact (incl_flat_in _ _ _ _ _ _ Hsub Hs)].
    - intros f ds o env' HE Hv. simpl. rewrite (unchanged_dirs env' ds HE Hv). reflexivity.
  Qed.

  Definition good (s : sel) : Prop :=
    forall o st st' s', norm_sel o st s = (st', s') -> wf st -> incl (sel_vars s) taken ->
      walks st st' (fun stF => s' = sub_sel stF o s) (fun env' => denote env' o s' = denote env o s).

  Lemma norm_list_ok : forall o (l : list sel), Forall good l ->
    forall st st' l', norm_list (norm_sel o) st l = (st', l') -> wf st -> incl (flat_map sel_vars l) taken ->
      walks st st' (fun stF => l' = map (sub_sel stF o) l) (fun env' => map (denote env' o) l' = map (denote env o) l).
  Proof.
    intros o l HF. induction HF as [|s r Hs _ IH]; intros st st' l' H W Hv; simpl in H.
    - injection H as <- <-. apply walks_refl; [exact W|reflexivity|reflexivity].
    - destruct (norm_sel o st s) as [st1 s1] eqn:E1.
      destruct (norm_list (norm_sel o) st1 r) as [st2 r1] eqn:E2. injection H as <- <-.
      simpl in Hv. apply incl_app_inv in Hv. destruct Hv as [Hv1 Hv2].
      pose proof (Hs _ _ _ _ E1 W Hv1) as Step.
      apply (walks_trans _ _ _ _ _ _ _ _ _ Step (IH _ _ _ E2 (proj1 Step) Hv2)).
      + intros stF -> ->. reflexivity.
      + intros env' _ E3 E4. simpl. rewrite E3, E4. reflexivity.
  Qed.

  Lemma all_good : forall s, good s.
  Proof.
    apply sel_ind'.
    - intros al nm args ds sub HF o st st' s' H W Hv. simpl in H.
      destruct (field_def o nm) as [ft|] eqn:FD.
      + simpl in Hv. apply incl_app_inv in Hv. destruct Hv as [Ha Hv]. apply incl_app_inv in Hv. destruct Hv as [Hd Hsub].
        destruct (norm_args st o nm args) as [st1 args'] eqn:E1.
        pose proof (norm_args_ok _ _ _ _ _ _ E1 W Ha) as A1.
        destruct ft as [o'|].
        * destruct (norm_list (norm_sel o') st1 sub) as [st2 sub'] eqn:E2. injection H as <- <-.
          apply (walks_trans _ _ _ _ _ _ _ _ _ A1 (norm_list_ok o' sub HF _ _ _ E2 (proj1 A1) Hsub)).
          -- intros stF -> ->. simpl. rewrite FD. reflexivity.
          -- intros env' HA E3 E4. simpl. rewrite FD, (unchanged_dirs env' ds (proj2 HA) Hd).
             fold (dargs env' o nm args'). fold (dargs env o nm args). rewrite E3, E4. reflexivity.
        * injection H as <- <-. apply (walks_impl _ _ _ _ _ _ A1).
          -- intros stF ->. simpl. rewrite FD. reflexivity.
          -- intros env' HA E3. simpl. rewrite FD, (unchanged_dirs env' ds (proj2 HA) Hd).
             fold (dargs env' o nm args'). fold (dargs env o nm args). rewrite E3.
             f_equal. apply map_ext_in. intros s Hs. apply unchanged_opaque; [apply HA|].
             exact (incl_flat_in _ _ _ _ _ _ Hsub Hs).
      + injection H as <- <-. apply walks_refl; [exact W| |].
        * intros stF _. simpl. rewrite FD. reflexivity.
        * intros env' HA. apply denote_agree; [apply HA|exact Hv].
    - intros tc ds sub HF o st st' s' H W Hv. simpl in H.
      simpl in Hv. apply incl_app_inv in Hv. destruct Hv as [Hd Hsub].
      destruct (norm_list (norm_sel (cond_type tc_obj o tc)) st sub) as [st1 sub'] eqn:E1. injection H as <- <-.
      apply (walks_impl _ _ _ _ _ _ (norm_list_ok _ sub HF _ _ _ E1 W Hsub)).
      + intros stF ->. reflexivity.
      + intros env' HA E3. simpl. rewrite (unchanged_dirs env' ds (proj2 HA) Hd), E3. reflexivity.
    - intros f ds o st st' s' H W Hv. simpl in H. injection H as <- <-. apply walks_refl; [exact W|reflexivity|].
      intros env' HA. apply denote_agree; [apply HA|exact Hv].
  Qed.

  Lemma wf_init : wf n_init.
  Proof. split; [|split; [|split; constructor]]; simpl; intros; contradiction. Qed.

  Lemma extend_agrees : forall st, wf st -> agrees (extend var_coerce env (n_synth st)) st.
  Proof.
    intros st [W1 [_ [W3 _]]]. split.
    - intros x t c Hin. unfold extend.
      destruct (find (fun e => fst e =? x) (n_synth st)) as [e|] eqn:F.
      + apply find_some in F. destruct F as [Hin' Hx]. apply N.eqb_eq in Hx.
        destruct e as [x' [t' c']]. simpl in *. subst x'.
        injection (NoDup_map_inj _ _ fst _ _ _ W3 Hin Hin' eq_refl) as -> ->. apply (W1 _ _ _ Hin).
      + pose proof (find_none _ _ F _ Hin) as Hn. simpl in Hn. rewrite N.eqb_refl in Hn. discriminate Hn.
    - intros y Hy. unfold extend.
      destruct (find (fun e => fst e =? y) (n_synth st)) as [e|] eqn:F; [|reflexivity].
      apply find_some in F. destruct F as [Hin' Hx]. apply N.eqb_eq in Hx.
      destruct e as [x' [t' c']]. simpl in *. subst x'.
      destruct (W1 _ _ _ Hin') as [_ [Hn _]]. contradiction.
  Qed.

  Lemma sub_value_init : forall t (v : value), sub_value n_init t v = v.
  Proof. intros. unfold Normalize.sub_value. destruct (extract_value t v); reflexivity. Qed.

  Lemma sub_sel_init : forall (s : sel) o, sub_sel n_init o s = s.
  Proof.
    intros s. pattern s. apply sel_ind'; clear s.
    - intros al nm args ds sub HF o. rewrite Forall_forall in HF. simpl.
      assert (A : sub_args n_init o nm args = args).
      { apply map_fixed. intros [a v] _. simpl. destruct (arg_ty o nm a); [rewrite sub_value_init|]; reflexivity. }
      destruct (field_def o nm) as [[o'|]|]; rewrite ?A, ?map_fixed; auto.
    - intros tc ds sub HF o. rewrite Forall_forall in HF. simpl. rewrite map_fixed; auto.
    - reflexivity.
  Qed.

  Lemma normalize_ok : forall root (sels : list sel) st sels',
    normalize root sels = (st, sels') -> incl (flat_map sel_vars sels) taken ->
    wf st /\ sels' = map (sub_sel st root) sels /\
    forall e, agrees e st -> map (denote e root) sels' = map (denote env root) sels.
  Proof.
    intros root sels st sels' H Hv. unfold Normalize.normalize in H.
    destruct (existsb spreads sels).
    - injection H as <- <-. split; [apply wf_init|split].
      + symmetry. apply map_fixed. intros s _. apply sub_sel_init.
      + intros e [_ HE]. apply map_ext_in. intros s Hs. apply denote_agree; [exact HE|].
        exact (incl_flat_in _ _ _ _ _ _ Hv Hs).
    - destruct (norm_list_ok root sels (Forall_all _ _ all_good _) _ _ _ H wf_init Hv) as [W [_ [_ [B D]]]].
      split; [exact W|split; [apply B; apply sext_refl|exact D]].
  Qed.

  Lemma normalize_transparent : forall root (sels : list sel) st sels',
    normalize root sels = (st, sels') -> incl (flat_map sel_vars sels) taken ->
    let env' := extend var_coerce env (n_synth st) in
    map (denote env' root) sels' = map (denote env root) sels /\
    (forall y, In y taken -> env' y = env y) /\
    (forall x t c, In (x, (t, c)) (n_synth st) -> ~ In x taken /\ var_coerce t c = Some c /\ env' x = Some c).
  Proof.
    intros root sels st sels' H Hv env'.
    destruct (normalize_ok root sels st sels' H Hv) as [W [_ D]].
    pose proof (extend_agrees st W) as HA. fold env' in HA.
    split; [apply D; exact HA|]. destruct HA as [HA1 HA2]. split; [exact HA2|].
    intros x t c Hin. destruct W as [W1 _]. destruct (W1 _ _ _ Hin) as [A [B _]].
    split; [exact B|split; [exact A|apply (HA1 _ _ _ Hin)]].
  Qed.

  Lemma sub_value_cases : forall st t (v : value), sub_value st t v = v \/
    exists x c, extract_value t v = Some c /\ find_shared t v (n_shared st) = Some x /\ sub_value st t v = VVar x.
  Proof.
    intros st t v. unfold Normalize.sub_value. destruct (extract_value t v) as [c|]; [|left; reflexivity].
    destruct (find_shared t v (n_shared st)) as [x|]; [right; exists x, c; auto|left; reflexivity].
  Qed.

  (* sameArguments (overlapping fields): two values at positions of one type are
     rewritten to equal values exactly when they were equal *)
  Lemma sub_value_inj : forall st t (v1 v2 : value), wf st ->
    incl (value_vars v1) taken -> incl (value_vars v2) taken ->
    sub_value st t v1 = sub_value st t v2 -> v1 = v2.
  Proof.
    intros st t v1 v2 [W1 [W2 [_ W4]]] H1 H2 E.
    assert (Fresh : forall v x, find_shared t v (n_shared st) = Some x -> ~ In x taken).
    { intros v x F. apply find_shared_spec in F. destruct (W2 _ _ _ F) as [c [_ Hin]]. apply (W1 _ _ _ Hin). }
    destruct (sub_value_cases st t v1) as [C1|(x1 & c1 & _ & F1 & C1)];
      destruct (sub_value_cases st t v2) as [C2|(x2 & c2 & _ & F2 & C2)]; rewrite C1, C2 in E.
    - exact E.
    - exfalso. apply (Fresh _ _ F2), H1. rewrite E. left. reflexivity.
    - exfalso. apply (Fresh _ _ F1), H2. rewrite <- E. left. reflexivity.
    - injection E as <-. apply find_shared_spec in F1, F2.
      injection (NoDup_map_inj _ _ snd _ _ _ W4 F1 F2 eq_refl) as ->. reflexivity.
  Qed.

  (* every rewritten position carries a synthetic variable declared with the
     type of that position, bound to the coerced value of the literal that
     stood there, which was a valid literal for the position *)
  Lemma sub_value_changed : forall st t (v : value), wf st -> sub_value st t v <> v ->
    exists x c, sub_value st t v = VVar x /\ In (x, (t, c)) (n_synth st) /\
                extract_value t v = Some c /\ lit_valid t v = true /\ var_coerce t c = Some c /\ ~ In x taken.
  Proof.
    intros st t v [W1 [W2 _]] Hne. destruct (sub_value_cases st t v) as [C|(x & c & EV & F & C)]; [contradiction|].
    apply find_shared_spec in F. destruct (W2 _ _ _ F) as [c0 [E0 Hin]]. rewrite EV in E0. injection E0 as <-.
    destruct (extract_value_closed _ _ _ EV) as [_ [LV [_ VC]]].
    exists x, c. repeat split; try assumption. apply (W1 _ _ _ Hin).
  Qed.

  Lemma synth_defs_unique : forall st, wf st ->
    (forall x t1 c1 t2 c2, In (x, (t1, c1)) (n_synth st) -> In (x, (t2, c2)) (n_synth st) -> t1 = t2 /\ c1 = c2) /\
    (forall x t c, In (x, (t, c)) (n_synth st) -> ~ In x taken).
  Proof.
    intros st [W1 [_ [W3 _]]]. split; [|intros x t c Hin; apply (W1 _ _ _ Hin)].
    intros x t1 c1 t2 c2 H1 H2. injection (NoDup_map_inj _ _ fst _ _ _ W3 H1 H2 eq_refl) as -> ->. split; reflexivity.
  Qed.

  Notation psel := (@psel L).
  Notation hst := (@hst L).
  Notation heap := (@heap L).
  Notation hnorm_args := (hnorm_args value_eqb cval_eqb synth_name arg_ty coerce lit_valid var_coerce taken).
  Notation hnorm_sel := (hnorm_sel value_eqb cval_eqb synth_name field_def arg_ty tc_obj coerce lit_valid var_coerce taken).
  Notation hnormalize := (hnormalize value_eqb cval_eqb synth_name field_def arg_ty tc_obj coerce lit_valid var_coerce taken).

  Fixpoint psel_ind' (P : psel -> Prop)
           (HF : forall al nm ids ds sub, Forall P sub -> P (PField al nm ids ds sub))
           (HI : forall tc ds sub, Forall P sub -> P (PInline tc ds sub))
           (HS : forall f ds, P (PSpread f ds)) (p : psel) {struct p} : P p :=
    match p with
    | PField al nm ids ds sub =>
      HF al nm ids ds sub ((fix go (l : list psel) : Forall P l :=
                              match l with [] => Forall_nil P | x :: r => Forall_cons x (psel_ind' P HF HI HS x) (go r) end) sub)
    | PInline tc ds sub =>
      HI tc ds sub ((fix go (l : list psel) : Forall P l :=
                       match l with [] => Forall_nil P | x :: r => Forall_cons x (psel_ind' P HF HI HS x) (go r) end) sub)
    | PSpread f ds => HS f ds
    end.

  Lemma hget_cons : forall (h : heap) i c j, hget ((i, c) :: h) j = if i =? j then c else hget h j.
  Proof. intros. unfold hget. simpl. destruct (i =? j); reflexivity. Qed.

  Lemma hget_cons_other : forall (h : heap) i c j, i <> j -> hget ((i, c) :: h) j = hget h j.
  Proof. intros h i c j H. rewrite hget_cons. apply N.eqb_neq in H. rewrite H. reflexivity. Qed.

  Lemma read_sel_frame : forall (q : psel) (h h' : heap),
    (forall j, In j (pids q) -> hget h' j = hget h j) -> read_sel h' q = read_sel h q.
  Proof.
    intros q. pattern q. apply psel_ind'; clear q.
    - intros al nm ids ds sub HF h h' H. simpl. f_equal.
      + apply map_ext_in. intros i Hi. apply H. simpl. apply in_or_app. left. exact Hi.
      + apply map_ext_in. intros s Hs. rewrite Forall_forall in HF. apply (HF s Hs).
        intros j Hj. apply H. simpl. apply in_or_app. right. apply in_flat_map. exists s. split; assumption.
    - intros tc ds sub HF h h' H. simpl. f_equal.
      apply map_ext_in. intros s Hs. rewrite Forall_forall in HF. apply (HF s Hs).
      intros j Hj. apply H. simpl. apply in_flat_map. exists s. split; assumption.
    - reflexivity.
  Qed.

  Lemma read_list_frame : forall (l : list psel) (h h' : heap),
    (forall j, In j (flat_map pids l) -> hget h' j = hget h j) -> map (read_sel h') l = map (read_sel h) l.
  Proof.
    intros l h h' H. apply map_ext_in. intros q Hq. apply read_sel_frame.
    intros j Hj. apply H. apply in_flat_map. exists q. split; assumption.
  Qed.

  (* from hs to hs' nothing is allocated and only cells among ids are written *)
  Definition writes_only (ids : list aid) (hs hs' : hst) : Prop :=
    h_next hs' = h_next hs /\ forall j, ~ In j ids -> hget (h_heap hs') j = hget (h_heap hs) j.

  Lemma writes_only_refl : forall ids hs, writes_only ids hs hs.
  Proof. intros ids hs. split; reflexivity. Qed.

  Lemma writes_only_incl : forall a b hs hs', writes_only a hs hs' -> incl a b -> writes_only b hs hs'.
  Proof. intros a b hs hs' (N1 & F1) I. split; [exact N1|]. intros j Hj. apply F1. intro Z. exact (Hj (I j Z)). Qed.

  Lemma writes_only_trans : forall a b hs hs1 hs2, writes_only a hs hs1 -> writes_only b hs1 hs2 ->
    writes_only (a ++ b) hs hs2.
  Proof.
    intros a b hs hs1 hs2 (N1 & F1) (N2 & F2). split; [congruence|]. intros j Hj.
    rewrite F2 by (intro Z; apply Hj, in_or_app; right; exact Z). apply F1. intro Z. apply Hj, in_or_app. left. exact Z.
  Qed.

  (* what the walk does at one Argument cell: the functional step on its value, written back *)
  Lemma harg_step : forall o nm (st : nst) (hs : hst) i a v st1 hs1, hget (h_heap hs) i = (a, v) ->
    match arg_ty o nm a with
    | Some t => let '(st', v') := try_extract st t v in
                match extract_value t v with Some _ => (st', hset hs i (a, v')) | None => (st', hs) end
    | None => (st, hs) end = (st1, hs1) ->
    exists v1, match arg_ty o nm a with Some t => try_extract st t v | None => (st, v) end = (st1, v1) /\
               writes_only [i] hs hs1 /\ hget (h_heap hs1) i = (a, v1).
  Proof.
    intros o nm st hs i a v st1 hs1 G E. destruct (arg_ty o nm a) as [t|].
    - unfold Normalize.try_extract in *. destruct (extract_value t v) eqn:EV.
      + destruct (match find_shared t v (n_shared st) with Some x => _ | None => _ end) as [st0 v'].
        injection E as <- <-. exists v'. split; [reflexivity|]. simpl. rewrite hget_cons, N.eqb_refl.
        split; [split|]; [reflexivity| |reflexivity].
        intros j Hj. apply hget_cons_other. intros ->. apply Hj. left. reflexivity.
      + injection E as <- <-. exists v. split; [reflexivity|split; [apply writes_only_refl|exact G]].
    - injection E as <- <-. exists v. split; [reflexivity|split; [apply writes_only_refl|exact G]].
  Qed.

  Definition fresh_ids (lo hi : N) (ids : list aid) : Prop := Forall (fun i => lo <= i /\ i < hi) ids /\ NoDup ids.

  Lemma clone_args_ok : forall ids (hs : hst) hs' ids',
    clone_args hs ids = (hs', ids') -> Forall (fun i => i < h_next hs) ids ->
    h_next hs <= h_next hs' /\
    (forall j, j < h_next hs -> hget (h_heap hs') j = hget (h_heap hs) j) /\
    fresh_ids (h_next hs) (h_next hs') ids' /\
    map (hget (h_heap hs')) ids' = map (hget (h_heap hs)) ids.
  Proof.
    induction ids as [|i r IH]; intros hs hs' ids' H Hb; simpl in H.
    - injection H as <- <-. split; [lia|split; [intros; reflexivity|split; [split; constructor|reflexivity]]].
    - destruct (clone_args (mkH ((h_next hs, hget (h_heap hs) i) :: h_heap hs) (h_next hs + 1)) r) as [hs2 r'] eqn:E2.
      injection H as <- <-. inversion Hb as [|? ? Hi Hr]; subst.
      destruct (IH _ _ _ E2) as [N2 [F2 [[R2 D2] M2]]].
      { simpl. eapply Forall_impl; [|exact Hr]. simpl. intros; lia. }
      simpl in *. split; [lia|split; [|split; [split|]]].
      + intros j Hj. rewrite F2 by lia. apply hget_cons_other. lia.
      + constructor; [lia|]. eapply Forall_impl; [|exact R2]. simpl. intros; lia.
      + constructor; [|exact D2]. intro Hin. rewrite Forall_forall in R2. specialize (R2 _ Hin). simpl in R2. lia.
      + f_equal.
        * rewrite F2 by lia. rewrite hget_cons, N.eqb_refl. reflexivity.
        * rewrite M2. apply map_ext_in. intros j Hj. rewrite Forall_forall in Hr. specialize (Hr _ Hj).
          apply hget_cons_other. lia.
  Qed.

  Definition clone_good (p : psel) : Prop :=
    forall (hs : hst) hs' p', clone_sel hs p = (hs', p') -> Forall (fun i => i < h_next hs) (pids p) ->
      h_next hs <= h_next hs' /\
      (forall j, j < h_next hs -> hget (h_heap hs') j = hget (h_heap hs) j) /\
      fresh_ids (h_next hs) (h_next hs') (pids p') /\
      read_sel (h_heap hs') p' = read_sel (h_heap hs) p /\
      pspreads p' = pspreads p.

  Lemma NoDup_app_ranges : forall a b c (l1 l2 : list aid),
    Forall (fun i => a <= i /\ i < b) l1 -> Forall (fun i => b <= i /\ i < c) l2 -> NoDup l1 -> NoDup l2 -> NoDup (l1 ++ l2).
  Proof.
    intros a b c l1. induction l1 as [|x l1 IH]; intros l2 R1 R2 D1 D2; simpl; [exact D2|].
    inversion R1; inversion D1; subst. constructor; [|apply IH; assumption].
    intro Hin. apply in_app_or in Hin. destruct Hin as [Hin|Hin]; [contradiction|].
    rewrite Forall_forall in R2. specialize (R2 _ Hin). simpl in R2. lia.
  Qed.

  Lemma fresh_ids_app : forall a b c l1 l2, a <= b -> b <= c ->
    fresh_ids a b l1 -> fresh_ids b c l2 -> fresh_ids a c (l1 ++ l2).
  Proof.
    intros a b c l1 l2 Hab Hbc [R1 D1] [R2 D2]. split.
    - apply Forall_app. split; (eapply Forall_impl; [|eassumption]); simpl; intros; lia.
    - eapply NoDup_app_ranges; eassumption.
  Qed.

  Lemma clone_list_ok : forall (l : list psel), Forall clone_good l ->
    forall (hs : hst) hs' l', thread_list clone_sel hs l = (hs', l') -> Forall (fun i => i < h_next hs) (flat_map pids l) ->
      h_next hs <= h_next hs' /\
      (forall j, j < h_next hs -> hget (h_heap hs') j = hget (h_heap hs) j) /\
      fresh_ids (h_next hs) (h_next hs') (flat_map pids l') /\
      map (read_sel (h_heap hs')) l' = map (read_sel (h_heap hs)) l /\
      existsb pspreads l' = existsb pspreads l.
  Proof.
    intros l HF. induction HF as [|p r Hp _ IH]; intros hs hs' l' H Hb; simpl in H.
    - injection H as <- <-. split; [apply N.le_refl|split; [intros; reflexivity|split; [split; constructor|split; reflexivity]]].
    - destruct (clone_sel hs p) as [hs1 p1] eqn:E1. destruct (thread_list clone_sel hs1 r) as [hs2 r1] eqn:E2.
      injection H as <- <-. simpl in Hb. apply Forall_app in Hb. destruct Hb as [Hb1 Hb2].
      destruct (Hp _ _ _ E1 Hb1) as [N1 [F1 [I1 [R1 S1]]]].
      destruct (IH _ _ _ E2) as [N2 [F2 [I2 [R2 S2]]]].
      { eapply Forall_impl; [|exact Hb2]. intros i Hi. exact (N.lt_le_trans _ _ _ Hi N1). }
      split; [exact (N.le_trans _ _ _ N1 N2)|split; [|split; [|split]]].
      + intros j Hj. rewrite F2 by exact (N.lt_le_trans _ _ _ Hj N1). apply F1. exact Hj.
      + simpl. eapply fresh_ids_app; eassumption.
      + simpl. f_equal.
        * rewrite <- R1. apply read_sel_frame. intros j Hj. apply F2.
          destruct I1 as [I1 _]. rewrite Forall_forall in I1. apply (I1 _ Hj).
        * rewrite R2. apply read_list_frame. intros j Hj. apply F1. rewrite Forall_forall in Hb2. apply Hb2, Hj.
      + simpl. rewrite S1, S2. reflexivity.
  Qed.

  Lemma all_clone_good : forall p, clone_good p.
  Proof.
    apply psel_ind'.
    - intros al nm ids ds sub HF hs hs' p' H Hb. simpl in H.
      destruct (clone_args hs ids) as [hs1 ids'] eqn:E1. destruct (thread_list clone_sel hs1 sub) as [hs2 sub'] eqn:E2.
      injection H as <- <-. simpl in Hb. apply Forall_app in Hb. destruct Hb as [Hb1 Hb2].
      destruct (clone_args_ok _ _ _ _ E1 Hb1) as [N1 [F1 [I1 M1]]].
      destruct (clone_list_ok sub HF _ _ _ E2) as [N2 [F2 [I2 [R2 S2]]]].
      { eapply Forall_impl; [|exact Hb2]. intros i Hi. exact (N.lt_le_trans _ _ _ Hi N1). }
      split; [exact (N.le_trans _ _ _ N1 N2)|split; [|split; [|split]]].
      + intros j Hj. rewrite F2 by exact (N.lt_le_trans _ _ _ Hj N1). apply F1. exact Hj.
      + simpl. eapply fresh_ids_app; eassumption.
      + simpl. f_equal.
        * rewrite <- M1. apply map_ext_in. intros j Hj. apply F2.
          destruct I1 as [I1 _]. rewrite Forall_forall in I1. apply (I1 _ Hj).
        * rewrite R2. apply read_list_frame. intros j Hj. apply F1. rewrite Forall_forall in Hb2. apply Hb2, Hj.
      + exact S2.
    - intros tc ds sub HF hs hs' p' H Hb. simpl in H.
      destruct (thread_list clone_sel hs sub) as [hs1 sub'] eqn:E1. injection H as <- <-. simpl in Hb.
      destruct (clone_list_ok sub HF _ _ _ E1 Hb) as [N1 [F1 [I1 [R1 S1]]]].
      split; [exact N1|split; [exact F1|split; [exact I1|split]]].
      + simpl. rewrite R1. reflexivity.
      + exact S1.
    - intros f ds hs hs' p' H Hb. simpl in H. injection H as <- <-.
      split; [apply N.le_refl|split; [intros; reflexivity|split; [split; constructor|split; reflexivity]]].
  Qed.

  Lemma NoDup_app_disj : forall (A : Type) (l1 l2 : list A), NoDup (l1 ++ l2) ->
    NoDup l1 /\ NoDup l2 /\ (forall x, In x l1 -> ~ In x l2).
  Proof.
    induction l1 as [|a l1 IH]; intros l2 H; simpl in *.
    - split; [constructor|split; [exact H|intros x []]].
    - inversion H as [|? ? Hn Hd]; subst. destruct (IH _ Hd) as [A1 [A2 A3]].
      split; [constructor; [intro Z; apply Hn; apply in_or_app; left; exact Z|exact A1]|split; [exact A2|]].
      intros x [->|Hx]; [intro Z; apply Hn; apply in_or_app; right; exact Z|apply A3; exact Hx].
  Qed.

  Lemma hnorm_args_refines : forall o nm ids (st : nst) (hs : hst) st' hs',
    hnorm_args st hs o nm ids = (st', hs') -> NoDup ids ->
    writes_only ids hs hs' /\
    norm_args st o nm (map (hget (h_heap hs)) ids) = (st', map (hget (h_heap hs')) ids).
  Proof.
    intros o nm. induction ids as [|i r IH]; intros st hs st' hs' H Hd; simpl in H.
    - injection H as <- <-. split; [apply writes_only_refl|reflexivity].
    - inversion Hd as [|? ? Hni Hdr]; subst.
      destruct (hget (h_heap hs) i) as [a v] eqn:G.
      destruct (match arg_ty o nm a with Some t => _ | None => _ end) as [st1 hs1] eqn:E1.
      destruct (harg_step _ _ _ _ _ _ _ _ _ G E1) as (v1 & T1 & W1 & G1).
      destruct (IH _ _ _ _ H Hdr) as [W2 R].
      split; [exact (writes_only_trans [i] r _ _ _ W1 W2)|].
      simpl. rewrite G, T1.
      replace (map (hget (h_heap hs)) r) with (map (hget (h_heap hs1)) r).
      + rewrite R, (proj2 W2 i Hni), G1. reflexivity.
      + apply map_ext_in. intros j Hj. apply (proj2 W1). intros [<-|[]]. contradiction.
  Qed.

  (* the in-place walk at p writes p's cells only, and what they hold afterwards is the functional
     walk of what they held *)
  Definition refines (p : psel) : Prop :=
    forall o (st : nst) (hs : hst) st' hs', hnorm_sel o st hs p = (st', hs') -> NoDup (pids p) ->
      writes_only (pids p) hs hs' /\
      norm_sel o st (read_sel (h_heap hs) p) = (st', read_sel (h_heap hs') p).

  Lemma hwalk_list_refines : forall o (l : list psel), Forall refines l ->
    forall (st : nst) (hs : hst) st' hs', hwalk_list (hnorm_sel o) st hs l = (st', hs') -> NoDup (flat_map pids l) ->
      writes_only (flat_map pids l) hs hs' /\
      norm_list (norm_sel o) st (map (read_sel (h_heap hs)) l) = (st', map (read_sel (h_heap hs')) l).
  Proof.
    intros o l HF. induction HF as [|p r Hp _ IH]; intros st hs st' hs' H Hd; simpl in H.
    - injection H as <- <-. split; [apply writes_only_refl|reflexivity].
    - destruct (hnorm_sel o st hs p) as [st1 hs1] eqn:E1.
      simpl in Hd. destruct (NoDup_app_disj _ _ _ Hd) as [D1 [D2 D3]].
      destruct (Hp _ _ _ _ _ E1 D1) as [W1 R1]. destruct (IH _ _ _ _ H D2) as [W2 R2].
      split; [exact (writes_only_trans _ _ _ _ _ W1 W2)|].
      simpl. rewrite R1.
      replace (map (read_sel (h_heap hs)) r) with (map (read_sel (h_heap hs1)) r).
      + rewrite R2. f_equal. f_equal. symmetry. apply read_sel_frame. intros j Hj. apply (proj2 W2), D3, Hj.
      + apply read_list_frame. intros j Hj. apply (proj2 W1). intro Z. exact (D3 j Z Hj).
  Qed.

  Lemma all_refines : forall p, refines p.
  Proof.
    apply psel_ind'.
    - intros al nm ids ds sub HF o st hs st' hs' H Hd. simpl in H. simpl.
      destruct (field_def o nm) as [ft|]; [|injection H as <- <-; split; [apply writes_only_refl|reflexivity]].
      destruct (hnorm_args st hs o nm ids) as [st1 hs1] eqn:E1.
      simpl in Hd. destruct (NoDup_app_disj _ _ _ Hd) as [D1 [D2 D3]].
      destruct (hnorm_args_refines _ _ _ _ _ _ _ E1 D1) as [W1 R1]. rewrite R1.
      assert (Sub1 : map (read_sel (h_heap hs1)) sub = map (read_sel (h_heap hs)) sub).
      { apply read_list_frame. intros j Hj. apply (proj2 W1). intro Z. exact (D3 j Z Hj). }
      destruct ft as [o'|].
      + destruct (hwalk_list_refines o' sub HF _ _ _ _ H D2) as [W2 R2]. rewrite Sub1 in R2. rewrite R2.
        split; [exact (writes_only_trans _ _ _ _ _ W1 W2)|].
        f_equal. f_equal. apply map_ext_in. intros j Hj. symmetry. apply (proj2 W2), D3, Hj.
      + injection H as <- <-. rewrite Sub1. split; [|reflexivity].
        apply (writes_only_incl _ _ _ _ W1), incl_appl, incl_refl.
    - intros tc ds sub HF o st hs st' hs' H Hd. simpl in H. simpl. simpl in Hd.
      destruct (hwalk_list_refines _ sub HF _ _ _ _ H Hd) as [W R]. rewrite R. split; [exact W|reflexivity].
    - intros f ds o st hs st' hs' H Hd. simpl in H. injection H as <- <-. split; [apply writes_only_refl|reflexivity].
  Qed.

  Lemma caller_cells_unchanged : forall root (hs : hst) (ps : list psel) st hs' ps',
    hnormalize root hs ps = (st, hs', ps') -> Forall (fun i => i < h_next hs) (flat_map pids ps) ->
    (forall j, j < h_next hs -> hget (h_heap hs') j = hget (h_heap hs) j) /\
    map (read_sel (h_heap hs')) ps = map (read_sel (h_heap hs)) ps.
  Proof.
    intros root hs ps st hs' ps' H Hb. unfold NormalizeHeap.hnormalize in H.
    destruct (thread_list clone_sel hs ps) as [hs1 ps1] eqn:E1.
    destruct (clone_list_ok ps (Forall_all _ _ all_clone_good _) _ _ _ E1 Hb) as [N1 [F1 [[I1 ND] _]]].
    assert (Cells : forall j, j < h_next hs -> hget (h_heap hs') j = hget (h_heap hs) j).
    { destruct (existsb pspreads ps1).
      - injection H as <- <- <-. exact F1.
      - destruct (hwalk_list (hnorm_sel root) n_init hs1 ps1) as [st2 hs2] eqn:E2. injection H as <- <- <-.
        destruct (hwalk_list_refines root ps1 (Forall_all _ _ all_refines _) _ _ _ _ E2 ND) as [[_ F2] _].
        intros j Hj. rewrite F2; [apply F1; exact Hj|].
        intro Hin. rewrite Forall_forall in I1. specialize (I1 _ Hin). simpl in I1. lia. }
    split; [exact Cells|]. apply read_list_frame. intros j Hj. apply Cells. rewrite Forall_forall in Hb. apply Hb, Hj.
  Qed.

  Lemma existsb_map : forall (A B : Type) (f : B -> bool) (g : A -> B) l, existsb f (map g l) = existsb (fun x => f (g x)) l.
  Proof. induction l; simpl; [reflexivity|rewrite IHl; reflexivity]. Qed.

  Lemma spreads_read : forall (h : heap) (p : psel), spreads (read_sel h p) = pspreads p.
  Proof.
    intros h p. pattern p. apply psel_ind'; clear p.
    - intros al nm ids ds sub HF. simpl. rewrite existsb_map. 
      induction HF as [|x xs Hx _ IH]; simpl; [reflexivity|rewrite Hx, IH; reflexivity].
    - intros tc ds sub HF. simpl. rewrite existsb_map.
      induction HF as [|x xs Hx _ IH]; simpl; [reflexivity|rewrite Hx, IH; reflexivity].
    - reflexivity.
  Qed.

  (* the code's normalizeDocument, on cells, computes the functional normalisation of the caller's document *)
  Lemma hnormalize_refines : forall root (hs : hst) (ps : list psel) st hs' ps',
    hnormalize root hs ps = (st, hs', ps') -> Forall (fun i => i < h_next hs) (flat_map pids ps) ->
    normalize root (map (read_sel (h_heap hs)) ps) = (st, map (read_sel (h_heap hs')) ps').
  Proof.
    intros root hs ps st hs' ps' H Hb. unfold NormalizeHeap.hnormalize in H. unfold Normalize.normalize.
    destruct (thread_list clone_sel hs ps) as [hs1 ps1] eqn:E1.
    destruct (clone_list_ok ps (Forall_all _ _ all_clone_good _) _ _ _ E1 Hb) as [_ [_ [[_ ND] [R1 S1]]]].
    assert (SP : existsb spreads (map (read_sel (h_heap hs)) ps) = existsb pspreads ps1).
    { rewrite existsb_map. transitivity (existsb pspreads ps).
      - clear. induction ps as [|x xs IH]; simpl; [reflexivity|rewrite spreads_read, IH; reflexivity].
      - symmetry. exact S1. }
    rewrite SP. destruct (existsb pspreads ps1).
    - injection H as <- <- <-. rewrite R1. reflexivity.
    - destruct (hwalk_list (hnorm_sel root) n_init hs1 ps1) as [st2 hs2] eqn:E2. injection H as <- <- <-.
      rewrite <- R1. exact (proj2 (hwalk_list_refines root ps1 (Forall_all _ _ all_refines _) _ _ _ _ E2 ND)).
  Qed.
End NormProofs.

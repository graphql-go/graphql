(* C09: input coercion (Exec.Coerce) under its fuel, a bound on the recursion depth
   ([None] = out of fuel): the bounds of Total.CoerceBound suffice, and more fuel never
   changes a result.  Both come from one induction per function ([more]).  Measure:
   [depth(value) * (w + 1) + ty_size t <= fuel] where [in_width S <= w]; a recursive call
   either strips a wrapper of the type (same value, ty_size one less) or descends into
   the value (depth decreases, the type is replaced by one of size at most [w]). *)
From Coq Require Import List Arith String Bool Lia.
From GQL Require Import Exec.Syntax Exec.Coerce Total.CoerceBound.
Import ListNotations.

Lemma in_list_max : forall (x : nat) (l : list nat), In x l -> x <= list_max l.
Proof.
  intros x l Hin.
  pose proof (proj1 (list_max_le l (list_max l)) (le_n _)) as HF.
  rewrite Forall_forall in HF. exact (HF x Hin).
Qed.

Lemma in_map_list_max : forall {A : Type} (f : A -> nat) (x : A) (l : list A),
  In x l -> f x <= list_max (map f l).
Proof. intros A f x l Hin. apply in_list_max, in_map, Hin. Qed.

Lemma alookup_In : forall {A : Type} (n : name) (l : list (name * A)) (d : A),
  alookup n l = Some d -> In (n, d) l.
Proof.
  intros A n l. induction l as [|[k' v'] r IH]; intros d Hl; simpl in Hl; [discriminate Hl|].
  destruct (String.eqb n k') eqn:E; [|right; exact (IH d Hl)].
  apply String.eqb_eq in E. injection Hl as <-. subst k'. left. reflexivity.
Qed.

Lemma find_field_In : forall (n : name) (fs : list fielddef) (fd : fielddef),
  find_field n fs = Some fd -> In fd fs.
Proof.
  intros n fs. induction fs as [|f r IH]; intros fd Hf; simpl in Hf; [discriminate Hf|].
  destruct (String.eqb n (f_name f)); [injection Hf as <-; left; reflexivity | right; exact (IH fd Hf)].
Qed.

Lemma lookup_type_width : forall (W : typedef -> nat) (Sc : schema) (n : name) (d : typedef),
  lookup_type Sc n = Some d -> W d <= list_max (map (fun kv => W (snd kv)) (s_types Sc)).
Proof.
  intros W Sc n d Hl. apply alookup_In in Hl.
  exact (in_map_list_max (fun kv : name * typedef => W (snd kv)) (n, d) (s_types Sc) Hl).
Qed.

Lemma input_field_width : forall (Sc : schema) (n : name) (fs : list argdef) (f : argdef),
  lookup_type Sc n = Some (TInputObject fs) -> In f fs -> ty_size (a_type f) <= in_width Sc.
Proof.
  intros Sc n fs f Hl Hin. apply (lookup_type_width typedef_in_width) in Hl.
  exact (Nat.le_trans _ _ _ (in_map_list_max (fun a : argdef => ty_size (a_type a)) f fs Hin) Hl).
Qed.

Lemma find_field_width : forall (g : fielddef -> nat) (W : typedef -> nat) (Sc : schema) obj fname fd,
  (forall fs ifs, W (TObject fs ifs) = list_max (map g fs)) ->
  find_field fname (object_fields Sc obj) = Some fd ->
  g fd <= list_max (map (fun kv => W (snd kv)) (s_types Sc)).
Proof.
  intros g W Sc obj fname fd HW Hf. unfold object_fields in Hf.
  destruct (lookup_type Sc obj) as [[k|vals|fs ifs|fs|ms|fs]|] eqn:EL; try discriminate Hf.
  apply find_field_In in Hf. apply (lookup_type_width W) in EL. rewrite HW in EL.
  exact (Nat.le_trans _ _ _ (in_map_list_max g fd fs Hf) EL).
Qed.

Lemma find_field_arg_width : forall S obj fname fd,
  find_field fname (object_fields S obj) = Some fd -> argdefs_width (f_args fd) <= in_width S.
Proof.
  intros S obj fname fd.
  apply (find_field_width (fun f => argdefs_width (f_args f)) typedef_in_width). reflexivity.
Qed.

Lemma find_field_out_width : forall S obj fname fd,
  find_field fname (object_fields S obj) = Some fd -> ty_size (f_type fd) <= out_width S.
Proof.
  intros S obj fname fd.
  apply (find_field_width (fun f => ty_size (f_type f)) typedef_out_width). reflexivity.
Qed.

Lemma bind_not_none : forall {A B : Type} (a : option A) (k : A -> option B),
  a <> None -> (forall x, k x <> None) ->
  match a with Some x => k x | None => None end <> None.
Proof. intros A B [x|] k Ha Hk; [apply Hk | contradiction Ha; reflexivity]. Qed.

(* [a'] is [a] computed with more fuel: a result stays the same, and under [c] there is one *)
Definition ole {A : Type} (a a' : option A) : Prop := forall r, a = Some r -> a' = Some r.

Definition more {A : Type} (c : Prop) (a a' : option A) : Prop := (c -> a <> None) /\ ole a a'.

Lemma more_some : forall A (c : Prop) (x : A), more c (Some x) (Some x).
Proof. intros A c x. split; [discriminate | intros r H; exact H]. Qed.

Lemma more_weaken : forall {A} {c c' : Prop} {a a' : option A}, more c' a a' -> (c -> c') -> more c a a'.
Proof. intros A c c' a a' [H1 H2] Hc. split; [intro H; exact (H1 (Hc H)) | exact H2]. Qed.

Lemma more_bind : forall A B (c : Prop) (a a' : option A) (k k' : A -> option B),
  more c a a' -> (forall x, a = Some x -> more c (k x) (k' x)) ->
  more c (match a with Some x => k x | None => None end)
         (match a' with Some x => k' x | None => None end).
Proof.
  intros A B c [x|] a' k k' [Ha1 Ha2] Hk; [rewrite (Ha2 x eq_refl); exact (Hk x eq_refl)|].
  split; [intro Hc; destruct (Ha1 Hc eq_refl) | intros r H; discriminate H].
Qed.

Lemma more_omap : forall A B (c : Prop) (f g : A -> option B) l,
  (forall x, In x l -> more c (f x) (g x)) -> more c (omap f l) (omap g l).
Proof.
  intros A B c f g l. induction l as [|x r IH]; intros H; [apply more_some|]. cbn.
  apply more_bind; [apply H; left; reflexivity|]. intros y _.
  apply more_bind; [apply IH; intros x' Hin; apply H; right; exact Hin | intros; apply more_some].
Qed.

Lemma more_oall : forall A (c : Prop) (f g : A -> option bool) l,
  (forall x, In x l -> more c (f x) (g x)) -> more c (oall f l) (oall g l).
Proof.
  intros A c f g l. induction l as [|x r IH]; intros H; [apply more_some|]. cbn.
  apply more_bind; [apply H; left; reflexivity|]. intros y _.
  apply more_bind; [apply IH; intros x' Hin; apply H; right; exact Hin | intros; apply more_some].
Qed.

Lemma ty_size_pos : forall t, 1 <= ty_size t.
Proof. intros t. destruct t; simpl; lia. Qed.

Lemma jv_depth_pos : forall v, 1 <= jv_depth v.
Proof. intros v. destruct v; simpl; lia. Qed.

Definition lit_depth (lit : option value) : nat :=
  match lit with Some v => value_depth v | None => 0 end.

Lemma value_depth_in_list : forall x l, In x l -> value_depth x < value_depth (VList l).
Proof. intros x l Hin. pose proof (in_map_list_max value_depth x l Hin). simpl. lia. Qed.

Lemma lit_depth_alookup : forall k (l : list (name * value)), lit_depth (alookup k l) <= args_depth l.
Proof.
  intros k l. destruct (alookup k l) as [v|] eqn:El; [|apply Nat.le_0_l]. apply alookup_In in El.
  exact (in_map_list_max (fun kv : name * value => value_depth (snd kv)) (k, v) l El).
Qed.

Lemma jv_depth_in_list : forall x l, In x l -> jv_depth x < jv_depth (JList l).
Proof. intros x l Hin. pose proof (in_map_list_max jv_depth x l Hin). simpl. lia. Qed.

Lemma jlookup_depth : forall k m,
  jlookup k m = JNull \/
  jv_depth (jlookup k m) <= list_max (map (fun kv : name * jv => jv_depth (snd kv)) m).
Proof.
  intros k m. unfold jlookup. destruct (alookup k m) as [v|] eqn:El; [right | left; reflexivity].
  apply alookup_In in El.
  exact (in_map_list_max (fun kv : name * jv => jv_depth (snd kv)) (k, v) m El).
Qed.

Lemma arith_desc : forall d' d w s' s fuel,
  d' < d -> s' <= w + s -> d * (w + 1) + s <= S fuel -> d' * (w + 1) + s' <= fuel.
Proof. intros d' d w s' s fuel Hd Hs H. nia. Qed.

Lemma arith_fuel_pos : forall d w s fuel,
  1 <= d -> 1 <= s -> d * (w + 1) + s <= S fuel -> 1 <= fuel.
Proof. intros d w s fuel Hd Hs H. nia. Qed.

Lemma coerce_bound_mono : forall w w' d d',
  w <= w' -> d <= d' -> coerce_bound w d <= coerce_bound w' d'.
Proof.
  intros w w' d d' Hw Hd. unfold coerce_bound.
  apply Nat.mul_le_mono; lia.
Qed.

Lemma coerce_bound_fits : forall w dd d s fuel,
  d <= dd -> s <= w -> coerce_bound w dd <= fuel -> d * (w + 1) + s <= fuel.
Proof. intros w dd d s fuel Hd Hs Hb. unfold coerce_bound in Hb. nia. Qed.

Lemma coerce_bound_pos : forall w dd fuel, coerce_bound w dd <= fuel -> 1 <= fuel.
Proof. intros w dd fuel Hb. unfold coerce_bound in Hb. nia. Qed.

(* value_from_ast on a literal that is not a variable; the model's match on the literal repeats this
   once for every constructor *)
Definition vfa_nonvar (fuel : nat) (S : schema) (t : tyref) (l : value)
           (vars : option (list (name * jv))) : option jv :=
  match t with
  | TNonNull t' => value_from_ast fuel S t' (Some l) vars
  | TList t' =>
    match l with
    | VList ls =>
      match omap (fun x => value_from_ast fuel S t' (Some x) vars) ls with
      | Some l' => Some (JList l') | None => None end
    | _ => match value_from_ast fuel S t' (Some l) vars with Some x => Some (JList [x]) | None => None end
    end
  | TNamed n =>
    match lookup_type S n with
    | Some (TInputObject fs) =>
      match l with
      | VObj lfs =>
        match omap (fun f =>
                      match value_from_ast fuel S (a_type f) (alookup (a_name f) lfs) vars with
                      | Some fv =>
                        Some (a_name f, if nullish fv then match a_default f with Some d => d | None => JNull end else fv)
                      | None => None
                      end) fs with
        | Some kvs => Some (JObj (filter (fun kv => negb (nullish (snd kv))) kvs))
        | None => None
        end
      | _ => Some JNull
      end
    | Some (TScalar k) => Some (parse_literal_scalar k l)
    | Some (TEnum vals) => Some (parse_literal_enum vals l)
    | _ => Some JNull
    end
  end.

Lemma value_from_ast_S : forall fuel S t l vars,
  value_from_ast (Datatypes.S fuel) S t (Some l) vars =
  match l with
  | VVar n => match vars with Some m => Some (jlookup n m) | None => Some JNull end
  | _ => vfa_nonvar fuel S t l vars
  end.
Proof. intros fuel S t l vars. destruct l; reflexivity. Qed.

Lemma value_from_ast_fuel : forall (Sc : schema) (w : nat), in_width Sc <= w ->
  forall fuel fuel', fuel <= fuel' -> forall t lit vars,
    more (lit_depth lit * (w + 1) + ty_size t <= fuel)
         (value_from_ast fuel Sc t lit vars) (value_from_ast fuel' Sc t lit vars).
Proof.
  intros Sc w Hw fuel. induction fuel as [|n IH]; intros fuel' Hle t lit vars.
  { split; [intro Hb; pose proof (ty_size_pos t); lia | intros r H; discriminate H]. }
  destruct fuel' as [|n']; [lia|]. specialize (IH n' ltac:(lia)).
  destruct lit as [v|]; [|apply more_some]. rewrite !value_from_ast_S. cbn [lit_depth].
  assert (Hnv : more (value_depth v * (w + 1) + ty_size t <= S n)
                     (vfa_nonvar n Sc t v vars) (vfa_nonvar n' Sc t v vars));
    [|destruct v; try exact Hnv; destruct vars; apply more_some].
  unfold vfa_nonvar.
  destruct t as [nm|t'|t']; cbn [ty_size];
    [| |apply (more_weaken (IH _ _ _)); cbn [lit_depth]; lia].
  - destruct (lookup_type Sc nm) as [[k|vals|fs ifs|fs|ms|fs]|] eqn:EL; try apply more_some.
    destruct v as [x|z|fn fd|s|b|e|l|lfs]; try apply more_some.
    apply more_bind; [|intros; apply more_some]. apply more_omap. intros f Hin.
    apply more_bind; [|intros; apply more_some].
    apply (more_weaken (IH _ _ _)). intro Hb.
    pose proof (input_field_width Sc nm fs f EL Hin). pose proof (lit_depth_alookup (a_name f) lfs).
    apply (arith_desc _ (value_depth (VObj lfs)) _ _ 1);
      [simpl; unfold args_depth in *; lia | lia | exact Hb].
  - pose proof (more_weaken (c := value_depth v * (w + 1) + S (ty_size t') <= S n)
                            (IH t' (Some v) vars) ltac:(cbn [lit_depth]; lia)) as H1.
    destruct v as [x|z|fn fd|s|b|e|l|lfs];
      (apply more_bind; [|intros; apply more_some]); try exact H1.
    apply more_omap. intros x Hin. apply (more_weaken (IH _ _ _)). intro Hb.
    refine (arith_desc _ _ _ _ _ _ (value_depth_in_list x l Hin) _ Hb). lia.
Qed.

Lemma value_from_ast_terminates : forall S t lit vars fuel,
  vfa_bound S t lit <= fuel -> value_from_ast fuel S t lit vars <> None.
Proof.
  intros Sc t lit vars fuel Hb. unfold vfa_bound in Hb.
  apply (value_from_ast_fuel Sc (Nat.max (ty_size t) (in_width Sc)) (Nat.le_max_r _ _) fuel fuel (le_n _)).
  exact (coerce_bound_fits _ _ _ _ _ (le_n _) (Nat.le_max_l _ _) Hb).
Qed.

Lemma get_argument_values_fuel : forall Sc defs args vars w d fuel fuel',
  fuel <= fuel' -> argdefs_width defs <= w -> in_width Sc <= w -> args_depth args <= d ->
  more (coerce_bound w d <= fuel)
       (get_argument_values fuel Sc defs args vars) (get_argument_values fuel' Sc defs args vars).
Proof.
  intros Sc defs args vars w d fuel fuel' Hle Hdw Hw Hd.
  apply more_bind; [|intros; apply more_some]. apply more_omap. intros a Hin.
  apply more_bind; [|intros; apply more_some].
  apply (more_weaken (value_from_ast_fuel Sc w Hw fuel fuel' Hle _ _ _)). intro Hb.
  pose proof (lit_depth_alookup (a_name a) args).
  pose proof (in_map_list_max (fun a0 : argdef => ty_size (a_type a0)) a defs Hin).
  apply (coerce_bound_fits w d); [lia | unfold argdefs_width in Hdw; lia | exact Hb].
Qed.

Lemma get_argument_values_terminates_uniform : forall S defs args vars w d fuel,
  argdefs_width defs <= w -> in_width S <= w -> args_depth args <= d ->
  coerce_bound w d <= fuel ->
  get_argument_values fuel S defs args vars <> None.
Proof.
  intros Sc defs args vars w d fuel Hdw Hw Hd.
  exact (proj1 (get_argument_values_fuel Sc defs args vars w d fuel fuel (le_n _) Hdw Hw Hd)).
Qed.

Lemma get_argument_values_terminates : forall S defs args vars fuel,
  args_bound S defs args <= fuel -> get_argument_values fuel S defs args vars <> None.
Proof.
  intros Sc defs args vars fuel Hb. unfold args_bound in Hb.
  apply (get_argument_values_terminates_uniform Sc defs args vars
           (Nat.max (argdefs_width defs) (in_width Sc)) (args_depth args)); first [exact Hb | lia].
Qed.

Lemma valid_input_null : forall fuel fuel' (Sc : schema) t, fuel <= fuel' ->
  more (1 <= fuel) (valid_input fuel Sc t JNull) (valid_input fuel' Sc t JNull).
Proof.
  intros [|n] fuel' Sc t Hle; [split; [lia | intros r H; discriminate H]|].
  destruct fuel' as [|n']; [lia | apply more_some].
Qed.

Lemma coerce_value_null : forall fuel fuel' (Sc : schema) t, fuel <= fuel' ->
  more (1 <= fuel) (coerce_value fuel Sc t JNull) (coerce_value fuel' Sc t JNull).
Proof.
  intros [|n] fuel' Sc t Hle; [split; [lia | intros r H; discriminate H]|].
  destruct fuel' as [|n']; [lia | apply more_some].
Qed.

Lemma valid_input_fuel : forall (Sc : schema) (w : nat), in_width Sc <= w ->
  forall fuel fuel', fuel <= fuel' -> forall t v,
    more (jv_depth v * (w + 1) + ty_size t <= fuel) (valid_input fuel Sc t v) (valid_input fuel' Sc t v).
Proof.
  intros Sc w Hw fuel. induction fuel as [|n IH]; intros fuel' Hle t v.
  { split; [intro Hb; pose proof (ty_size_pos t); lia | intros r H; discriminate H]. }
  destruct fuel' as [|n']; [lia|]. assert (Hle' : n <= n') by lia. specialize (IH n' Hle').
  cbn [valid_input]. destruct (nullish v); [apply more_some|].
  destruct t as [nm|t'|t']; cbn [ty_size]; [| |apply (more_weaken (IH _ _)); lia].
  - destruct (lookup_type Sc nm) as [[k|vals|fs ifs|fs|ms|fs]|] eqn:EL; try apply more_some.
    destruct v as [| b | z | fn fd | s | l | m]; try apply more_some.
    apply more_bind; [|intros; apply more_some]. apply more_oall. intros f Hin.
    pose proof (input_field_width Sc nm fs f EL Hin).
    destruct (jlookup_depth (a_name f) m) as [-> | Hd];
      [apply (more_weaken (valid_input_null _ _ _ _ Hle')) | apply (more_weaken (IH _ _))]; intro Hb.
    + exact (arith_fuel_pos _ _ _ _ (jv_depth_pos (JObj m)) (le_n 1) Hb).
    + apply (arith_desc _ (jv_depth (JObj m)) _ _ 1); [simpl; lia | lia | exact Hb].
  - pose proof (more_weaken (c := jv_depth v * (w + 1) + S (ty_size t') <= S n) (IH t' v) ltac:(lia)) as H1.
    destruct v as [| b | z | fn fd | s | l | m]; try exact H1.
    apply more_oall. intros x Hin. apply (more_weaken (IH _ _)). intro Hb.
    refine (arith_desc _ _ _ _ _ _ (jv_depth_in_list x l Hin) _ Hb). lia.
Qed.

Lemma coerce_value_fuel : forall (Sc : schema) (w : nat), in_width Sc <= w ->
  forall fuel fuel', fuel <= fuel' -> forall t v,
    more (jv_depth v * (w + 1) + ty_size t <= fuel) (coerce_value fuel Sc t v) (coerce_value fuel' Sc t v).
Proof.
  intros Sc w Hw fuel. induction fuel as [|n IH]; intros fuel' Hle t v.
  { split; [intro Hb; pose proof (ty_size_pos t); lia | intros r H; discriminate H]. }
  destruct fuel' as [|n']; [lia|]. assert (Hle' : n <= n') by lia. specialize (IH n' Hle').
  cbn [coerce_value]. destruct (nullish v); [apply more_some|].
  destruct t as [nm|t'|t']; cbn [ty_size]; [| |apply (more_weaken (IH _ _)); lia].
  - destruct (lookup_type Sc nm) as [[k|vals|fs ifs|fs|ms|fs]|] eqn:EL; try apply more_some.
    apply more_bind; [|intros; apply more_some]. apply more_omap. intros f Hin.
    apply more_bind; [|intros; apply more_some].
    pose proof (input_field_width Sc nm fs f EL Hin).
    assert (Hnull : more (jv_depth v * (w + 1) + 1 <= S n)
                         (coerce_value n Sc (a_type f) JNull) (coerce_value n' Sc (a_type f) JNull)).
    { apply (more_weaken (coerce_value_null _ _ _ _ Hle')).
      exact (arith_fuel_pos _ _ _ _ (jv_depth_pos v) (le_n 1)). }
    destruct v as [| b | z | fn fd | s | l | m]; try exact Hnull.
    destruct (jlookup_depth (a_name f) m) as [-> | Hd]; [exact Hnull|].
    apply (more_weaken (IH _ _)). intro Hb.
    apply (arith_desc _ (jv_depth (JObj m)) _ _ 1); [simpl; lia | lia | exact Hb].
  - pose proof (more_weaken (c := jv_depth v * (w + 1) + S (ty_size t') <= S n) (IH t' v) ltac:(lia)) as H1.
    destruct v as [| b | z | fn fd | s | l | m];
      (apply more_bind; [|intros; apply more_some]); try exact H1.
    apply more_omap. intros x Hin. apply (more_weaken (IH _ _)). intro Hb.
    refine (arith_desc _ _ _ _ _ _ (jv_depth_in_list x l Hin) _ Hb). lia.
Qed.

Lemma valid_input_terminates : forall S t v w d fuel,
  in_width S <= w -> ty_size t <= w -> jv_depth v <= d -> coerce_bound w d <= fuel ->
  valid_input fuel S t v <> None.
Proof.
  intros Sc t v w d fuel Hw Ht Hd Hb.
  apply (valid_input_fuel Sc w Hw fuel fuel (le_n _)). apply (coerce_bound_fits w d); assumption.
Qed.

Lemma coerce_value_terminates : forall S t v w d fuel,
  in_width S <= w -> ty_size t <= w -> jv_depth v <= d -> coerce_bound w d <= fuel ->
  coerce_value fuel S t v <> None.
Proof.
  intros Sc t v w d fuel Hw Ht Hd Hb.
  apply (coerce_value_fuel Sc w Hw fuel fuel (le_n _)). apply (coerce_bound_fits w d); assumption.
Qed.

Lemma get_variable_value_fuel : forall (Sc : schema) w dd d input fuel fuel',
  fuel <= fuel' -> in_width Sc <= w -> ty_size (v_type d) <= w ->
  (input = JNull \/ jv_depth input <= dd) ->
  lit_depth (v_default d) <= dd ->
  more (coerce_bound w dd <= fuel)
       (get_variable_value fuel Sc d input) (get_variable_value fuel' Sc d input).
Proof.
  intros Sc w dd d input fuel fuel' Hle Hw Ht Hin Hdd. unfold get_variable_value.
  destruct (negb (is_input_type Sc (v_type d))); [apply more_some|].
  apply more_bind.
  { destruct Hin as [-> | Hd];
      [apply (more_weaken (valid_input_null _ _ Sc _ Hle)); apply coerce_bound_pos
      |apply (more_weaken (valid_input_fuel Sc w Hw _ _ Hle _ _)); apply (coerce_bound_fits w dd); assumption]. }
  intros [|] _; [|apply more_some]. destruct (nullish input).
  - destruct (v_default d) as [dv|]; [|apply more_some].
    apply more_bind; [|intros; apply more_some].
    apply (more_weaken (value_from_ast_fuel Sc w Hw _ _ Hle _ _ _)).
    apply (coerce_bound_fits w dd); assumption.
  - apply more_bind; [|intros; apply more_some].
    destruct Hin as [-> | Hd];
      [apply (more_weaken (coerce_value_null _ _ Sc _ Hle)); apply coerce_bound_pos
      |apply (more_weaken (coerce_value_fuel Sc w Hw _ _ Hle _ _)); apply (coerce_bound_fits w dd); assumption].
Qed.

Lemma get_variable_values_gen : forall (Sc : schema) w dd inputs fuel fuel',
  fuel <= fuel' -> in_width Sc <= w -> inputs_depth inputs <= dd ->
  forall ds,
    (forall d, In d ds -> ty_size (v_type d) <= w /\ lit_depth (v_default d) <= dd) ->
    more (coerce_bound w dd <= fuel)
         (get_variable_values fuel Sc ds inputs) (get_variable_values fuel' Sc ds inputs).
Proof.
  intros Sc w dd inputs fuel fuel' Hle Hw Hi ds.
  induction ds as [|d r IH]; intros Hall; [apply more_some|]. cbn [get_variable_values].
  apply more_bind.
  - destruct (Hall d (or_introl eq_refl)) as [Ht Hd].
    apply (get_variable_value_fuel Sc w dd); try assumption.
    destruct (jlookup_depth (v_name d) inputs) as [EJ|Hl]; [left; exact EJ | right].
    unfold inputs_depth in Hi. lia.
  - intros [x|u] _; [|apply more_some].
    apply more_bind; [apply IH; intros d' Hin; apply Hall; right; exact Hin|].
    intros [m|e] _; apply more_some.
Qed.

Lemma get_variable_values_fuel : forall S ds inputs fuel fuel', fuel <= fuel' ->
  more (vars_bound S ds inputs <= fuel)
       (get_variable_values fuel S ds inputs) (get_variable_values fuel' S ds inputs).
Proof.
  intros Sc ds inputs fuel fuel' Hle.
  apply (get_variable_values_gen Sc _ _ inputs fuel fuel' Hle (Nat.le_max_r _ _) (Nat.le_max_r _ _)).
  intros d Hin.
  pose proof (in_map_list_max (fun d0 : vardef => ty_size (v_type d0)) d ds Hin).
  pose proof (in_map_list_max (fun d0 : vardef => lit_depth (v_default d0)) d ds Hin).
  unfold vardefs_width, vardefs_depth, lit_depth in *. lia.
Qed.

Lemma get_variable_values_terminates : forall S ds inputs fuel,
  vars_bound S ds inputs <= fuel -> get_variable_values fuel S ds inputs <> None.
Proof. intros S ds inputs fuel. exact (proj1 (get_variable_values_fuel S ds inputs fuel fuel (le_n _))). Qed.

Print Assumptions value_from_ast_terminates.
Print Assumptions get_argument_values_terminates.
Print Assumptions get_argument_values_terminates_uniform.
Print Assumptions get_variable_values_terminates.
Print Assumptions find_field_arg_width.
Print Assumptions find_field_out_width.
Print Assumptions valid_input_terminates.
Print Assumptions coerce_value_terminates.

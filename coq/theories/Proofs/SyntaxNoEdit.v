(* C08, no-edit clause: when every visit function returns values that are not ast.Nodes
   (the printer's reducers return strings), Visit applies all edits to copies and the heap
   that holds the AST is left exactly as it was. *)
From Coq Require Import List NArith.
From GQL Require Import Syntax.PrintVisit.
Import ListNotations.
Open Scope N_scope.

(* a value that Visit stores in a copy: not a node (nor a slice of nodes only), not nil *)
Definition safe (v : rval) : Prop := needs_map v = true /\ is_nil_val v = false.
Definition safe_fn (fn : N -> rval -> option rval) : Prop := forall k v r, fn k v = Some r -> safe r.

Lemma safe_str : forall s, safe (RStr s). Proof. intro s. split; reflexivity. Qed.
Lemma safe_copy : forall a ov, safe (RCopy a ov). Proof. intros. split; reflexivity. Qed.

Lemma apply_edits_copy : forall eds h a ov, Forall (fun e => safe (snd e)) eds ->
  fold_left apply_edit eds (h, RCopy a ov) = (h, RCopy a (ov ++ eds)).
Proof.
  induction eds as [|[k v] eds IH]; intros h a ov H; [rewrite app_nil_r; reflexivity|].
  inversion H as [|? ? [Hv _] Hr]; subst. cbn [fold_left apply_edit]. cbn [snd] in Hv. rewrite Hv.
  rewrite (IH h a (ov ++ [(k, v)]) Hr). rewrite <- app_assoc. reflexivity.
Qed.

Lemma apply_edits_safe : forall eds h a, Forall (fun e => safe (snd e)) eds ->
  apply_edits h a eds = (h, match eds with [] => RNode a | _ => RCopy a eds end).
Proof.
  intros [|[k v] eds] h a H; [reflexivity|]. unfold apply_edits.
  inversion H as [|? ? [Hv _] Hr]; subst. cbn [fold_left apply_edit]. cbn [snd] in Hv. rewrite Hv.
  apply (apply_edits_copy eds h a [(k, v)] Hr).
Qed.

Section NoEdit.
  Variable keys : N -> list N.
  Variable fn : N -> rval -> option rval.
  Hypothesis Hfn : safe_fn fn.

  (* what is assumed of the recursive call, and proved of the whole *)
  Definition keeps (rec : heap -> N -> visit_res) : Prop :=
    forall h a h' r, rec h a = Some (h', r) -> h' = h /\ (forall v, r = Some v -> safe v).

  Lemma elems_keeps : forall rec, keeps rec -> forall cs h h' l ed, elems rec h cs = Some (h', l, ed) ->
    h' = h /\ (ed = true -> existsb (fun x => negb (is_struct_node x)) l = true).
  Proof.
    intros rec Hrec. induction cs as [|c r IH]; intros h h' l ed H.
    - cbn [elems] in H. inversion H; subst. split; [reflexivity|discriminate].
    - cbn [elems] in H. destruct (rec h c) as [[h1 e]|] eqn:R; [|discriminate].
      destruct (Hrec _ _ _ _ R) as [-> He].
      destruct (elems rec h r) as [[[h2 l2] ed2]|] eqn:E; [|discriminate].
      destruct (IH _ _ _ _ E) as [-> Hl]. destruct e as [v|].
      + destruct (He v eq_refl) as [Hv Hn]. rewrite Hn in H. inversion H; subst. split; [reflexivity|]. intros _.
        cbn [existsb]. destruct v; cbn in Hv |- *; try reflexivity; try discriminate Hv.
      + inversion H; subst. split; [reflexivity|]. intro X. cbn [existsb is_struct_node negb orb]. apply Hl. exact X.
  Qed.

  Lemma fields_keeps : forall rec, keeps rec -> forall a ks h h' eds, fields rec a h ks = Some (h', eds) ->
    h' = h /\ Forall (fun e => safe (snd e)) eds.
  Proof.
    intros rec Hrec a. induction ks as [|k r IH]; intros h h' eds H.
    - cbn [fields] in H. inversion H; subst. split; [reflexivity|constructor].
    - cbn [fields] in H. destruct (hlookup a h) as [st|]; [|discriminate].
      destruct (field k (hs_fields st)) as [|c|cs|s].
      + apply IH. exact H.
      + destruct (rec h c) as [[h1 e]|] eqn:R; [|discriminate]. destruct (Hrec _ _ _ _ R) as [-> He].
        destruct (fields rec a h r) as [[h2 eds2]|] eqn:F; [|discriminate]. destruct (IH _ _ _ F) as [-> Hs].
        inversion H; subst. split; [reflexivity|]. destruct e as [v|]; [constructor; [apply He; reflexivity|exact Hs]|exact Hs].
      + destruct (elems rec h cs) as [[[h1 l] ed]|] eqn:E; [|discriminate]. destruct (elems_keeps rec Hrec _ _ _ _ _ E) as [-> Hl].
        destruct (fields rec a h r) as [[h2 eds2]|] eqn:F; [|discriminate]. destruct (IH _ _ _ F) as [-> Hs].
        inversion H; subst. split; [reflexivity|]. destruct ed; [|exact Hs].
        constructor; [|exact Hs]. cbn [snd]. split; [cbn [needs_map]; apply Hl; reflexivity|reflexivity].
      + apply IH. exact H.
  Qed.

  Theorem visit_node_keeps : forall fuel, keeps (visit_node keys fn fuel).
  Proof.
    induction fuel as [|f IH]; intros h a h' r H; [discriminate H|].
    cbn [visit_node] in H. destruct (hlookup a h) as [st|]; [|discriminate].
    destruct (fields (visit_node keys fn f) a h (keys (hs_kind st))) as [[h1 eds]|] eqn:F; [|discriminate].
    destruct (fields_keeps _ IH _ _ _ _ _ F) as [-> Hs].
    rewrite (apply_edits_safe eds h a Hs) in H.
    destruct (fn (hs_kind st) (match eds with [] => RNode a | _ :: _ => RCopy a eds end)) as [v|] eqn:Fn.
    - inversion H; subst. split; [reflexivity|]. intros v0 E. inversion E; subst. apply (Hfn _ _ _ Fn).
    - inversion H; subst. split; [reflexivity|]. intros v0 E. destruct eds; [discriminate E|]. inversion E; subst. apply safe_copy.
  Qed.

  (* the AST handed to Visit is not modified *)
  Theorem visit_no_edit : forall fuel h root h' r, visit keys fn fuel h root = Some (h', r) -> h' = h.
  Proof. intros fuel h root h' r H. apply (visit_node_keeps fuel h root h' r H). Qed.
End NoEdit.

(* the model does exhibit the mutation when a visit function returns a node: a Field whose
   Name child is replaced by another Name node gets its Name field overwritten in the heap *)
Definition ex_heap : heap :=
  [(1, mkHS 10 [(1, HPtr 2)]); (2, mkHS 20 []); (3, mkHS 20 [])].
Definition ex_keys (k : N) : list N := if k =? 10 then [1] else [].
Definition ex_fn_node (k : N) (v : rval) : option rval := if k =? 20 then Some (RNode 3) else None.
Definition ex_fn_str (k : N) (v : rval) : option rval := if k =? 20 then Some (RStr [97]) else None.

Lemma visit_can_edit : exists h', visit ex_keys ex_fn_node 3 ex_heap 1 = Some (h', Some (RNode 1)) /\ h' <> ex_heap.
Proof. eexists. split; [vm_compute; reflexivity|discriminate]. Qed.
Lemma visit_str_example : visit ex_keys ex_fn_str 3 ex_heap 1 = Some (ex_heap, Some (RCopy 1 [(1, RStr [97])])).
Proof. vm_compute. reflexivity. Qed.

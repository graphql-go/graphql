(* Multi-byte characters pass through the printer's quoting and the lexer unchanged:
   decoding a valid UTF-8 sequence and encoding the code point again gives the same bytes. *)
From Coq Require Import List NArith Bool Lia Arith.
From GQL Require Import Base.Bytes Syntax.Lexer Syntax.Printer Proofs.SyntaxPrinter Proofs.SyntaxLexer.
Import ListNotations.
Open Scope N_scope.

Lemma cont_range : forall b, cont b = true -> 128 <= b /\ b <= 191.
Proof. intros b H. apply andb_true_iff in H. destruct H as [H1 H2]. apply N.leb_le in H1. apply N.leb_le in H2. split; assumption. Qed.

Lemma nlen_app : forall A (a b : list A), nlen (a ++ b) = nlen a + nlen b.
Proof. intros. unfold nlen. rewrite app_length. lia. Qed.
Lemma nlen_cons : forall A (a : A) b, nlen (a :: b) = N.succ (nlen b).
Proof. intros. unfold nlen. cbn [length]. apply Nnat.Nat2N.inj_succ. Qed.

Lemma dropN_app_len : forall (pre tail : list N) n, nlen pre = n -> dropN n (pre ++ tail) = tail.
Proof.
  intros pre tail n H. unfold dropN. subst n. unfold nlen. rewrite Nnat.Nat2N.id.
  rewrite skipn_app, skipn_all, Nat.sub_diag. reflexivity.
Qed.
Lemma takeN_app_len : forall (pre tail : list N) n, nlen pre = n -> takeN n (pre ++ tail) = pre.
Proof.
  intros pre tail n H. unfold takeN. subst n. unfold nlen. rewrite Nnat.Nat2N.id.
  rewrite firstn_app, firstn_all, Nat.sub_diag. cbn [firstn]. apply app_nil_r.
Qed.

Lemma dm64 : forall x y, y < 64 -> (x * 64 + y) / 64 = x /\ (x * 64 + y) mod 64 = y.
Proof.
  intros x y H. rewrite (N.mul_comm x 64). split; symmetry.
  - apply (N.div_unique _ 64 x y H). reflexivity.
  - apply (N.mod_unique _ 64 x y H). reflexivity.
Qed.

Lemma enc2 : forall x y, 2 <= x -> x < 32 -> y < 64 ->
  let r := x * 64 + y in 128 <= r /\ encode_rune r = [x + 192; y + 128].
Proof.
  intros x y X1 X2 Y r. split; [unfold r; lia|]. destruct (dm64 x y Y) as [D M]. fold r in D, M.
  unfold encode_rune, utf8_encode.
  rewrite (proj2 (N.ltb_lt r 65536)), (proj2 (N.ltb_ge r 128)), (proj2 (N.ltb_lt r 2048)) by (unfold r; lia).
  rewrite D, M, (N.add_comm 192), (N.add_comm 128). reflexivity.
Qed.

(* the second byte of a three-byte sequence excludes the short encodings (x = 0) and the surrogates (x = 13) *)
Lemma enc3 : forall x y z, x < 16 -> y < 64 -> z < 64 -> (x = 0 -> 32 <= y) -> (x = 13 -> y < 32) ->
  let r := x * 4096 + y * 64 + z in 128 <= r /\ encode_rune r = [x + 224; y + 128; z + 128].
Proof.
  intros x y z X Y Z X0 X13 r.
  assert (E : r = (x * 64 + y) * 64 + z) by (unfold r; ring).
  assert (R : 2048 <= r /\ r < 65536) by (unfold r; destruct (N.eq_dec x 0) as [->|]; [specialize (X0 eq_refl)|]; lia).
  split; [lia|].
  destruct (dm64 (x * 64 + y) z Z) as [D1 M1]. destruct (dm64 x y Y) as [D2 M2]. rewrite <- E in D1, M1.
  unfold encode_rune, utf8_encode.
  rewrite (proj2 (N.ltb_lt r 65536)), (proj2 (N.ltb_ge r 128)), (proj2 (N.ltb_ge r 2048)) by lia.
  replace ((55296 <=? r) && (r <=? 57343)) with false.
  - change 4096 with (64 * 64). rewrite <- N.div_div, D1, D2, M2, M1 by discriminate.
    rewrite (N.add_comm 224), !(N.add_comm 128). reflexivity.
  - symmetry. apply andb_false_iff. destruct (N.lt_trichotomy x 13) as [L|[->|L]].
    + left. apply N.leb_gt. unfold r. lia.
    + left. apply N.leb_gt. specialize (X13 eq_refl). unfold r. lia.
    + right. apply N.leb_gt. unfold r. lia.
Qed.

(* the second byte of a four-byte sequence excludes the short encodings (x = 0) and what lies above U+10FFFF (x = 4) *)
Lemma enc4 : forall x y z w, x <= 4 -> y < 64 -> z < 64 -> w < 64 -> (x = 0 -> 16 <= y) -> (x = 4 -> y < 16) ->
  let r := x * 262144 + y * 4096 + z * 64 + w in 128 <= r /\ encode_rune r = [x + 240; y + 128; z + 128; w + 128].
Proof.
  intros x y z w X Y Z W X0 X4 r.
  assert (E : r = ((x * 64 + y) * 64 + z) * 64 + w) by (unfold r; ring).
  assert (R1 : 65536 <= r) by (unfold r; destruct (N.eq_dec x 0) as [->|]; [specialize (X0 eq_refl)|]; lia).
  assert (R2 : r <= 1114111) by (unfold r; destruct (N.eq_dec x 4) as [->|]; [specialize (X4 eq_refl)|]; lia).
  split; [lia|].
  destruct (dm64 ((x * 64 + y) * 64 + z) w W) as [D1 M1]. destruct (dm64 (x * 64 + y) z Z) as [D2 M2].
  destruct (dm64 x y Y) as [D3 M3]. rewrite <- E in D1, M1.
  unfold encode_rune.
  rewrite (proj2 (N.ltb_ge r 65536)), (proj2 (N.ltb_ge 1114111 r)) by assumption.
  change 262144 with (64 * 64 * 64). change 4096 with (64 * 64).
  rewrite <- !N.div_div, D1, D2, D3, M2, M3, M1 by discriminate.
  rewrite (N.add_comm 240), !(N.add_comm 128). reflexivity.
Qed.

(* the same in terms of the bytes, as rune_at decodes them *)
Lemma sub_add' : forall k c, k <= c -> exists x, c = x + k.
Proof. intros k c H. exists (c - k). lia. Qed.

Lemma encb2 : forall c b1, 194 <= c -> c < 224 -> cont b1 = true ->
  let r := (c - 192) * 64 + (b1 - 128) in 128 <= r /\ encode_rune r = [c; b1].
Proof.
  intros c b1 B1 E2 C1. destruct (cont_range _ C1) as [L1 U1].
  destruct (sub_add' 192 c ltac:(lia)) as (x & ->). destruct (sub_add' 128 b1 L1) as (y & ->). rewrite !N.add_sub.
  apply enc2; lia.
Qed.
Lemma encb3 : forall c b1 b2, 224 <= c -> c < 240 ->
  (if c =? 224 then 160 else 128) <= b1 -> b1 <= (if c =? 237 then 159 else 191) -> cont b2 = true ->
  let r := (c - 224) * 4096 + (b1 - 128) * 64 + (b2 - 128) in 128 <= r /\ encode_rune r = [c; b1; b2].
Proof.
  intros c b1 b2 E2 E3 L1 U1 C2. destruct (cont_range _ C2) as [L2 U2].
  assert (B : 128 <= b1 /\ b1 <= 191) by (destruct (c =? 224), (c =? 237); lia).
  destruct (sub_add' 224 c E2) as (x & ->). destruct (sub_add' 128 b1 (proj1 B)) as (y & ->). destruct (sub_add' 128 b2 L2) as (z & ->).
  rewrite !N.add_sub. apply enc3; try lia.
  - intros ->. cbn in L1. lia.
  - intros ->. cbn in U1. lia.
Qed.
Lemma encb4 : forall c b1 b2 b3, 240 <= c -> c <= 244 ->
  (if c =? 240 then 144 else 128) <= b1 -> b1 <= (if c =? 244 then 143 else 191) -> cont b2 = true -> cont b3 = true ->
  let r := (c - 240) * 262144 + (b1 - 128) * 4096 + (b2 - 128) * 64 + (b3 - 128) in 128 <= r /\ encode_rune r = [c; b1; b2; b3].
Proof.
  intros c b1 b2 b3 E3 B1' L1 U1 C2 C3. destruct (cont_range _ C2) as [L2 U2]. destruct (cont_range _ C3) as [L3 U3].
  assert (B : 128 <= b1 /\ b1 <= 191) by (destruct (c =? 240), (c =? 244); lia).
  destruct (sub_add' 240 c E3) as (x & ->). destruct (sub_add' 128 b1 (proj1 B)) as (y & ->).
  destruct (sub_add' 128 b2 L2) as (z & ->). destruct (sub_add' 128 b3 L3) as (w & ->).
  rewrite !N.add_sub. apply enc4; try lia.
  - intros ->. cbn in L1. lia.
  - intros ->. cbn in U1. lia.
Qed.

(* [pre] is the encoding of the code point r >= 128, and is decoded as r whatever follows *)
Definition mb (pre : list N) (r : N) : Prop :=
  128 <= r /\ 1 < nlen pre /\ encode_rune r = pre /\ forall tail, rune_at (pre ++ tail) = Some (r, nlen pre).

Lemma rune_at_mb : forall (s : list N) r n, rune_at s = Some (r, n) -> 1 < n ->
  exists pre rst, s = pre ++ rst /\ nlen pre = n /\ mb pre r.
Proof.
  intros [|c s'] r n H Hn; [discriminate|]. unfold rune_at, rune_error in H. cbv zeta in H.
  (* a replacement character of width 1 is not a multi-byte decoding *)
  assert (Bad : Some (65533, 1) = Some (r, n) -> False) by (intro X; injection X as <- <-; discriminate Hn).
  destruct (c <? 128) eqn:E0; [injection H as <- <-; discriminate Hn|].
  destruct ((c <? 194) || (244 <? c)) eqn:E1; [destruct (Bad H)|].
  pose proof E1 as B1. apply orb_false_iff in B1. destruct B1 as [B1 B1']. apply N.ltb_ge in B1, B1'.
  destruct (c <? 224) eqn:E2; [|destruct (c <? 240) eqn:E3].
  - destruct s' as [|b1 r1]; [destruct (Bad H)|]. destruct (cont b1) eqn:C1; [|destruct (Bad H)]. injection H as <- <-.
    exists [c; b1], r1. split; [reflexivity|]. split; [reflexivity|].
    assert (T : forall tail, rune_at ([c; b1] ++ tail) = Some ((c - 192) * 64 + (b1 - 128), 2))
      by (intro tail; cbn [app]; unfold rune_at; rewrite E0, E1, E2, C1; reflexivity).
    apply N.ltb_lt in E2. destruct (encb2 c b1 B1 E2 C1) as [R1 R2].
    split; [exact R1|]. split; [reflexivity|]. split; [exact R2|exact T].
  - destruct s' as [|b1 [|b2 r2]]; try destruct (Bad H).
    match type of H with (if ?X then _ else _) = _ => destruct X eqn:C; [|destruct (Bad H)] end. injection H as <- <-.
    exists [c; b1; b2], r2. split; [reflexivity|]. split; [reflexivity|].
    assert (T : forall tail, rune_at ([c; b1; b2] ++ tail) = Some ((c - 224) * 4096 + (b1 - 128) * 64 + (b2 - 128), 3))
      by (intro tail; cbn [app]; unfold rune_at; rewrite E0, E1, E2, E3; cbv zeta; rewrite C; reflexivity).
    apply andb_true_iff in C. destruct C as [C C2]. apply andb_true_iff in C. destruct C as [L1 U1].
    apply N.leb_le in L1, U1. apply N.ltb_ge in E2. apply N.ltb_lt in E3. destruct (encb3 c b1 b2 E2 E3 L1 U1 C2) as [R1 R2].
    split; [exact R1|]. split; [reflexivity|]. split; [exact R2|exact T].
  - destruct s' as [|b1 [|b2 [|b3 r3]]]; try destruct (Bad H).
    match type of H with (if ?X then _ else _) = _ => destruct X eqn:C; [|destruct (Bad H)] end. injection H as <- <-.
    exists [c; b1; b2; b3], r3. split; [reflexivity|]. split; [reflexivity|].
    assert (T : forall tail, rune_at ([c; b1; b2; b3] ++ tail) =
                  Some ((c - 240) * 262144 + (b1 - 128) * 4096 + (b2 - 128) * 64 + (b3 - 128), 4))
      by (intro tail; cbn [app]; unfold rune_at; rewrite E0, E1, E2, E3; cbv zeta; rewrite C; reflexivity).
    apply andb_true_iff in C. destruct C as [C C3]. apply andb_true_iff in C. destruct C as [C C2].
    apply andb_true_iff in C. destruct C as [L1 U1].
    apply N.leb_le in L1, U1. apply N.ltb_ge in E3. destruct (encb4 c b1 b2 b3 E3 B1' L1 U1 C2 C3) as [R1 R2].
    split; [exact R1|]. split; [reflexivity|]. split; [exact R2|exact T].
Qed.

Lemma encode_rune_high : forall r, 128 <= r -> Forall (fun b => 128 <= b) (encode_rune r).
Proof.
  intros r H. unfold encode_rune, utf8_encode.
  repeat match goal with |- context [if ?X then _ else _] => destruct X end;
    repeat (apply Forall_cons; [cbv beta; first [lia | (etransitivity; [|apply N.le_add_r]); lia]|]); apply Forall_nil.
Qed.

Lemma mb_high : forall pre r, mb pre r -> Forall (fun b => 128 <= b) pre.
Proof. intros pre r (H & _ & <- & _). apply encode_rune_high. exact H. Qed.

Lemma mb_cons : forall pre r, mb pre r -> exists c pre', pre = c :: pre' /\ 128 <= c.
Proof.
  intros [|c pre'] r M; [destruct M as (_ & L & _); discriminate L|].
  exists c, pre'. split; [reflexivity|]. apply mb_high in M. inversion M. assumption.
Qed.

(* valid UTF-8: a sequence of single bytes below 128 and genuinely decoded multi-byte sequences *)
Inductive utf8_valid : list N -> Prop :=
| V_nil : utf8_valid []
| V_ascii : forall c s, c < 128 -> utf8_valid s -> utf8_valid (c :: s)
| V_multi : forall s r n, rune_at s = Some (r, n) -> 1 < n -> utf8_valid (dropN n s) -> utf8_valid s.

Lemma valid_mb : forall pre r rst, mb pre r -> utf8_valid rst -> utf8_valid (pre ++ rst).
Proof.
  intros pre r rst (_ & L & _ & T) V. apply (V_multi _ r (nlen pre) (T rst) L).
  rewrite (dropN_app_len pre rst _ eq_refl). exact V.
Qed.

Lemma utf8_valid_chars : forall P : list N -> Prop, P [] ->
  (forall c s, c < 128 -> utf8_valid s -> P s -> P (c :: s)) ->
  (forall pre r rst, mb pre r -> utf8_valid rst -> P rst -> P (pre ++ rst)) ->
  forall s, utf8_valid s -> P s.
Proof.
  intros P H0 H1 H2 s V. induction V as [|c s Hc V IH|s r n R Hn V IH]; [exact H0|apply H1; assumption|].
  destruct (rune_at_mb s r n R Hn) as (pre & rst & -> & L & M). rewrite (dropN_app_len _ _ _ L) in *.
  apply (H2 pre r rst); assumption.
Qed.

Lemma ascii_valid : forall s, (forall c, In c s -> c < 128) -> utf8_valid s.
Proof.
  induction s as [|c s IH]; intro H; [constructor|].
  apply V_ascii; [apply H; left; reflexivity|apply IH; intros x Hx; apply H; right; exact Hx].
Qed.

Lemma quote_rune_high : forall r, 128 <= r -> quote_rune r = encode_rune r.
Proof.
  intros r H. unfold quote_rune.
  assert (X : forall k, k < 128 -> (r =? k) = false) by (intros; apply N.eqb_neq; lia).
  rewrite !X by reflexivity.
  assert (r <? 32 = false) by (apply N.ltb_ge; lia). rewrite H0. reflexivity.
Qed.

Lemma read_multibyte : forall pre r, mb pre r ->
  forall f tail pos, read_string (S f) (pre ++ tail) pos = lift_bytes pre (read_string f tail (pos + nlen pre)).
Proof.
  intros pre r (Hr & _ & _ & Hd) f tail pos. cbn [read_string]. rewrite (Hd tail).
  assert (X : forall k, k < 128 -> (r =? k) = false) by (intros; apply N.eqb_neq; lia).
  rewrite !X by reflexivity. rewrite (proj2 (N.ltb_ge r 32)) by lia. cbn [orb andb].
  rewrite (dropN_app_len _ _ _ eq_refl), (takeN_app_len _ _ _ eq_refl). reflexivity.
Qed.

Lemma quote_rune_head : forall c, c < 128 -> exists x y, quote_rune c = x :: y /\ (c <> 34 -> x <> 34) /\ (c = 34 -> x = 92).
Proof.
  intros c Hc. unfold quote_rune.
  destruct (c =? 34) eqn:E34; [exists 92, [34]; split; [reflexivity|split; [intros _; discriminate|intros _; reflexivity]]|].
  apply N.eqb_neq in E34.
  repeat (match goal with |- context [if ?x =? ?y then _ else _] => destruct (x =? y); [eexists; eexists; split; [reflexivity|split; [intros _; discriminate|intro; contradiction]]|] end).
  destruct ((c <? 32) || (c =? 127)); [eexists; eexists; split; [reflexivity|split; [intros _; discriminate|intro; contradiction]]|].
  unfold encode_rune. assert (c <? 65536 = true) by (apply N.ltb_lt; lia). rewrite H. rewrite (utf8_encode_ascii c Hc).
  exists c, []. split; [reflexivity|]. split; [intros _; exact E34|intro; contradiction].
Qed.

(* the body written for a valid string: it is at least as long, does not start with a double quote,
   and the string reader turns it back into the string *)
Lemma quote_body_valid : forall s, utf8_valid s ->
  exists b, (forall f, (length s < f)%nat -> quote_body f s = Ok b) /\ (length s <= length b)%nat /\
    (s <> [] -> exists x y, b = x :: y /\ x <> 34) /\
    forall f rest pos, (length s < f)%nat -> read_string f (b ++ 34 :: rest) pos = Ok (s, rest, pos + nlen b + 1).
Proof.
  intros s V. induction V as [|c s Hc V IH|pre r rst M V IH] using utf8_valid_chars.
  - exists []. split; [intros f Hf; destruct f; [simpl in Hf; lia|reflexivity]|]. split; [simpl; lia|]. split; [intro X; contradiction X; reflexivity|].
    intros f rest pos Hf. destruct f; [simpl in Hf; lia|]. cbn [app read_string]. rewrite (rune_at_ascii 34 _ ltac:(lia)). cbn.
    f_equal. f_equal. unfold nlen; cbn. lia.
  - destruct IH as (b & Hb & Lb & _ & Hr). exists (quote_rune c ++ b).
    destruct (quote_rune_head c Hc) as (x & y & Eq & Hx & Hx').
    split; [|split; [|split]].
    + intros f Hf. destruct f; [simpl in Hf; lia|]. rewrite quote_body_step. rewrite (rune_at_ascii c s Hc).
      change (dropN 1 (c :: s)) with s. rewrite (Hb f ltac:(simpl in Hf; lia)), (quote_piece_ascii c s Hc). reflexivity.
    + rewrite app_length, Eq. simpl. lia.
    + intros _. rewrite Eq. exists x, (y ++ b). split; [reflexivity|].
      destruct (N.eq_dec c 34) as [E|E]; [rewrite (Hx' E); discriminate|exact (Hx E)].
    + intros f rest pos Hf. destruct f; [simpl in Hf; lia|]. rewrite <- app_assoc.
      rewrite (read_quote_rune c Hc). rewrite (Hr f rest _ ltac:(simpl in Hf; lia)). unfold lift_bytes.
      f_equal. f_equal. unfold nlen. rewrite app_length. lia.
  - destruct IH as (b & Hb & Lb & _ & Hr). destruct (mb_cons pre r M) as (c & pre' & Epre & Hc).
    pose proof M as (Hr128 & Ln & Enc & Hd).
    assert (Lpre : (1 <= length pre)%nat) by (rewrite Epre; simpl; lia).
    unfold bytes, byte in *. rewrite app_length.
    exists (pre ++ b). split; [|split; [|split]].
    + intros f Hf. destruct f; [lia|]. rewrite quote_body_step, (Hd rst), (dropN_app_len pre rst _ eq_refl).
      rewrite (Hb f ltac:(lia)). rewrite (quote_piece_multi _ r _ Ln), (quote_rune_high r Hr128), Enc. reflexivity.
    + rewrite app_length. lia.
    + intros _. exists c, (pre' ++ b). split; [rewrite Epre; reflexivity|lia].
    + intros f rest pos Hf. destruct f; [lia|]. rewrite <- app_assoc.
      rewrite (read_multibyte pre r M). rewrite (Hr f rest _ ltac:(lia)). unfold lift_bytes.
      f_equal. f_equal. rewrite nlen_app. lia.
Qed.

(* lexing the printed form of a valid UTF-8 string gives the string back: the token read from
   quote_string s ++ rest  is the STRING token with value s, spanning exactly the quoted text
   (provided the text is not mistaken for the start of a block string, i.e. s is not empty or
   rest does not start with a double quote) *)
Theorem quote_lex_roundtrip_utf8 : forall s rest, utf8_valid s ->
  (s <> [] \/ forall r, rest <> 34 :: r) ->
  exists q, quote_string s = Ok q /\
    forall pos fuel, (length (q ++ rest) < fuel)%nat ->
    read_token fuel (q ++ rest) pos = Ok (mktok STRING pos (pos + nlen q) s, rest, pos + nlen q).
Proof.
  intros s rest V Hne. destruct (quote_body_valid s V) as (b & Hb & Lb & Hh & Hr).
  exists (34 :: b ++ [34]). split.
  { unfold quote_string. unfold bytes, byte in *. rewrite (Hb (S (length s)) ltac:(lia)). reflexivity. }
  intros pos fuel Hf. cbn [app]. rewrite read_token_quote.
  assert (NB : starts_with [34; 34] ((b ++ [34]) ++ rest) = false).
  { destruct s as [|c s'].
    - assert (b = []).
      { pose proof (Hb 1%nat ltac:(simpl; lia)) as X. change (quote_body 1 []) with (@Ok bytes []) in X. inversion X. reflexivity. }
      subst b. cbn [app starts_with].
      destruct rest as [|x r]; [reflexivity|]. destruct (34 =? x) eqn:E; [|rewrite andb_false_r; reflexivity].
      apply N.eqb_eq in E. subst x. destruct Hne as [Hn|Hn]; [contradiction Hn; reflexivity|]. exfalso. apply (Hn r). reflexivity.
    - destruct (Hh ltac:(discriminate)) as (x & y & -> & Hx). cbn [app starts_with].
      apply N.eqb_neq in Hx. rewrite N.eqb_sym in Hx. rewrite Hx. reflexivity. }
  rewrite NB. rewrite <- app_assoc. cbn [app].
  unfold bytes, byte in *. rewrite (Hr fuel rest (pos + 1)).
  - f_equal. f_equal; [f_equal|].
    + f_equal. unfold nlen. cbn [length]. rewrite app_length. cbn [length]. lia.
    + unfold nlen. cbn [length]. rewrite app_length. cbn [length]. lia.
  - cbn [length app] in Hf. rewrite !app_length in Hf. cbn [length] in Hf. lia.
Qed.

Theorem quote_lex_roundtrip_ascii : forall s rest, (forall c, In c s -> c < 128) ->
  (s <> [] \/ forall r, rest <> 34 :: r) ->
  exists q, quote_string s = Ok q /\
    read_token (S (length (q ++ rest))) (q ++ rest) 0 = Ok (mktok STRING 0 (nlen q) s, rest, nlen q).
Proof.
  intros s rest H Hne. destruct (quote_lex_roundtrip_utf8 s rest (ascii_valid s H) Hne) as (q & Hq & Hr).
  exists q. split; [exact Hq|]. rewrite (Hr 0 (S (length (q ++ rest))) ltac:(lia)). reflexivity.
Qed.

(* a decidable form of validity *)
Fixpoint utf8_okb (fuel : nat) (s : list N) : bool :=
  match fuel with
  | O => false
  | S f =>
    match s with
    | [] => true
    | c :: _ =>
      match rune_at s with
      | Some (r, n) => ((1 <? n) || (c <? 128)) && utf8_okb f (dropN n s)
      | None => true
      end
    end
  end.
Definition str_okb (s : list N) : bool := utf8_okb (S (length s)) s.

Lemma rune_at_cons : forall c s, exists r n, rune_at (c :: s) = Some (r, n).
Proof.
  intros c s. unfold rune_at, rune_error. cbv zeta. destruct (c <? 128); [eauto|]. destruct ((c <? 194) || (244 <? c)); [eauto|].
  destruct (c <? 224).
  { destruct s as [|b1 s1]; [eauto|]. destruct (cont b1); eauto. }
  destruct (c <? 240).
  { destruct s as [|b1 [|b2 s2]]; eauto. match goal with |- context [if ?X then _ else _] => destruct X end; eauto. }
  destruct s as [|b1 [|b2 [|b3 s3]]]; eauto. match goal with |- context [if ?X then _ else _] => destruct X end; eauto.
Qed.

Lemma utf8_okb_valid : forall fuel s, utf8_okb fuel s = true -> utf8_valid s.
Proof.
  induction fuel as [|f IH]; intros s H; [discriminate|]. cbn [utf8_okb] in H.
  destruct s as [|c s']; [constructor|].
  destruct (rune_at_cons c s') as (r & n & R). unfold bytes, byte in *. rewrite R in H.
  apply andb_true_iff in H. destruct H as [H1 H2]. pose proof (rune_at_width _ _ _ R) as W.
  destruct (1 <? n) eqn:E.
  - apply N.ltb_lt in E. apply (V_multi _ r n R E). apply IH. exact H2.
  - apply N.ltb_ge in E. cbn [orb] in H1. apply N.ltb_lt in H1.
    assert (n = 1) by lia. subst n. change (dropN 1 (c :: s')) with s' in H2.
    apply V_ascii; [exact H1|apply IH; exact H2].
Qed.

Lemma ascii_str_okb : forall s, forallb (fun c => c <? 128) s = true -> str_okb s = true.
Proof.
  assert (G : forall s f, (length s < f)%nat -> forallb (fun c => c <? 128) s = true -> utf8_okb f s = true).
  { induction s as [|c s IH]; intros f Hf H; (destruct f; [simpl in Hf; lia|]); [reflexivity|].
    cbn [forallb] in H. apply andb_true_iff in H. destruct H as [Hc Hs]. cbn [utf8_okb].
    rewrite (rune_at_ascii c s ltac:(apply N.ltb_lt; exact Hc)). rewrite Hc. cbn [orb andb].
    change (dropN 1 (c :: s)) with s. apply IH; [simpl in Hf; lia|exact Hs]. }
  intros s H. unfold str_okb. apply G; [lia|exact H].
Qed.

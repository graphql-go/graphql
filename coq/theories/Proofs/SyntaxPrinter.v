(* The printer's string quoting, one character at a time: the lexer's string reader turns the
   quoted form of a character below 128 back into that character. *)
From Coq Require Import List NArith Bool Lia.
From GQL Require Import Base.Bytes Syntax.Lexer Syntax.Printer.
Import ListNotations.
Open Scope N_scope.

Lemma rune_at_ascii : forall c r, c < 128 -> rune_at (c :: r) = Some (c, 1).
Proof. intros c r H. unfold rune_at. apply N.ltb_lt in H. rewrite H. reflexivity. Qed.

Lemma in_below : forall c, c < 128 -> In c (map N.of_nat (seq 0 128)).
Proof.
  intros c H. apply in_map_iff. exists (N.to_nat c). split; [apply Nnat.N2Nat.id|].
  apply in_seq. lia.
Qed.

Lemma hex_ok : forall c, c < 128 -> uni_char_code 48 48 (hexdigit (c / 16)) (hexdigit (c mod 16)) = Some c.
Proof.
  intros c H.
  assert (A : forallb (fun c => match uni_char_code 48 48 (hexdigit (c / 16)) (hexdigit (c mod 16)) with
                                | Some x => x =? c | None => false end) (map N.of_nat (seq 0 128)) = true)
    by (vm_compute; reflexivity).
  rewrite forallb_forall in A. specialize (A c (in_below c H)).
  destruct (uni_char_code 48 48 (hexdigit (c / 16)) (hexdigit (c mod 16))); [|discriminate].
  apply N.eqb_eq in A. congruence.
Qed.

Lemma utf8_encode_ascii : forall c, c < 128 -> utf8_encode c = [c].
Proof. intros c H. unfold utf8_encode. apply N.ltb_lt in H. rewrite H. reflexivity. Qed.

(* what the string reader returns after copying [pre] in front of the rest of the value *)
Definition lift_bytes (pre : list N) (r : res (bytes * bytes * N)) : res (bytes * bytes * N) :=
  match r with Ok (v, rest, p) => Ok (pre ++ v, rest, p) | Err => Err | OutOfFuel => OutOfFuel end.

(* a token that starts with a double quote is a block string or a string *)
Lemma read_token_quote : forall fuel s pos, read_token fuel (34 :: s) pos =
  if starts_with [34; 34] s then
    match read_block_raw fuel (dropN 3 (34 :: s)) (pos + 3) with
    | Ok (raw, r, p) => Ok (mktok BLOCK_STRING pos p (block_string_value raw), r, p)
    | Err => Err
    | OutOfFuel => OutOfFuel
    end
  else
    match read_string fuel s (pos + 1) with
    | Ok (v, r, p) => Ok (mktok STRING pos p v, r, p)
    | Err => Err
    | OutOfFuel => OutOfFuel
    end.
Proof. reflexivity. Qed.

Lemma read_quote_rune : forall c, c < 128 -> forall f tail pos,
  read_string (S f) (quote_rune c ++ tail) pos = lift_bytes [c] (read_string f tail (pos + nlen (quote_rune c))).
Proof.
  intros c H f tail pos. unfold quote_rune.
  destruct (c =? 34) eqn:E34. { apply N.eqb_eq in E34; subst. reflexivity. }
  destruct (c =? 92) eqn:E92. { apply N.eqb_eq in E92; subst. reflexivity. }
  destruct (c =? 8) eqn:E8. { apply N.eqb_eq in E8; subst. reflexivity. }
  destruct (c =? 12) eqn:E12. { apply N.eqb_eq in E12; subst. reflexivity. }
  destruct (c =? 10) eqn:E10. { apply N.eqb_eq in E10; subst. reflexivity. }
  destruct (c =? 13) eqn:E13. { apply N.eqb_eq in E13; subst. reflexivity. }
  destruct (c =? 9) eqn:E9. { apply N.eqb_eq in E9; subst. reflexivity. }
  destruct ((c <? 32) || (c =? 127)) eqn:EC.
  - cbn [app read_string]. rewrite (rune_at_ascii 92 _ ltac:(lia)).
    change ((92 =? 10) || (92 =? 13)) with false. change (92 =? 34) with false.
    change ((92 <? 32) && negb (92 =? 9)) with false. change (92 =? 92) with true. cbv iota.
    change (dropN 1 (92 :: 117 :: 48 :: 48 :: hexdigit (c / 16) :: hexdigit (c mod 16) :: tail))
      with (117 :: 48 :: 48 :: hexdigit (c / 16) :: hexdigit (c mod 16) :: tail).
    change (simple_escape 117) with (@None N). change (117 =? 117) with true. cbv iota.
    rewrite (hex_ok c H). rewrite (utf8_encode_ascii c H).
    unfold lift_bytes, nlen. cbn [length app]. change (N.of_nat 6) with 6.
    destruct (read_string f tail (pos + 6)) as [[[v r] p]| |]; reflexivity.
  - apply orb_false_iff in EC. destruct EC as [E32 E127].
    unfold encode_rune. assert (c <? 65536 = true) by (apply N.ltb_lt; lia). rewrite H0.
    rewrite (utf8_encode_ascii c H). cbn [app read_string]. rewrite (rune_at_ascii c _ H).
    rewrite E10, E13, E34, E32, E92. cbn [orb andb]. cbv iota.
    change (dropN 1 (c :: tail)) with tail. change (takeN 1 (c :: tail)) with [c].
    unfold lift_bytes, nlen. cbn [length app]. change (N.of_nat 1) with 1.
    destruct (read_string f tail (pos + 1)) as [[[v r] p]| |]; reflexivity.
Qed.

Lemma quote_body_step : forall f s, quote_body (S f) s =
  match rune_at s with
  | None => Ok []
  | Some (r, n) => match quote_body f (dropN n s) with Ok rest => Ok (quote_piece s r n ++ rest) | Err => Err | OutOfFuel => OutOfFuel end
  end.
Proof. reflexivity. Qed.

(* the piece written for a decoded character is its quoted form; only a byte that does not decode is copied *)
Lemma quote_piece_ascii : forall c s, c < 128 -> quote_piece (c :: s) c 1 = quote_rune c.
Proof. intros c s H. unfold quote_piece. assert (c =? 65533 = false) by (apply N.eqb_neq; lia). rewrite H0. reflexivity. Qed.
Lemma quote_piece_multi : forall s r n, 1 < n -> quote_piece s r n = quote_rune r.
Proof. intros s r n H. unfold quote_piece. assert (n =? 1 = false) by (apply N.eqb_neq; lia). rewrite H0, andb_false_r. reflexivity. Qed.

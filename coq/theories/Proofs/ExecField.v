(* ExecuteField (exec_field of Exec/Exec.v) split into its stages -- the resolver's outcome is
   completed or fails (on_outcome), a thunk at a nullable position stays deferred and a failure
   behind a thunk is marked (field_defer), the nearest nullable position catches (catch_at), a
   top-level field of a mutation is forced at once (field_finish) -- so that a property of
   ExecuteField is proved stage by stage.  exec_field_unfold holds by computation. *)
From Coq Require Import List NArith String Bool.
From GQL Require Import Exec.Syntax Exec.Coerce Exec.Exec.
Import ListNotations.
Open Scope string_scope.
Open Scope list_scope.

Definition on_outcome (f : rv -> st -> xres presp) (e : gerr) (o : outcome) (s : st) : xres presp :=
  match o with OVal v => f v s | _ => XRaise e s end.

Definition note_missing (o : option outcome) (fp : path) (s : st) : st :=
  match o with Some _ => s | None => add_missing fp s end.

Definition field_defer (th : bool) (t : tyref) (tv : presp) (s2 : st) (c0 : xres presp) : xres presp :=
  if th && negb (is_nonnull t) then XOk tv s2
  else match c0 with
       | XRaise e s' => if th then XRaise e (set_escape s') else c0
       | _ => c0
       end.

Definition field_finish (ser : bool) (dth : presp -> st -> xres presp) (r : xres presp) : xres (option presp) :=
  match r with
  | XOk y s' =>
    if ser
    then match dth y s' with
         | XOk y' s'' => XOk (Some y') s''
         | XRaise e s'' => XRaise e s''
         | XFuel => XFuel
         end
    else XOk (Some y) s'
  | XRaise e s' => XRaise e s'
  | XFuel => XFuel
  end.

Definition field_caught (cmp : tyref -> list N -> list occ -> path -> path -> rv -> st -> xres presp)
           (t : tyref) (nodes : list N) (occs : list occ) (fp : path) (o : outcome) (th : bool) (s2 : st)
  : xres presp :=
  catch_at t (field_defer th t (QThunk t nodes occs fp o) s2
                (on_outcome (cmp t nodes occs fp fp) {| e_path := fp; e_nodes := nodes |} o s2)).

Definition field_rest (cmp : tyref -> list N -> list occ -> path -> path -> rv -> st -> xres presp)
           (dth : presp -> st -> xres presp) (ser : bool)
           (t : tyref) (nodes : list N) (occs : list occ) (fp : path) (ot : outcome * bool) (s2 : st)
  : xres (option presp) :=
  let '(o, th) := ot in
  field_finish ser dth
    (catch_at t (field_defer th t (QThunk t nodes occs fp o) s2
                   (on_outcome (cmp t nodes occs fp fp) {| e_path := fp; e_nodes := nodes |} o s2))).

Lemma field_rest_eq : forall cmp dth ser t nodes occs fp o th s2,
  field_rest cmp dth ser t nodes occs fp (o, th) s2 = field_finish ser dth (field_caught cmp t nodes occs fp o th s2).
Proof. reflexivity. Qed.

Lemma exec_field_unfold : forall fuel' cmp dth E obj src k occs p s,
  exec_field fuel' cmp dth E obj src k occs p s =
  let fname := match occs with o :: _ => oc_name o | [] => "" end in
  let fargs := match occs with o :: _ => oc_args o | [] => [] end in
  let fp := p ++ [PKey k] in
  if String.eqb fname "__typename" then XOk (Some (QLeaf (JStr obj))) s
  else match find_field fname (object_fields (en_S E) obj) with
       | None => XOk None s
       | Some fd =>
         match get_argument_values fuel' (en_S E) (f_args fd) fargs (Some (en_vars E)) with
         | None => XFuel
         | Some args =>
           field_rest cmp dth (en_serial E && match p with [] => true | _ => false end)
             (f_type fd) (map oc_id occs) occs fp
             match en_or E fp with
             | Some o => force o
             | None => (OVal RNull, false)
             end
             (note_missing (en_or E fp) fp
                (add_call {| c_path := fp; c_parent := obj; c_field := fname; c_source := src;
                             c_args := args; c_nodes := map oc_id occs |} s))
         end
       end.
Proof. reflexivity. Qed.

Lemma dethunk_thunk : forall fuel E t nodes occs p o s,
  dethunk (S fuel) E (QThunk t nodes occs p o) s =
  match catch_at t (on_outcome (complete fuel E t nodes occs p p) {| e_path := p; e_nodes := nodes |} o s) with
  | XOk y s' => dethunk fuel E y s'
  | r' => r'
  end.
Proof. reflexivity. Qed.

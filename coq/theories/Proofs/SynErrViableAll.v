(* The viable-prefix half of C18's syntax-error clause for the whole grammar: whatever the
   recogniser of a production had consumed when it failed can be continued to something the
   production derives; for documents: to a derivable, hence parsed, document. *)
From Coq Require Import String List Bool.
From GQL Require Import Base.Bytes Syntax.Lexer Syntax.Ast Syntax.Parser Syntax.Grammar SynErr.LexErr SynErr.ParseErr.
From GQL Require Import Proofs.SyntaxSound Proofs.SynErrWB Proofs.SynErrErase Proofs.SynErrLang.
Import ListNotations.
Open Scope N_scope.

Lemma is_optype_of : forall t, is_optype t = true -> tk t = NAME /\ exists op, optype_of (tval t) = Some op.
Proof.
  intros t H. unfold is_optype in H. apply andb_true_iff in H. destruct H as [K V]. unfold is_k in K. apply tkind_beq_eq in K.
  split; [exact K|]. unfold optype_of.
  destruct (bytes_eqb (tval t) (kw "query")); [eauto|].
  destruct (bytes_eqb (tval t) (kw "mutation")); [eauto|].
  destruct (bytes_eqb (tval t) (kw "subscription")); [eauto|discriminate V].
Qed.

Lemma NameL : forall p, TokL (is_k NAME) p -> LangOf DName p.
Proof. intros p (t & -> & K). eexists. constructor. apply tkind_beq_eq, K. Qed.
Lemma DefaultL : forall p, CatL (TokL (is_k EQUALS)) (LangOf (DValue true)) p -> LangOf DDefault p.
Proof. intros p (a & b & -> & (e & -> & K) & [v D]). eexists. constructor; [apply tkind_beq_eq, K|exact D]. Qed.
Lemma TypeCondL : forall p, CatL (TokL (is_kwd (kw "on"))) (TokL (is_k NAME)) p -> LangOf DTypeCond p.
Proof.
  intros p (a & b & -> & (o & -> & Ho) & (t & -> & Kt)). apply andb_true_iff in Ho. destruct Ho as [Ko Vo].
  eexists. constructor; [apply tkind_beq_eq, Ko|apply bytes_eqb_eq, Vo|apply tkind_beq_eq, Kt].
Qed.

Lemma is_desc_tk : forall t, is_desc t = true -> tk t = STRING \/ tk t = BLOCK_STRING.
Proof. intros t H. apply orb_true_iff in H. destruct H as [H|H]; apply tkind_beq_eq in H; auto. Qed.

(* take a structural language apart *)
Ltac tkfact :=
  repeat match goal with
         | H : is_k _ _ = true |- _ => unfold is_k in H; apply tkind_beq_eq in H
         | H : is_kwd _ _ = true |- _ =>
           unfold is_kwd in H; apply andb_true_iff in H;
           let H1 := fresh H in destruct H as [H1 H]; apply tkind_beq_eq in H1; apply bytes_eqb_eq in H
         | H : is_optype _ = true |- _ => apply is_optype_of in H; destruct H as [? [? H]]
         | H : is_desc _ = true |- _ => apply is_desc_tk in H
         end.
Ltac apart :=
  repeat match goal with
         | H : AltL _ EpsL _ |- _ =>
           eapply OptL_DOpt in H; [destruct H as [? H] | solve [eauto using NameL, DefaultL, TypeCondL]]
         | H : DelimL (LangOf _) _ _ _ _ |- _ => apply DelimL_DDelim in H; let l := fresh "l" in destruct H as [l H]
         | H : StarL (LangOf _) _ |- _ => apply StarL_DStar in H; let l := fresh "l" in destruct H as [l H]
         | H : SepL (LangOf _) _ _ |- _ => apply SepL_DSep in H; let l := fresh "l" in destruct H as [l H]
         | H : CatL _ _ _ |- _ => let a := fresh "p" in let b := fresh "p" in destruct H as (a & b & -> & ? & ?)
         | H : TokL _ _ |- _ => let t := fresh "t" in destruct H as (t & -> & ?)
         | H : LangOf _ _ |- _ => let a := fresh "x" in destruct H as [a ?]
         | H : AltL _ _ _ |- _ => destruct H as [H|H]
         | H : EpsL _ |- _ => red in H; subst
         end.

(* ... and put it together again with the constructor of the grammar that fits *)
Ltac into := intros p H; apart; tkfact; cbn [app]; eexists; first [eassumption | econstructor; solve [eauto]].

Lemma Inh_any : Inh (TokL (fun _ => true)).
Proof. exists [ctok NAME], (ctok NAME). split; reflexivity. Qed.

Definition xNAME : token := kwtok (kw "x").
Lemma SoundL_value : forall f c, SoundL (parse_valueE f c) (LangOf (DValue c)).
Proof. intros f c. exact (SoundL_of _ _ _ _ (Er_parse_value f c) (Spec_sound (parse_value_spec f c))). Qed.
Lemma Inh_value : forall c, Inh (LangOf (DValue c)).
Proof. intro c. exists [ctok INT]. eexists. apply DV_int. reflexivity. Qed.
Lemma CompL_value : forall f c, CompL (parse_valueE f c) (LangOf (DValue c)).
Proof.
  induction f as [|f IH]; intro c; cbn [parse_valueE]; [intros ts r [=]|].
  assert (Rv := Rec_intro _ _ (SoundL_value f c) (IH c) (Inh_value c)).
  apply CompL_caseE. intros [t|]; [|apply CompL_failE, Inh_value].
  destruct (tk t) eqn:K; try (apply CompL_failE, Inh_value); try (apply CompL_start, Inh_value).
  - destruct c; [apply CompL_failE, Inh_value|]. unfold parse_variableE.
    eapply CompL_within; [eauto with lang|]. into.
  - eapply CompL_within; [eauto with lang|]. into.
  - assert (Ro : Rec (parse_objfieldE (parse_valueE f c)) (LangOf (DObjFieldOf (DValue c)))).
    { eapply Rec_mono; [|unfold parse_objfieldE; eauto with lang].
      into. }
    eapply CompL_within; [apply Rec_reverseE, Ro|]. into.
  - repeat apply CompL_if; try (apply CompL_failE, Inh_value); apply CompL_start, Inh_value.
Qed.

Lemma SoundL_type : forall f, SoundL (parse_typeE f) (LangOf DType).
Proof. intro f. exact (SoundL_of _ _ _ _ (Er_parse_type f) (Spec_sound (parse_type_spec f))). Qed.
Lemma Inh_type_w : LangOf DType [xNAME].
Proof. eexists. apply DT_named. reflexivity. Qed.
Lemma Inh_type : Inh (LangOf DType).
Proof. exists [xNAME]. exact Inh_type_w. Qed.
Lemma CompL_type : forall f, CompL (parse_typeE f) (LangOf DType).
Proof.
  induction f as [|f IH]; cbn [parse_typeE]; [intros ts r [=]|].
  assert (Rt := Rec_intro _ _ (SoundL_type f) IH Inh_type).
  intros [|t ts] r H; unfold caseE in H; cbn [hd_error] in H; [exact (CompL_failE _ Inh_type _ _ H)|].
  apply seqE_err_l in H; [|apply optE_no_fail]. revert H.
  destruct (tk t) eqn:K; try exact (CompL_failE _ Inh_type _ _).
  - (* the bracket is consumed; what follows is a type and the closing bracket *)
    change ((parse_typeE f ;;; expectE BRACKET_R) ts = ErrE r -> exists u, t :: ts = u ++ r /\ exists cont, LangOf DType (u ++ cont)).
    intro H. destruct (Rec_comp _ _ (Rec_seqE _ _ _ _ Rt (Rec_expectE _)) ts r H)
      as (u & -> & cont & a & b & E & [ty D] & c & -> & Kc).
    exists (t :: u). split; [reflexivity|]. exists cont. eexists. cbn [app]. rewrite E.
    apply DT_list; [exact K|exact D|apply tkind_beq_eq, Kc].
  - unfold parse_nameE, expectE, tokE, is_k. rewrite K. discriminate.
Qed.
Lemma Rec_value : forall f c, Rec (parse_valueE f c) (LangOf (DValue c)).
Proof. intros f c. exact (Rec_intro _ _ (SoundL_value f c) (CompL_value f c) (Inh_value c)). Qed.
Lemma Rec_type : forall f, Rec (parse_typeE f) (LangOf DType).
Proof. intro f. exact (Rec_intro _ _ (SoundL_type f) (CompL_type f) Inh_type). Qed.
#[export] Hint Resolve Rec_value Rec_type : lang.

Lemma Rec_argument : forall f, Rec (parse_argumentE f) (LangOf DArgument).
Proof. intro f. unfold parse_argumentE. eapply Rec_mono; [|eauto with lang]. into. Qed.
#[export] Hint Resolve Rec_argument : lang.
Lemma CompL_argument : forall f, CompL (parse_argumentE f) (LangOf DArgument).
Proof. intro f. apply Rec_comp, Rec_argument. Qed.
Lemma SoundL_argument : forall f, SoundL (parse_argumentE f) (LangOf DArgument).
Proof. intro f. apply Rec_sound, Rec_argument. Qed.
Lemma Inh_argument : Inh (LangOf DArgument).
Proof. exact (proj1 (Rec_argument 0)). Qed.

Lemma Rec_arguments : forall f, Rec (parse_argumentsE f) (LangOf DArguments).
Proof. intro f. unfold parse_argumentsE. eapply Rec_mono; [|eauto with lang]. into. Qed.
#[export] Hint Resolve Rec_arguments : lang.
Lemma SoundL_arguments : forall f, SoundL (parse_argumentsE f) (LangOf DArguments).
Proof. intro f. apply Rec_sound, Rec_arguments. Qed.
Lemma CompL_arguments : forall f, CompL (parse_argumentsE f) (LangOf DArguments).
Proof. intro f. apply Rec_comp, Rec_arguments. Qed.
Lemma Inh_arguments : Inh (LangOf DArguments).
Proof. exact (proj1 (Rec_arguments 0)). Qed.

Lemma Rec_directive : forall f, Rec (parse_directiveE f) (LangOf DDirec).
Proof. intro f. unfold parse_directiveE. eapply Rec_mono; [|eauto with lang]. into. Qed.
#[export] Hint Resolve Rec_directive : lang.
Lemma SoundL_directive : forall f, SoundL (parse_directiveE f) (LangOf DDirec).
Proof. intro f. apply Rec_sound, Rec_directive. Qed.
Lemma CompL_directive : forall f, CompL (parse_directiveE f) (LangOf DDirec).
Proof. intro f. apply Rec_comp, Rec_directive. Qed.

Lemma Rec_directives : forall f, Rec (parse_directivesE f) (LangOf DDirecs).
Proof. intro f. unfold parse_directivesE. eapply Rec_mono; [|eauto with lang]. into. Qed.
#[export] Hint Resolve Rec_directives : lang.
Lemma SoundL_directives : forall f, SoundL (parse_directivesE f) (LangOf DDirecs).
Proof. intro f. apply Rec_sound, Rec_directives. Qed.
Lemma CompL_directives : forall f, CompL (parse_directivesE f) (LangOf DDirecs).
Proof. intro f. apply Rec_comp, Rec_directives. Qed.
Lemma Inh_directives : Inh (LangOf DDirecs).
Proof. exact (proj1 (Rec_directives 0)). Qed.

Lemma SoundL_fragment_name : SoundL parse_fragment_nameE (LangOf DFragName).
Proof. exact (SoundL_of _ _ _ _ Er_parse_fragment_name (Spec_sound (parse_fragment_name_spec 0))). Qed.
Lemma Inh_fragment_name : Inh (LangOf DFragName).
Proof. exists [xNAME]. eexists. apply DFragName_intro; [reflexivity|]. intro E. discriminate E. Qed.
Lemma CompL_fragment_name : CompL parse_fragment_nameE (LangOf DFragName).
Proof.
  intros ts r H. exists []. split.
  - unfold parse_fragment_nameE, ifE, caseE, parse_nameE, expectE, tokE, failE in H.
    destruct ts as [|t ts]; cbn [hd_error] in H; [inversion H; reflexivity|].
    destruct (is_kwd (kw "on") t); [inversion H; reflexivity|].
    destruct (is_k NAME t); [discriminate H|inversion H; reflexivity].
  - destruct Inh_fragment_name as [w Hw]. exists w. exact Hw.
Qed.
Lemma Rec_fragment_name : Rec parse_fragment_nameE (LangOf DFragName).
Proof. exact (Rec_intro _ _ SoundL_fragment_name CompL_fragment_name Inh_fragment_name). Qed.
#[export] Hint Resolve Rec_fragment_name : lang.

Section Sel.
  Variable psel : R.
  Hypothesis Rp : Rec psel (LangOf DSelSet).

  Lemma Rec_field : forall f, Rec (parse_fieldE psel f) (LangOf (DSelectionOf DSelSet)).
  Proof.
    intro f. unfold parse_fieldE. eapply Rec_mono; [|eauto 20 with lang].
    intros p H. apart; tkfact; cbn [app]; eexists.
    - eapply (DS_field DSelSet [_; _; _]); try eassumption. constructor; assumption.
    - eapply (DS_field DSelSet [_]); try eassumption. constructor; assumption.
  Qed.
  Lemma Rec_fragment : forall f, Rec (parse_fragmentE psel f) (LangOf (DSelectionOf DSelSet)).
  Proof.
    intro f. unfold parse_fragmentE. eapply Rec_mono; [|eauto 20 with lang].
    into.
  Qed.
  Lemma Rec_selection : forall f, Rec (parse_selectionE psel f) (LangOf (DSelectionOf DSelSet)).
  Proof. intro f. apply Rec_ifE; [apply Rec_fragment|apply Rec_field]. Qed.
End Sel.

Lemma Inh_selection : Inh (LangOf (DSelectionOf DSelSet)).
Proof.
  exists ([xNAME] ++ [] ++ [] ++ []). eexists.
  apply (DS_field DSelSet [xNAME]); constructor. reflexivity.
Qed.
Lemma Inh_selset : Inh (LangOf DSelSet).
Proof.
  destruct Inh_selection as [w [s Hs]]. exists (ctok BRACE_L :: (w ++ []) ++ [ctok BRACE_R]). eexists.
  apply DSS_intro. constructor; [reflexivity|reflexivity|constructor; [exact Hs|constructor]|discriminate].
Qed.

Lemma Rec_selset : forall f, Rec (parse_selsetE f) (LangOf DSelSet).
Proof.
  induction f as [|f IH]; cbn [parse_selsetE]; [apply Rec_fuelE, Inh_selset|].
  eapply Rec_mono; [|apply Rec_reverseE, Rec_selection, IH].
  into.
Qed.
#[export] Hint Resolve Rec_selset : lang.

Lemma Rec_vardef : forall f, Rec (parse_vardefE f) (LangOf DVarDef).
Proof. intro f. unfold parse_vardefE, parse_defaultE. eapply Rec_mono; [|eauto 20 with lang]. into. Qed.
#[export] Hint Resolve Rec_vardef : lang.
Lemma SoundL_vardef : forall f, SoundL (parse_vardefE f) (LangOf DVarDef).
Proof. intro f. apply Rec_sound, Rec_vardef. Qed.
Lemma CompL_vardef : forall f, CompL (parse_vardefE f) (LangOf DVarDef).
Proof. intro f. apply Rec_comp, Rec_vardef. Qed.
Lemma Inh_vardef : Inh (LangOf DVarDef).
Proof. exact (proj1 (Rec_vardef 0)). Qed.

Lemma Rec_vardefs : forall f, Rec (parse_vardefsE f) (LangOf DVarDefs).
Proof. intro f. unfold parse_vardefsE. eapply Rec_mono; [|eauto with lang]. into. Qed.
#[export] Hint Resolve Rec_vardefs : lang.
Lemma SoundL_vardefs : forall f, SoundL (parse_vardefsE f) (LangOf DVarDefs).
Proof. intro f. apply Rec_sound, Rec_vardefs. Qed.
Lemma CompL_vardefs : forall f, CompL (parse_vardefsE f) (LangOf DVarDefs).
Proof. intro f. apply Rec_comp, Rec_vardefs. Qed.
Lemma Inh_vardefs : Inh (LangOf DVarDefs).
Proof. exact (proj1 (Rec_vardefs 0)). Qed.

Lemma Rec_operation : forall f, Rec (parse_operationE f) (LangOf DOperation).
Proof.
  intro f. unfold parse_operationE. eapply Rec_mono; [|eauto 20 with lang].
  into.
Qed.

Lemma Rec_fragment_definition : forall f, Rec (parse_fragment_definitionE f) (LangOf DFragment).
Proof.
  intro f. unfold parse_fragment_definitionE. eapply Rec_mono; [|eauto 20 with lang].
  intros p H. apart. tkfact. cbn [app].
  match goal with H : DFragName ?pn _ |- _ => inversion H; subst end. cbn [app].
  match goal with Hd : DDirecs ?pd ?dirs, Hs : DSelSet ?ps ?ss |- LangOf DFragment (?f :: ?n :: ?o :: ?t :: ?pd ++ ?ps) =>
    exists (mkfragdef (tok_name n) (tok_named t) dirs ss (span (f :: [n] ++ o :: t :: pd ++ ps)));
    apply (DF_intro f [n] (tok_name n) o t pd dirs ps ss) end; try assumption.
Qed.

Theorem executable_viable_prefix : forall f,
  (forall u t rest, parse_operationE f (u ++ t :: rest) = ErrE (t :: rest) -> exists cont o, DOperation (u ++ cont) o) /\
  (forall u t rest, parse_fragment_definitionE f (u ++ t :: rest) = ErrE (t :: rest) -> exists cont d, DFragment (u ++ cont) d) /\
  (forall u t rest, parse_selsetE f (u ++ t :: rest) = ErrE (t :: rest) -> exists cont ss, DSelSet (u ++ cont) ss).
Proof.
  intro f. repeat split; intros u t rest H.
  - destruct (Rec_comp _ _ (Rec_operation f) _ _ H) as (u' & E & cont & [o D]). apply app_inv_tail in E. subst u'. eauto.
  - destruct (Rec_comp _ _ (Rec_fragment_definition f) _ _ H) as (u' & E & cont & [o D]). apply app_inv_tail in E. subst u'. eauto.
  - destruct (Rec_comp _ _ (Rec_selset f) _ _ H) as (u' & E & cont & [o D]). apply app_inv_tail in E. subst u'. eauto.
Qed.

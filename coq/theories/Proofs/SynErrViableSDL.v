(* The viable-prefix half for the type-system definitions and for whole documents: whatever the
   recogniser of documents had consumed when it failed begins a derivable document. *)
From Coq Require Import List Bool.
From GQL Require Import Base.Bytes Syntax.Lexer Syntax.Ast Syntax.Parser Syntax.Grammar SynErr.LexErr SynErr.ParseErr.
From GQL Require Import Proofs.SyntaxSound Proofs.SynErrWB Proofs.SynErrErase Proofs.SynErrLang Proofs.SynErrViableAll.
Import ListNotations.
Open Scope N_scope.

Lemma Rec_desc : Rec descE (LangOf DDescr).
Proof. unfold descE. eapply Rec_mono; [|eauto with lang]. into. Qed.
#[export] Hint Resolve Rec_desc : lang.

Lemma SepL_mono : forall (A B : lang) sep p, (forall q, A q -> B q) -> SepL A sep p -> SepL B sep p.
Proof. intros A B sep p H S. induction S; [apply SepL_one|apply SepL_cons]; auto. Qed.
Lemma SepL_names : forall sep p, SepL (TokL (is_k NAME)) sep p ->
  (exists l, DSep DNamed sep p l) /\ (exists l, DSep DName sep p l).
Proof.
  intros sep p S. split; apply SepL_DSep; (eapply SepL_mono; [|exact S]);
    intros q (t & -> & K); apply tkind_beq_eq in K; eexists; constructor; exact K.
Qed.

Lemma Rec_ivdef : forall f, Rec (parse_ivdefE f) (LangOf DIVDef).
Proof. intro f. unfold parse_ivdefE, parse_defaultE. eapply Rec_mono; [|eauto 20 with lang]. into. Qed.
#[export] Hint Resolve Rec_ivdef : lang.
Lemma SoundL_ivdef : forall f, SoundL (parse_ivdefE f) (LangOf DIVDef).
Proof. intro f. apply Rec_sound, Rec_ivdef. Qed.
Lemma CompL_ivdef : forall f, CompL (parse_ivdefE f) (LangOf DIVDef).
Proof. intro f. apply Rec_comp, Rec_ivdef. Qed.
Lemma Inh_ivdef : Inh (LangOf DIVDef).
Proof. exact (proj1 (Rec_ivdef 0)). Qed.

Lemma Rec_argdefs : forall f, Rec (parse_argdefsE f) (LangOf DArgDefs).
Proof. intro f. unfold parse_argdefsE. eapply Rec_mono; [|eauto with lang]. into. Qed.
#[export] Hint Resolve Rec_argdefs : lang.
Lemma SoundL_argdefs : forall f, SoundL (parse_argdefsE f) (LangOf DArgDefs).
Proof. intro f. apply Rec_sound, Rec_argdefs. Qed.
Lemma CompL_argdefs : forall f, CompL (parse_argdefsE f) (LangOf DArgDefs).
Proof. intro f. apply Rec_comp, Rec_argdefs. Qed.
Lemma Inh_argdefs : Inh (LangOf DArgDefs).
Proof. exact (proj1 (Rec_argdefs 0)). Qed.

Lemma Rec_fielddef : forall f, Rec (parse_fielddefE f) (LangOf DFieldDef).
Proof. intro f. unfold parse_fielddefE. eapply Rec_mono; [|eauto 20 with lang]. into. Qed.
#[export] Hint Resolve Rec_fielddef : lang.
Lemma SoundL_fielddef : forall f, SoundL (parse_fielddefE f) (LangOf DFieldDef).
Proof. intro f. apply Rec_sound, Rec_fielddef. Qed.
Lemma CompL_fielddef : forall f, CompL (parse_fielddefE f) (LangOf DFieldDef).
Proof. intro f. apply Rec_comp, Rec_fielddef. Qed.
Lemma Inh_fielddef : Inh (LangOf DFieldDef).
Proof. exact (proj1 (Rec_fielddef 0)). Qed.

Lemma Rec_enumvaldef : forall f, Rec (parse_enumvaldefE f) (LangOf DEnumValDef).
Proof. intro f. unfold parse_enumvaldefE. eapply Rec_mono; [|eauto with lang]. into. Qed.
#[export] Hint Resolve Rec_enumvaldef : lang.
Lemma SoundL_enumvaldef : forall f, SoundL (parse_enumvaldefE f) (LangOf DEnumValDef).
Proof. intro f. apply Rec_sound, Rec_enumvaldef. Qed.
Lemma CompL_enumvaldef : forall f, CompL (parse_enumvaldefE f) (LangOf DEnumValDef).
Proof. intro f. apply Rec_comp, Rec_enumvaldef. Qed.
Lemma Inh_enumvaldef : Inh (LangOf DEnumValDef).
Proof. exact (proj1 (Rec_enumvaldef 0)). Qed.

Lemma Rec_optypedef : Rec parse_optypedefE (LangOf DOpTypeDef).
Proof. unfold parse_optypedefE. eapply Rec_mono; [|eauto with lang]. into. Qed.
#[export] Hint Resolve Rec_optypedef : lang.
Lemma SoundL_optypedef : SoundL parse_optypedefE (LangOf DOpTypeDef).
Proof. apply Rec_sound, Rec_optypedef. Qed.
Lemma CompL_optypedef : CompL parse_optypedefE (LangOf DOpTypeDef).
Proof. apply Rec_comp, Rec_optypedef. Qed.
Lemma Inh_optypedef : Inh (LangOf DOpTypeDef).
Proof. exact (proj1 Rec_optypedef). Qed.

Lemma Rec_implements : forall f, Rec (parse_implementsE f) (LangOf DImplements).
Proof.
  intro f. unfold parse_implementsE. eapply Rec_mono; [|eauto with lang].
  intros p [H|H].
  - destruct H as (a & b & -> & (i & -> & Hi) & (c & d & -> & Hc & Hs)). tkfact.
    destruct (SepL_names _ _ Hs) as [[l Dl] _]. eexists. cbn [app].
    apply (DImpl_some i c d l); try assumption.
    destruct Hc as [(am & e & -> & (x & -> & Ka) & ->)|Hc]; [right; tkfact; exists x; auto|left; exact Hc].
  - red in H. subst. eexists. apply DImpl_none.
Qed.
#[export] Hint Resolve Rec_implements : lang.
Lemma SoundL_implements : forall f, SoundL (parse_implementsE f) (LangOf DImplements).
Proof. intro f. apply Rec_sound, Rec_implements. Qed.
Lemma CompL_implements : forall f, CompL (parse_implementsE f) (LangOf DImplements).
Proof. intro f. apply Rec_comp, Rec_implements. Qed.
Lemma Inh_implements : Inh (LangOf DImplements).
Proof. exact (proj1 (Rec_implements 0)). Qed.

Definition ObjBodyL : lang := fun p => forall pdsc, LangOf DDescr pdsc -> LangOf DObjDef (pdsc ++ p).
Definition BodyL : lang := fun p => forall pdsc, LangOf DDescr pdsc -> LangOf DDefinition (pdsc ++ p).

Lemma ts_def : forall p, LangOf DTypeSystem p -> LangOf DDefinition p.
Proof. intros p [d D]. exists d. apply DD_ts. exact D. Qed.

Lemma Rec_objdef_body : forall f, Rec (objdef_bodyE f) ObjBodyL.
Proof.
  intro f. unfold objdef_bodyE. eapply Rec_mono; [|eauto 30 with lang].
  intros p H pdsc [dsc Dd]. apart; tkfact; cbn [app]. eexists. apply DOD_intro; eassumption.
Qed.
Lemma ObjBodyL_BodyL : forall p, ObjBodyL p -> BodyL p.
Proof. intros p H pdsc Hd. destruct (H pdsc Hd) as [o Do]. apply ts_def. eexists. apply DTS_object. exact Do. Qed.
Lemma BodyL_def : forall p, BodyL p -> LangOf DDefinition p.
Proof. intros p H. apply (H []). eexists. constructor. Qed.

(* the other bodies: the constructor of DTypeSystem is the one that fits *)
Ltac body := eapply Rec_mono; [|eauto 30 with lang];
  intros p H pdsc [dsc Dd]; apart;
  try match goal with S : SepL (TokL _) _ _ |- _ => destruct (SepL_names _ _ S) as [[? ?] [? ?]] end;
  tkfact; cbn [app]; apply ts_def; eexists; constructor; eassumption.
Lemma Rec_scalar_body : forall f, Rec (scalar_bodyE f) BodyL.
Proof. intro f. unfold scalar_bodyE. body. Qed.
Lemma Rec_interface_body : forall f, Rec (interface_bodyE f) BodyL.
Proof. intro f. unfold interface_bodyE. body. Qed.
Lemma Rec_union_body : forall f, Rec (union_bodyE f) BodyL.
Proof. intro f. unfold union_bodyE. body. Qed.
Lemma Rec_enum_body : forall f, Rec (enum_bodyE f) BodyL.
Proof. intro f. unfold enum_bodyE. body. Qed.
Lemma Rec_input_body : forall f, Rec (input_bodyE f) BodyL.
Proof. intro f. unfold input_bodyE. body. Qed.
Lemma Rec_directive_body : forall f, Rec (directive_bodyE f) BodyL.
Proof. intro f. unfold directive_bodyE. body. Qed.
Lemma Rec_object_body : forall f, Rec (objdef_bodyE f) BodyL.
Proof. intro f. exact (Rec_mono _ _ _ ObjBodyL_BodyL (Rec_objdef_body f)). Qed.
#[export] Hint Resolve Rec_scalar_body Rec_object_body Rec_interface_body Rec_union_body Rec_enum_body Rec_input_body
  Rec_directive_body : lang.

Lemma Rec_schema : forall f, Rec (parse_schemaE f) (LangOf DDefinition).
Proof.
  intro f. unfold parse_schemaE. eapply Rec_mono; [|eauto 30 with lang].
  intros p H. apart; tkfact; cbn [app]. apply ts_def. eexists. apply DTS_schema; eassumption.
Qed.
Lemma Rec_extend : forall f, Rec (parse_extendE f) (LangOf DDefinition).
Proof.
  intro f. unfold parse_extendE. eapply Rec_mono; [|eauto using Rec_objdef_body with lang].
  intros p (a & b & -> & (k & -> & Hk) & (pd & pb & -> & Hd & Hb)). tkfact. cbn [app].
  destruct (Hb pd Hd) as [o Do]. apply ts_def. eexists. apply DTS_extend; eassumption.
Qed.
Lemma Rec_operation_def : forall f, Rec (parse_operationE f) (LangOf DDefinition).
Proof. intro f. eapply Rec_mono; [|apply Rec_operation]. intros p [o D]. eexists. apply DD_op. exact D. Qed.
Lemma Rec_fragment_def : forall f, Rec (parse_fragment_definitionE f) (LangOf DDefinition).
Proof. intro f. eapply Rec_mono; [|apply Rec_fragment_definition]. intros p [o D]. eexists. apply DD_frag. exact D. Qed.

Lemma Rec_tsd_kw_desc : forall f, Rec (tsd_kwE f true) BodyL.
Proof.
  intro f. assert (I := proj1 (Rec_object_body f)).
  apply Rec_caseE. intros [k|]; cbv zeta; repeat apply Rec_if; auto using Rec_failE with lang.
Qed.
Lemma Rec_tsd_kw_plain : forall f, Rec (tsd_kwE f false) (LangOf DDefinition).
Proof.
  intro f. assert (I := proj1 (Rec_operation_def f)).
  assert (B : forall g, Rec g BodyL -> Rec g (LangOf DDefinition)) by (intro g; apply Rec_mono, BodyL_def).
  apply Rec_caseE. intros [k|]; cbv zeta; repeat apply Rec_if;
    auto using Rec_failE, Rec_fragment_def, Rec_operation_def, Rec_schema, Rec_extend with lang.
Qed.

Lemma Rec_definition : forall f, Rec (parse_definitionE f) (LangOf DDefinition).
Proof.
  intro f. unfold parse_definitionE, parse_tsdE.
  apply Rec_ifE; [apply Rec_operation_def|]. apply Rec_if_fail.
  eapply Rec_mono; [|apply Rec_if_any; [apply Rec_tsd_kw_desc|apply Rec_tsd_kw_plain]].
  intros p [(a & b & -> & (t & -> & Ht) & Hb)|H]; [|exact H].
  apply (Hb [t]). eexists. apply DDescr_some, is_desc_tk, Ht.
Qed.

Theorem CompL_document : forall f, CompL (parse_documentE f) (fun p => exists d, Derives p d).
Proof.
  intro f. unfold parse_documentE.
  eapply CompL_within; [apply Rec_seqE; [apply Rec_many1E, Rec_definition|apply Rec_endE]|].
  intros p (a & b & -> & (m & e & -> & Hm & (te & -> & Ke)) & ->). rewrite app_nil_r.
  destruct (Plus_DStar _ _ _ Hm) as (l & Dl & Ne). unfold is_k in Ke. apply tkind_beq_eq in Ke.
  eexists. apply Derives_intro; eassumption.
Qed.

(* Locations: the node ids a rule's model reports are ids of nodes of the document of the kind
   the rule names (the offending node). *)
From Coq Require Import List Arith Bool String NArith.
From GQL Require Import Exec.Syntax Validate.VSyntax Validate.Overlap Validate.Rules Proofs.ValidateRules.
Import ListNotations.
Open Scope string_scope.
Open Scope list_scope.

Lemma find_vardef_in : forall n vs vd, find_vardef n vs = Some vd -> In vd vs.
Proof.
  intros n vs vd H. apply (fold_last_some (fun v => String.eqb n (wv_name v)) (fun v => v)) in H.
  destruct H as [H|(v & Hv & _ & <-)]; [discriminate | exact Hv].
Qed.

Section Located.
Variable S : schema.
Variable W : wdoc.

(* 8 LoneAnonymousOperation: an anonymous operation *)
Theorem lone_anonymous_located : forall x, In x (rule_lone_anonymous W) ->
  exists o, In o (w_ops W) /\ wo_name o = None /\ wo_id o = x.
Proof.
  unfold rule_lone_anonymous. destruct (Nat.ltb 1 (List.length (w_ops W))); [|intros x []].
  apply flat_map_located. intros o Ho x H. exists o.
  destruct (wo_name o); [destruct H|]. destruct H as [H|[]]. auto.
Qed.

(* 6 KnownFragmentNames: the name node of the spread *)
Theorem known_fragment_names_located : forall x, In x (rule_known_fragment_names S W) ->
  exists pt id g, In (ISpread pt id x g) (doc_items S W) /\ ~ In g (map wf_name (w_frags W)).
Proof.
  apply flat_map_located. intros [| pt id nid g | | | |] Hi x H; try destruct H.
  destruct (fragw W g) eqn:E; [destruct H|]. destruct H as [<-|[]].
  exists pt, id, g. split; [exact Hi | apply fragw_none; exact E].
Qed.

(* 2 FieldsOnCorrectType: the field *)
Theorem fields_on_correct_type_located : forall x, In x (rule_fields_on_correct_type S W) ->
  exists t nm args ssid hs, In (IField (Some t) None x nm args ssid hs) (doc_items S W).
Proof.
  apply flat_map_located. intros [[t|] [fd|] id nm args ssid hs| | | | |] Hi x H; try contradiction.
  destruct H as [<-|[]]. eauto 6.
Qed.

(* 0 ArgumentsOfCorrectType: the argument's value *)
Theorem arguments_of_correct_type_located : forall x, In x (rule_arguments_of_correct_type S W) ->
  exists ow ad a, In (IArg ow (Some ad) a) (doc_items S W) /\ vlit S (wa_val a) (a_type ad) = false /\
                  wv_id (wa_val a) = x.
Proof.
  apply flat_map_located. intros [| | | |ow [ad|] a|] Hi x H; try destruct H.
  destruct (vlit S (wa_val a) (a_type ad)) eqn:E; [destruct H|]. destruct H as [H|[]]. eauto 6.
Qed.

(* 20 UniqueOperationNames: the name node of a named operation, or the node of an anonymous one *)
Theorem unique_operation_names_located : forall x, In x (rule_unique_operation_names W) ->
  exists o, In o (w_ops W) /\ x = snd (op_key o).
Proof. intro x. apply dup_firsts_in. Qed.

(* 18 UniqueFragmentNames: the name node of a fragment definition *)
Theorem unique_fragment_names_located : forall x, In x (rule_unique_fragment_names W) ->
  exists f, In f (w_frags W) /\ x = wf_nid f.
Proof. intro x. apply dup_firsts_in. Qed.

(* 21 UniqueVariableNames: the name node of a variable definition *)
Theorem unique_variable_names_located : forall x, In x (rule_unique_variable_names W) ->
  exists o v, In o (w_ops W) /\ In v (wo_vars o) /\ x = wv_nid v.
Proof.
  apply flat_map_located. intros o Ho x H.
  apply dup_firsts_in in H. destruct H as (v & H). eauto.
Qed.

(* 17 UniqueArgumentNames: an argument node of a field or directive of the document *)
Definition item_args (i : item) : list warg :=
  match i with IField _ _ _ _ args _ _ => args | IDir _ _ d => wd_args d | _ => [] end.
Theorem unique_argument_names_located : forall x, In x (rule_unique_argument_names S W) ->
  exists i a, In i (doc_items S W) /\ In a (item_args i) /\ x = wa_id a.
Proof.
  apply flat_map_located. intros i Hi x H. exists i.
  assert (K : In x (arg_dups (item_args i))) by (destruct i; try destruct H; exact H).
  apply dup_firsts_in in K. destruct K as (a & K). eauto.
Qed.

(* 16 ScalarLeafs: the selection set of a leaf field, or a composite field without one *)
Theorem scalar_leafs_located : forall x, In x (rule_scalar_leafs S W) ->
  exists pt fd id nm args ssid hs, In (IField pt fd id nm args ssid hs) (doc_items S W) /\ (x = ssid \/ x = id).
Proof.
  apply flat_map_located. intros [pt [fd|] id nm args ssid hs| | | | |] Hi x H; try destruct H.
  exists pt, (Some fd), id, nm, args, ssid, hs. split; [exact Hi|].
  destruct (is_leaf S _), hs; try destruct H as [<-|[]]; auto; destruct H.
Qed.

(* 5 KnownDirectives: the directive node *)
Theorem known_directives_located : forall x, In x (rule_known_directives S W) ->
  exists loc dd d, In (IDir loc dd d) (doc_items S W) /\ x = wd_id d.
Proof.
  apply flat_map_located. intros [| | |loc dd d| |] Hi x H; try destruct H.
  exists loc, dd, d. split; [exact Hi|].
  destruct dd as [dd|]; [destruct (existsb _ (dd_locs dd)); [destruct H|]|]; destruct H as [<-|[]]; reflexivity.
Qed.

(* 4 KnownArgumentNames: the argument node *)
Theorem known_argument_names_located : forall x, In x (rule_known_argument_names S W) ->
  exists ow ad a, In (IArg ow ad a) (doc_items S W) /\ x = wa_id a.
Proof.
  apply flat_map_located. intros [| | | |ow ad a|] Hi x H; try destruct H.
  exists ow, ad, a. split; [exact Hi|].
  destruct ow as [[fd|] pt|[dd|]]; try destruct H;
    (destruct (find_argdef (wa_name a) _); [destruct H|]); destruct H as [<-|[]]; reflexivity.
Qed.

Lemma missing_required_at : forall defs args y x, In x (missing_required defs args y) -> x = y.
Proof.
  intros defs args y x H. apply in_flat_map in H. destruct H as (ad & _ & H).
  destruct (_ && _); [|destruct H]. destruct H as [<-|[]]. reflexivity.
Qed.

(* 15 ProvidedNonNullArguments: the field or directive node *)
Theorem provided_non_null_arguments_located : forall x, In x (rule_provided_non_null_arguments S W) ->
  (exists pt fd nm args ssid hs, In (IField pt fd x nm args ssid hs) (doc_items S W)) \/
  (exists loc dd d, In (IDir loc dd d) (doc_items S W) /\ x = wd_id d).
Proof.
  apply flat_map_located. intros [pt [fd|] id nm args ssid hs| | |loc [dd|] d| |] Hi x H; try destruct H;
    apply missing_required_at in H; subst x; [left | right]; eauto 7.
Qed.

(* 14 PossibleFragmentSpreads: the inline fragment or the spread *)
Theorem possible_fragment_spreads_located : forall x, In x (rule_possible_fragment_spreads S W) ->
  (exists pt ty tc, In (IInline pt ty x tc) (doc_items S W)) \/ (exists pt nid g, In (ISpread pt x nid g) (doc_items S W)).
Proof.
  apply flat_map_located. intros [|[p|] id nid g|[p|] [t|] id tc| | |] Hi x H; try destruct H.
  - right. destruct (fragw W g) as [f|]; [|destruct H]. destruct (resolve S (wf_cond f)) as [t|]; [|destruct H].
    destruct (types_overlap S t p); [destruct H|]. destruct H as [<-|[]]. eauto.
  - left. destruct (types_overlap S t p); [destruct H|]. destruct H as [<-|[]]. eauto.
Qed.

(* 3 FragmentsOnCompositeTypes: the type condition *)
Theorem fragments_on_composite_located : forall x, In x (rule_fragments_on_composite S W) ->
  (exists pt ty id tc, In (IInline pt ty id (Some tc)) (doc_items S W) /\ x = fst tc) \/
  (exists f, In f (w_frags W) /\ x = wf_tcid f).
Proof.
  apply app_located; apply flat_map_located; [intros [| |pt [t|] id [tc|]| | |] Hi x H | intros f Hf x H]; try destruct H.
  - left. destruct (is_composite S t); [destruct H|]. destruct H as [<-|[]]. eauto 6.
  - right. destruct (resolve S (wf_cond f)) as [t|]; [|destruct H].
    destruct (is_composite S t); [destruct H|]. destruct H as [<-|[]]. eauto.
Qed.

(* 11 NoUnusedFragments: the fragment definition *)
Theorem no_unused_fragments_located : forall x, In x (rule_no_unused_fragments W) ->
  exists f, In f (w_frags W) /\ x = wf_id f.
Proof.
  apply flat_map_located. intros f Hf x H.
  destruct (nmem _ _); [destruct H|]. destruct H as [<-|[]]. eauto.
Qed.

(* 10 NoUndefinedVariables: the variable usage *)
Theorem no_undefined_variables_located : forall x, In x (rule_no_undefined_variables S W) ->
  exists o u, In o (w_ops W) /\ In u (rec_uses S W o) /\ x = fst u.
Proof.
  apply flat_map_located2. intros o u Ho Hu x H.
  destruct (nmem _ _); [destruct H|]. destruct H as [<-|[]]. eauto.
Qed.

(* 12 NoUnusedVariables: the variable definition *)
Theorem no_unused_variables_located : forall x, In x (rule_no_unused_variables S W) ->
  exists o v, In o (w_ops W) /\ In v (wo_vars o) /\ x = wv_vid v.
Proof.
  apply flat_map_located2. intros o v Ho Hv x H.
  destruct (nmem _ _); [destruct H|]. destruct H as [<-|[]]. eauto.
Qed.

(* 22 VariablesAreInputTypes: the type of the variable definition *)
Theorem variables_are_input_types_located : forall x, In x (rule_variables_are_input_types S W) ->
  exists o v, In o (w_ops W) /\ In v (wo_vars o) /\ x = wt_id (wv_type v).
Proof.
  apply flat_map_located2. intros o v Ho Hv x H.
  destruct (_ && _); [|destruct H]. destruct H as [<-|[]]. eauto.
Qed.

(* 1 DefaultValuesOfCorrectType: the default value *)
Theorem default_values_of_correct_type_located : forall x, In x (rule_default_values_of_correct_type S W) ->
  exists o v d, In o (w_ops W) /\ In v (wo_vars o) /\ wv_default v = Some d /\ x = wv_id d.
Proof.
  apply flat_map_located2. intros o v Ho Hv x H.
  destruct (wv_default v) as [d|] eqn:Ed; [|destruct H].
  destruct (type_from_ast S _) as [t|]; [|destruct H].
  exists o, v, d. repeat (split; [assumption|]).
  apply in_app_or in H. destruct (is_nonnull t), (vlit S d t), H as [H|H]; try destruct H as [<-|[]]; try reflexivity; destruct H.
Qed.

(* 23 VariablesInAllowedPosition: the definition of the variable used *)
Theorem variables_in_allowed_position_located : forall x, In x (rule_variables_in_allowed_position S W) ->
  exists o vd, In o (w_ops W) /\ In vd (wo_vars o) /\ x = wv_vid vd.
Proof.
  apply flat_map_located2. intros o u Ho Hu x H.
  destruct (find_vardef _ (wo_vars o)) as [vd|] eqn:Ev; [|destruct H].
  destruct (snd (snd u)) as [ut|]; [|destruct H].
  destruct (type_from_ast S _) as [vt|]; [|destruct H].
  destruct (subtype S _ ut); [destruct H|]. destruct H as [<-|[]]. apply find_vardef_in in Ev. eauto.
Qed.

Lemma unknown_named_at : forall p x, In x (unknown_named S p) -> x = fst p.
Proof. intros p x H. unfold unknown_named in H. destruct (known S (snd p)); [destruct H|]. destruct H as [<-|[]]. reflexivity. Qed.

(* 7 KnownTypeNames: a named-type node: of a variable's type, a type condition *)
Theorem known_type_names_located : forall x, In x (rule_known_type_names S W) ->
  (exists o v, In o (w_ops W) /\ In v (wo_vars o) /\ x = fst (type_named (wv_type v))) \/
  (exists pt ty id tc, In (IInline pt ty id (Some tc)) (doc_items S W) /\ x = fst tc) \/
  (exists f, In f (w_frags W) /\ x = wf_tcid f).
Proof.
  assert (I : forall its, incl its (doc_items S W) -> forall x,
    In x (flat_map (fun i => match i with IInline _ _ _ (Some tc) => unknown_named S tc | _ => [] end) its) ->
    exists pt ty id tc, In (IInline pt ty id (Some tc)) (doc_items S W) /\ x = fst tc).
  { intros its Hi. apply flat_map_located. intros [| |pt ty id [tc|]| | |] Hin x K; try destruct K.
    apply unknown_named_at in K. apply Hi in Hin. eauto 6. }
  repeat apply app_located.
  - apply flat_map_located2. intros o v Ho Hv x H. left. apply unknown_named_at in H. eauto.
  - intros x H. right. left. revert x H. apply I, incl_appl, incl_refl.
  - apply flat_map_located. intros f Hf. apply app_located; intros x H; right.
    + right. apply unknown_named_at in H. eauto.
    + left. revert x H. apply I. intros i Hi. apply in_or_app. right. apply in_flat_map. eauto.
Qed.
End Located.

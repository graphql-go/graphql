(* Lexing what the printer lays out: the token-boundary lemma.  If every token piece of a
   layout is read back as that token before whatever follows it ([tok_ok]) and every
   separator consists of spaces, newlines and commas, then lexing the flattened layout
   yields exactly its token pieces, with the byte offsets at which they were written. *)
From Coq Require Import List NArith Bool Lia.
From GQL Require Import Base.Bytes Syntax.Lexer Syntax.Parser Syntax.Printer Proofs.SyntaxPrinter Proofs.SyntaxLexer Proofs.SyntaxUtf8 Proofs.SyntaxBlock.
Import ListNotations.
Open Scope N_scope.

Definition is_sep_byte (c : N) : bool := (c =? 32) || (c =? 10) || (c =? 44).
Definition sep_ok (s : bytes) : Prop := forallb is_sep_byte s = true.
Definition tok_start (b : N) : bool := (b <? 128) && negb (is_ignored b) && negb (b =? 35).

Definition tokval (k : tkind) (v : bytes) : bytes :=
  match k with NAME | INT | FLOAT | STRING | BLOCK_STRING => v | _ => [] end.

(* the piece (k, v), written before [rest], is read back as the token (k, v) *)
Definition tok_ok (k : tkind) (v rest : bytes) : Prop :=
  let r := render_piece (PTok k v) in
  k <> EOF /\ (exists b y, r = b :: y /\ tok_start b = true) /\
  forall fuel pos, (length (r ++ rest) < fuel)%nat ->
    read_token fuel (r ++ rest) pos = Ok (mktok k pos (pos + nlen r) (tokval k v), rest, pos + nlen r).

(* the block-string piece (d, s), written before [rest], is read back as the BLOCK_STRING token s *)
Definition blk_ok (d : N) (s rest : bytes) : Prop :=
  let r := render_piece (PBlk d s) in
  forall fuel pos, (length (r ++ rest) < fuel)%nat ->
    read_token fuel (r ++ rest) pos = Ok (mktok BLOCK_STRING pos (pos + nlen r) s, rest, pos + nlen r).

Fixpoint layout_ok (L : layout) : Prop :=
  match L with
  | [] => True
  | PSep s :: r => sep_ok s /\ layout_ok r
  | PTok k v :: r => tok_ok k v (flat r) /\ layout_ok r
  | PBlk d s :: r => blk_ok d s (flat r) /\ layout_ok r
  end.

(* the tokens of a layout written at byte offset pos *)
Fixpoint ptoks (pos : N) (L : layout) : list token :=
  match L with
  | [] => []
  | PSep s :: r => ptoks (pos + nlen s) r
  | PTok k v :: r =>
    let n := nlen (render_piece (PTok k v)) in
    mktok k pos (pos + n) (tokval k v) :: ptoks (pos + n) r
  | PBlk d s :: r =>
    let n := nlen (render_piece (PBlk d s)) in
    mktok BLOCK_STRING pos (pos + n) s :: ptoks (pos + n) r
  end.
Definition eof_tok (p : N) : token := mktok EOF p p [].

Lemma sep_byte_cases : forall c, is_sep_byte c = true -> c = 32 \/ c = 10 \/ c = 44.
Proof.
  intros c H. unfold is_sep_byte in H. apply orb_true_iff in H. destruct H as [H|H]; [apply orb_true_iff in H; destruct H as [H|H]|];
    apply N.eqb_eq in H; auto.
Qed.

Lemma skip_ws_seps : forall w rest fuel pos, sep_ok w ->
  match rest with [] => True | b :: _ => tok_start b = true end ->
  (length (w ++ rest) < fuel)%nat ->
  skip_ws fuel (w ++ rest) pos false = Ok (rest, pos + nlen w, false).
Proof.
  induction w as [|c w IH]; intros rest fuel pos Hw Hr Hf.
  - destruct fuel; [simpl in Hf; lia|]. cbn [app skip_ws]. unfold nlen; cbn [length]. rewrite N.add_0_r.
    destruct rest as [|b y]; [reflexivity|].
    unfold tok_start in Hr. apply andb_true_iff in Hr. destruct Hr as [Hr H35]. apply andb_true_iff in Hr. destruct Hr as [H128 Hig].
    apply N.ltb_lt in H128. rewrite (rune_at_ascii b y H128).
    apply negb_true_iff in Hig. apply negb_true_iff in H35. rewrite Hig, H35. reflexivity.
  - destruct fuel; [simpl in Hf; lia|]. cbn [app skip_ws].
    unfold sep_ok in Hw. cbn [forallb] in Hw. apply andb_true_iff in Hw. destruct Hw as [Hc Hw].
    assert (Hc' : c < 128 /\ is_ignored c = true) by (destruct (sep_byte_cases c Hc) as [-> | [-> | ->]]; split; reflexivity).
    rewrite (rune_at_ascii c _ (proj1 Hc')), (proj2 Hc'). change (false || (1 <? 1)) with false. change (dropN 1 (c :: w ++ rest)) with (w ++ rest).
    rewrite (IH rest fuel (pos + 1) Hw Hr ltac:(simpl in Hf; lia)). rewrite nlen_cons. f_equal. f_equal. f_equal. lia.
Qed.

Lemma lex_all_tok : forall f s pos s1 p1 mb t s2 p2,
  skip_ws (S f) s pos false = Ok (s1, p1, mb) -> read_token (S f) s1 p1 = Ok (t, s2, p2) -> tk t <> EOF ->
  lex_all (S f) s pos =
  match lex_all f s2 p2 with Ok (ts, fl) => Ok (t :: ts, fl || (mb && tkind_beq (tk t) NAME)) | Err => Err | OutOfFuel => OutOfFuel end.
Proof.
  intros f s pos s1 p1 mb t s2 p2 H1 H2 H3. cbn [lex_all]. rewrite H1, H2.
  destruct (tk t); try (exfalso; apply H3; reflexivity); reflexivity.
Qed.

Lemma lex_all_eof : forall f s pos s1 p1 mb t s2 p2,
  skip_ws (S f) s pos false = Ok (s1, p1, mb) -> read_token (S f) s1 p1 = Ok (t, s2, p2) -> tk t = EOF ->
  lex_all (S f) s pos = Ok ([t], false).
Proof. intros f s pos s1 p1 mb t s2 p2 H1 H2 H3. cbn [lex_all]. rewrite H1, H2, H3. reflexivity. Qed.

Lemma lex_all_piece : forall fuel w r rest pos k v ts,
  sep_ok w -> (exists b y, r = b :: y /\ tok_start b = true) -> k <> EOF -> (length (w ++ r ++ rest) < S fuel)%nat ->
  read_token (S fuel) (r ++ rest) (pos + nlen w) = Ok (mktok k (pos + nlen w) (pos + nlen w + nlen r) v, rest, pos + nlen w + nlen r) ->
  lex_all fuel rest (pos + nlen w + nlen r) = Ok (ts, false) ->
  lex_all (S fuel) (w ++ r ++ rest) pos = Ok (mktok k (pos + nlen w) (pos + nlen w + nlen r) v :: ts, false).
Proof.
  intros fuel w r rest pos k v ts Hw (b & y & -> & Hb) Hk Hf Hread Hts.
  rewrite (lex_all_tok fuel _ pos _ (pos + nlen w) false _ rest _ (skip_ws_seps w ((b :: y) ++ rest) (S fuel) pos Hw Hb Hf) Hread Hk), Hts.
  reflexivity.
Qed.

Theorem lex_layout : forall L w pos fuel, sep_ok w -> layout_ok L -> (length (w ++ flat L) < fuel)%nat ->
  lex_all fuel (w ++ flat L) pos = Ok (ptoks (pos + nlen w) L ++ [eof_tok (pos + nlen w + nlen (flat L))], false).
Proof.
  induction L as [|p L IH]; intros w pos fuel Hw HL Hf.
  - destruct fuel; [simpl in Hf; lia|]. change (flat []) with (@nil N) in *.
    etransitivity.
    + eapply (lex_all_eof fuel _ pos [] (pos + nlen w) false (eof_tok (pos + nlen w)) [] (pos + nlen w)).
      * apply (skip_ws_seps w [] (S fuel) pos Hw I Hf).
      * reflexivity.
      * reflexivity.
    + cbn [ptoks app]. unfold nlen at 3. cbn [length]. rewrite N.add_0_r. reflexivity.
  - (* what follows the first piece, lexed from where that piece ends *)
    assert (IH0 : forall q f, layout_ok L -> (length (flat L) < f)%nat ->
              lex_all f (flat L) q = Ok (ptoks q L ++ [eof_tok (q + nlen (flat L))], false)).
    { intros q f HL' Hf'. pose proof (IH [] q f eq_refl HL' Hf') as E. unfold nlen at 1 2 in E. cbn [length app] in E.
      rewrite !N.add_0_r in E. exact E. }
    destruct p as [k v|s|d s].
    + destruct HL as [(Hk & Hs & Hread) HL]. destruct fuel; [simpl in Hf; lia|].
      change (flat (PTok k v :: L)) with (render_piece (PTok k v) ++ flat L) in *. cbn [ptoks app]. rewrite nlen_app, N.add_assoc.
      rewrite !app_length in Hf.
      apply lex_all_piece; try assumption; [rewrite !app_length; exact Hf|apply Hread; rewrite app_length; lia|apply IH0; [exact HL|]].
      destruct Hs as (b & y & Hr & _). rewrite Hr in Hf. cbn [length] in Hf. lia.
    + destruct HL as [Hs HL]. change (flat (PSep s :: L)) with (s ++ flat L) in *.
      rewrite app_assoc in Hf |- *.
      assert (Hws : sep_ok (w ++ s)) by (unfold sep_ok in *; rewrite forallb_app; apply andb_true_iff; split; assumption).
      rewrite (IH (w ++ s) pos fuel Hws HL Hf). cbn [ptoks]. rewrite !nlen_app. rewrite !N.add_assoc. reflexivity.
    + destruct HL as [Hread HL]. destruct fuel; [simpl in Hf; lia|].
      change (flat (PBlk d s :: L)) with (render_piece (PBlk d s) ++ flat L) in *. cbn [ptoks app]. rewrite nlen_app, N.add_assoc.
      rewrite !app_length in Hf.
      apply lex_all_piece; try assumption; [eexists; eexists; split; reflexivity|discriminate|rewrite !app_length; exact Hf
                                           |apply Hread; rewrite app_length; lia|apply IH0; [exact HL|]].
      cbn [render_piece tq app length] in Hf. lia.
Qed.

Definition is_punct (k : tkind) : bool :=
  match k with
  | BANG | DOLLAR | PAREN_L | PAREN_R | SPREAD | COLON | EQUALS | AT | BRACKET_L | BRACKET_R
  | BRACE_L | PIPE | BRACE_R | AMP => true
  | _ => false
  end.

Lemma tok_ok_punct : forall k v rest, is_punct k = true -> v = [] -> tok_ok k v rest.
Proof.
  intros k v rest H ->. destruct k; try discriminate H;
    (split; [discriminate|]; split; [eexists; eexists; split; reflexivity|]; intros fuel pos _; reflexivity).
Qed.

(* the byte after a name or a number may not continue it *)
Definition bound_ok (rest : bytes) : bool :=
  match rest with [] => true | b :: _ => negb (is_name_char b) && negb (b =? 46) end.

Lemma span_app_stop : forall p a rest, forallb p a = true ->
  (match rest with [] => true | b :: _ => negb (p b) end) = true -> span p (a ++ rest) = (a, rest).
Proof.
  induction a as [|c a IH]; intros rest Ha Hr.
  - cbn [app]. destruct rest as [|b r]; [reflexivity|]. cbn [span]. apply negb_true_iff in Hr. rewrite Hr. reflexivity.
  - cbn [forallb] in Ha. apply andb_true_iff in Ha. destruct Ha as [Hc Ha]. cbn [app span]. rewrite Hc.
    rewrite (IH rest Ha Hr). reflexivity.
Qed.

Definition name_ok (v : bytes) : bool :=
  match v with c :: v' => is_name_start c && forallb is_name_char v' | [] => false end.

Lemma below128_all : forall (P : N -> bool), forallb P (map N.of_nat (seq 0 128)) = true -> forall c, c < 128 -> P c = true.
Proof. intros P H c Hc. rewrite forallb_forall in H. apply H. apply in_below. exact Hc. Qed.

Definition num_start (c : N) : bool := (c =? 45) || is_digit c.

(* the bytes that start a name or a number: below 128, not ignored, no punctuator, no control character,
   and no byte starts both (a finite table, checked byte by byte) *)
Lemma start_facts : forall c, is_name_start c || num_start c = true ->
  c < 128 /\ tok_start c = true /\ punct1 c = None /\ (c =? 46) = false /\ (num_start c = true -> is_name_start c = false) /\
  ((c <? 32) && negb (c =? 9) && negb (c =? 10) && negb (c =? 13)) = false.
Proof.
  intros c H.
  assert (Hc : c < 128).
  { unfold is_name_start, num_start, is_digit in H. repeat (apply orb_true_iff in H; destruct H as [H|H]);
      try (apply N.eqb_eq in H; lia); apply andb_true_iff in H; destruct H as [_ H]; apply N.leb_le in H; lia. }
  split; [exact Hc|].
  assert (A := below128_all (fun c => implb (is_name_start c || num_start c)
     (tok_start c && (match punct1 c with None => true | _ => false end) && negb (c =? 46) && implb (num_start c) (negb (is_name_start c)) &&
      negb ((c <? 32) && negb (c =? 9) && negb (c =? 10) && negb (c =? 13)))) ltac:(vm_compute; reflexivity) c Hc).
  cbv beta in A. rewrite H in A. cbn [implb] in A.
  apply andb_true_iff in A; destruct A as [A A5]. apply andb_true_iff in A; destruct A as [A A4].
  apply andb_true_iff in A; destruct A as [A A3]. apply andb_true_iff in A; destruct A as [A1 A2].
  repeat split.
  - exact A1.
  - destruct (punct1 c); [discriminate|reflexivity].
  - apply negb_true_iff. assumption.
  - intro X. rewrite X in A4. apply negb_true_iff. exact A4.
  - apply negb_true_iff. assumption.
Qed.

Lemma tok_ok_name : forall v rest, name_ok v = true -> bound_ok rest = true -> tok_ok NAME v rest.
Proof.
  intros v rest Hv Hr. destruct v as [|c v']; [discriminate|]. cbn [name_ok] in Hv.
  apply andb_true_iff in Hv. destruct Hv as [Hc Hv].
  destruct (start_facts c ltac:(rewrite Hc; reflexivity)) as (H128 & Hts & Hp & H46 & _ & Hctl).
  split; [discriminate|]. split; [exists c, v'; split; [reflexivity|exact Hts]|].
  intros fuel pos _. cbn [render_piece tokval]. unfold read_token. cbn [app].
  rewrite (rune_at_ascii c _ H128). rewrite Hctl, Hp, H46, Hc.
  assert (Hsp : span is_name_char (c :: v' ++ rest) = (c :: v', rest)).
  { apply (span_app_stop is_name_char (c :: v') rest).
    - cbn [forallb]. unfold is_name_char at 1. rewrite Hc. exact Hv.
    - destruct rest as [|b r]; [reflexivity|]. cbn [bound_ok] in Hr. apply andb_true_iff in Hr. tauto. }
  rewrite Hsp. reflexivity.
Qed.

Definition stopb (p : N -> bool) (rest : bytes) : bool := match rest with [] => true | b :: _ => negb (p b) end.
Definition is_dot (b : N) : bool := b =? 46.
Definition is_exp (b : N) : bool := (b =? 69) || (b =? 101).

Lemma stopb_app : forall p a b, stopb p a = true -> (a = [] -> stopb p b = true) -> stopb p (a ++ b) = true.
Proof. intros p [|x a] b Ha Hb; [exact (Hb eq_refl)|exact Ha]. Qed.

Lemma span_fst_all : forall p s a b, span p s = (a, b) -> forallb p a = true.
Proof.
  induction s as [|c s IH]; intros a b H; simpl in H.
  - inversion H; reflexivity.
  - destruct (p c) eqn:E.
    + destruct (span p s) as [a' b'] eqn:E2. pose proof (IH a' b' eq_refl) as X. inversion H; subst. cbn [forallb]. rewrite E, X. reflexivity.
    + inversion H; subst. reflexivity.
Qed.

Lemma span_reread : forall p s a b y, span p s = (a, b) -> stopb p y = true -> span p (a ++ y) = (a, y).
Proof. intros p s a b y E Hy. exact (span_app_stop p a y (span_fst_all p s a b E) Hy). Qed.

(* Each part of a number lexeme is read again as it was before any continuation y that cannot
   extend it: a part that ends in digits before a non-digit, an absent part before a byte that
   does not start it. *)
Lemma int_part_reread : forall s ip s2, read_int_part s = Some (ip, s2) ->
  (exists c ip', ip = c :: ip' /\ is_digit c = true) /\
  forall y, stopb is_digit y = true -> read_int_part (ip ++ y) = Some (ip, y).
Proof.
  intros s ip s2 H. destruct s as [|c r]; [discriminate|]. cbn [read_int_part] in H. destruct (c =? 48) eqn:E48.
  - apply N.eqb_eq in E48. subst c.
    assert (ip = [48]) by (destruct r as [|d r']; [inversion H; reflexivity|destruct (is_digit d); [discriminate|inversion H; reflexivity]]).
    subst ip. split; [exists 48, []; split; reflexivity|]. intros y Hy. cbn [app read_int_part]. change (48 =? 48) with true. cbv iota.
    destruct y as [|b y']; [reflexivity|]. cbn [stopb] in Hy. apply negb_true_iff in Hy. rewrite Hy. reflexivity.
  - destruct (span is_digit (c :: r)) as [ds r'] eqn:E. destruct ds as [|d0 ds]; [discriminate|]. inversion H; subst ip s2.
    pose proof (fun y => span_reread _ _ _ _ y E) as Sp. cbn [span] in E. destruct (is_digit c) eqn:Dc; [|discriminate E].
    destruct (span is_digit r) as [ds' r'']. injection E as E0 _ _. subst d0.
    split; [exists c, ds; split; [reflexivity|exact Dc]|].
    intros y Hy. specialize (Sp y Hy). cbn [app] in Sp.
    cbn [app read_int_part]. rewrite E48. unfold bytes, byte in *. rewrite Sp. reflexivity.
Qed.

Lemma frac_part_reread : forall s fp f s3, read_frac_part s = Some (fp, f, s3) ->
  stopb is_digit fp = true /\
  forall y, stopb is_digit y = true -> (fp = [] -> stopb is_dot y = true) -> read_frac_part (fp ++ y) = Some (fp, f, y).
Proof.
  intros s fp f s3 H.
  assert (Nil : fp = [] -> f = false -> stopb is_digit fp = true /\
            forall y, stopb is_digit y = true -> (fp = [] -> stopb is_dot y = true) -> read_frac_part (fp ++ y) = Some (fp, f, y)).
  { intros -> ->. split; [reflexivity|]. intros [|b y] _ Hy; [reflexivity|]. specialize (Hy eq_refl). cbn [stopb] in Hy.
    apply negb_true_iff in Hy. unfold is_dot in Hy. cbn [app read_frac_part]. rewrite Hy. reflexivity. }
  destruct s as [|c r]; [cbn in H; inversion H; subst; apply Nil; reflexivity|].
  cbn [read_frac_part] in H. destruct (c =? 46) eqn:E46; [|inversion H; subst; apply Nil; reflexivity].
  destruct (span is_digit r) as [ds r'] eqn:E. destruct ds as [|d0 ds]; [discriminate|]. inversion H; subst. split; [reflexivity|].
  intros y Hy _. pose proof (span_reread _ _ _ _ y E Hy) as Sp. cbn [app] in Sp.
  cbn [app read_frac_part]. change (46 =? 46) with true. cbv iota. unfold bytes, byte in *. rewrite Sp. reflexivity.
Qed.

Lemma exp_part_reread : forall s ep f s4, read_exp_part s = Some (ep, f, s4) ->
  stopb is_digit ep = true /\ stopb is_dot ep = true /\
  forall y, stopb is_digit y = true -> (ep = [] -> stopb is_exp y = true) -> read_exp_part (ep ++ y) = Some (ep, f, y).
Proof.
  intros s ep f s4 H.
  assert (Nil : ep = [] -> f = false -> stopb is_digit ep = true /\ stopb is_dot ep = true /\
            forall y, stopb is_digit y = true -> (ep = [] -> stopb is_exp y = true) -> read_exp_part (ep ++ y) = Some (ep, f, y)).
  { intros -> ->. split; [reflexivity|]. split; [reflexivity|]. intros [|b y] _ Hy; [reflexivity|]. specialize (Hy eq_refl). cbn [stopb] in Hy.
    apply negb_true_iff in Hy. unfold is_exp in Hy. cbn [app read_exp_part]. rewrite Hy. reflexivity. }
  destruct s as [|e r]; [cbn in H; inversion H; subst; apply Nil; reflexivity|].
  cbn [read_exp_part] in H. destruct ((e =? 69) || (e =? 101)) eqn:Ee; [|inversion H; subst; apply Nil; reflexivity].
  assert (Hd : is_digit e = false /\ is_dot e = false)
    by (apply orb_true_iff in Ee; destruct Ee as [X|X]; apply N.eqb_eq in X; subst; split; reflexivity).
  destruct r as [|c r1]; [cbn in H; discriminate|].
  destruct ((c =? 43) || (c =? 45)) eqn:Ec.
  - destruct (span is_digit r1) as [ds r2] eqn:E. destruct ds as [|d0 ds]; [discriminate|]. inversion H; subst.
    cbn [app stopb]. rewrite (proj1 Hd), (proj2 Hd). split; [reflexivity|]. split; [reflexivity|]. intros y Hy _.
    pose proof (span_reread _ _ _ _ y E Hy) as Sp. cbn [app] in Sp.
    cbn [app read_exp_part]. rewrite Ee, Ec. unfold bytes, byte in *. rewrite Sp. reflexivity.
  - destruct (span is_digit (c :: r1)) as [ds r2] eqn:E. destruct ds as [|d0 ds]; [discriminate|]. inversion H; subst.
    pose proof (fun y => span_reread _ _ _ _ y E) as Sp. cbn [span] in E. destruct (is_digit c); [|discriminate E].
    destruct (span is_digit r1) as [ds' r2']. injection E as E0 _ _. subst d0.
    cbn [app stopb]. rewrite (proj1 Hd), (proj2 Hd). split; [reflexivity|]. split; [reflexivity|]. intros y Hy _.
    specialize (Sp y Hy). cbn [app] in Sp.
    cbn [app read_exp_part]. rewrite Ee, Ec. unfold bytes, byte in *. rewrite Sp. reflexivity.
Qed.

(* what follows a number lexeme does not extend it *)
Definition numstop (rest : bytes) : Prop := stopb is_digit rest = true /\ stopb is_dot rest = true /\ stopb is_exp rest = true.

Lemma read_number_stop : forall s lx isf r, read_number s = Some (lx, isf, r) ->
  forall y, numstop y -> read_number (lx ++ y) = Some (lx, isf, y).
Proof.
  intros s lx isf r H y (Yd & Yp & Ye). unfold read_number in H.
  set (sg := match s with c :: r0 => if c =? 45 then ([45], r0) else ([], s) | [] => ([], s) end) in H.
  assert (Hsg : fst sg = [45] \/ fst sg = []) by (unfold sg; destruct s as [|c r0]; [right; reflexivity|destruct (c =? 45); [left|right]; reflexivity]).
  destruct sg as [sign s1]. cbn [fst] in Hsg.
  destruct (read_int_part s1) as [[ip s2]|] eqn:E1; [|discriminate].
  destruct (read_frac_part s2) as [[[fp f1] s3]|] eqn:E2; [|discriminate].
  destruct (read_exp_part s3) as [[[ep f2] s4]|] eqn:E3; [|discriminate].
  inversion H; subst lx isf r. clear H.
  destruct (int_part_reread _ _ _ E1) as [(c0 & ip' & Hip & Hc0) G1].
  destruct (frac_part_reread _ _ _ _ E2) as [Sf G2]. destruct (exp_part_reread _ _ _ _ E3) as (Sed & Sep & G3).
  assert (Se : stopb is_digit (ep ++ y) = true) by (apply stopb_app; [exact Sed|intros _; exact Yd]).
  specialize (G1 (fp ++ ep ++ y) ltac:(apply stopb_app; [exact Sf|intros _; exact Se])).
  specialize (G2 (ep ++ y) Se ltac:(intros _; apply stopb_app; [exact Sep|intros _; exact Yp])).
  specialize (G3 y Yd ltac:(intros _; exact Ye)).
  unfold read_number. rewrite <- !app_assoc.
  destruct Hsg as [->| ->].
  - cbn [app]. change (45 =? 45) with true. cbv iota. rewrite G1, G2, G3. reflexivity.
  - subst ip. cbn [app] in G1 |- *. assert (c0 =? 45 = false) by (destruct (c0 =? 45) eqn:X; [apply N.eqb_eq in X; subst; discriminate Hc0|reflexivity]).
    rewrite H. cbv beta iota. unfold bytes, byte in *. rewrite G1, G2, G3. reflexivity.
Qed.

Lemma read_number_app : forall s lx isf rest, read_number s = Some (lx, isf, []) -> numstop rest ->
  read_number (s ++ rest) = Some (lx, isf, rest).
Proof.
  intros s lx isf rest H C. destruct (read_number_split _ _ _ _ H) as [E _]. rewrite app_nil_r in E. subst s.
  apply (read_number_stop _ _ _ _ H). exact C.
Qed.

Lemma bound_numstop : forall rest, bound_ok rest = true -> numstop rest.
Proof.
  intros [|b r] H; [repeat split|]. cbn [bound_ok] in H. apply andb_true_iff in H. destruct H as [H1 H2].
  apply negb_true_iff in H1. unfold is_name_char in H1. apply orb_false_iff in H1. destruct H1 as [Hs Hd].
  unfold numstop, stopb, is_dot, is_exp. rewrite Hd, H2. split; [reflexivity|]. split; [reflexivity|].
  destruct (b =? 69) eqn:E; [apply N.eqb_eq in E; subst; discriminate Hs|].
  destruct (b =? 101) eqn:E'; [apply N.eqb_eq in E'; subst; discriminate Hs|reflexivity].
Qed.

Lemma read_number_first : forall v lx isf r, read_number v = Some (lx, isf, r) -> exists c v', v = c :: v' /\ num_start c = true.
Proof.
  intros v lx isf r H. destruct v as [|c v']; [cbn in H; discriminate|]. exists c, v'. split; [reflexivity|].
  unfold num_start. destruct (c =? 45) eqn:E; [reflexivity|]. cbn [orb].
  unfold read_number in H. rewrite E in H.
  destruct (read_int_part (c :: v')) as [[ip s2]|] eqn:E1; [|discriminate]. clear H.
  cbn [read_int_part] in E1. destruct (c =? 48) eqn:E48; [apply N.eqb_eq in E48; subst; reflexivity|].
  cbn [span] in E1. destruct (is_digit c); [reflexivity|]. discriminate.
Qed.

Definition num_ok (v : bytes) (isf : bool) : Prop := read_number v = Some (v, isf, []).

Lemma tok_ok_num : forall v rest isf, num_ok v isf -> bound_ok rest = true ->
  tok_ok (if isf then FLOAT else INT) v rest.
Proof.
  intros v rest isf Hv Hr. unfold num_ok in Hv.
  destruct (read_number_first _ _ _ _ Hv) as (c & v' & -> & Hc).
  destruct (start_facts c ltac:(rewrite Hc; apply orb_true_r)) as (H128 & Hts & Hp & H46 & Hns & Hctl). specialize (Hns Hc).
  assert (R : render_piece (PTok (if isf then FLOAT else INT) (c :: v')) = c :: v') by (destruct isf; reflexivity).
  split; [destruct isf; discriminate|]. split; [exists c, v'; split; [exact R|exact Hts]|].
  intros fuel pos _. rewrite R. unfold read_token. cbn [app].
  rewrite (rune_at_ascii c _ H128). rewrite Hctl, Hp, H46, Hns. unfold num_start in Hc. rewrite Hc.
  change (c :: v' ++ rest) with ((c :: v') ++ rest).
  rewrite (read_number_app _ _ _ rest Hv (bound_numstop _ Hr)). destruct isf; reflexivity.
Qed.

Lemma quote_string_head : forall s q, quote_string s = Ok q -> exists y, q = 34 :: y.
Proof.
  intros s q H. unfold quote_string in H.
  destruct (quote_body (S (length s)) s) as [b| |]; inversion H. eexists; reflexivity.
Qed.

Lemma tok_ok_string_utf8 : forall v rest, utf8_valid v ->
  (v <> [] \/ forall r, rest <> 34 :: r) -> tok_ok STRING v rest.
Proof.
  intros v rest Hv Hne. destruct (quote_lex_roundtrip_utf8 v rest Hv Hne) as (q & Hq & Hread).
  assert (R : render_piece (PTok STRING v) = q) by (cbn [render_piece]; unfold quote_str; rewrite Hq; reflexivity).
  split; [discriminate|]. split.
  - rewrite R. destruct (quote_string_head _ _ Hq) as (y & ->). exists 34, y. split; reflexivity.
  - intros fuel pos Hf. rewrite R in *. apply Hread. exact Hf.
Qed.

Lemma tok_ok_string_ascii : forall v rest, (forall c, In c v -> c < 128) ->
  (v <> [] \/ forall r, rest <> 34 :: r) -> tok_ok STRING v rest.
Proof. intros v rest Hv. apply tok_ok_string_utf8. apply ascii_valid. exact Hv. Qed.

Definition not_quote (rest : bytes) : bool := match rest with b :: _ => negb (b =? 34) | [] => true end.
Definition num_okb (v : bytes) (isf : bool) : bool :=
  match read_number v with
  | Some (lx, f, []) => bytes_eqb lx v && Bool.eqb f isf
  | _ => false
  end.

Definition piece_wfb (k : tkind) (v rest : bytes) : bool :=
  match k with
  | NAME => name_ok v && bound_ok rest
  | INT => num_okb v false && bound_ok rest
  | FLOAT => num_okb v true && bound_ok rest
  | STRING => str_okb v && (negb (is_nil v) || not_quote rest)
  | EOF | BLOCK_STRING => false
  | _ => is_nil v
  end.

Fixpoint layout_wfb (L : layout) : bool :=
  match L with
  | [] => true
  | PSep s :: r => forallb is_sep_byte s && layout_wfb r
  | PTok k v :: r => piece_wfb k v (flat r) && layout_wfb r
  | PBlk _ s :: r => blk_okb s && layout_wfb r
  end.

Lemma num_okb_ok : forall v isf, num_okb v isf = true -> num_ok v isf.
Proof.
  intros v isf H. unfold num_okb in H. unfold num_ok.
  destruct (read_number v) as [[[lx f] r]|]; [|discriminate]. destruct r; [|discriminate].
  apply andb_true_iff in H. destruct H as [H1 H2]. apply bytes_eqb_eq in H1. apply Bool.eqb_prop in H2. subst. reflexivity.
Qed.

Lemma piece_wfb_ok : forall k v rest, piece_wfb k v rest = true -> tok_ok k v rest.
Proof.
  intros k v rest H. destruct k; cbn [piece_wfb] in H; try discriminate H;
    try (apply tok_ok_punct; [reflexivity|destruct v; [reflexivity|discriminate H]]).
  - apply andb_true_iff in H. destruct H. apply tok_ok_name; assumption.
  - apply andb_true_iff in H. destruct H as [H1 H2]. apply (tok_ok_num v rest false (num_okb_ok _ _ H1) H2).
  - apply andb_true_iff in H. destruct H as [H1 H2]. apply (tok_ok_num v rest true (num_okb_ok _ _ H1) H2).
  - apply andb_true_iff in H. destruct H as [H1 H2]. apply tok_ok_string_utf8.
    + apply (utf8_okb_valid _ _ H1).
    + apply orb_true_iff in H2. destruct H2 as [H2|H2].
      * left. destruct v; [discriminate H2|discriminate].
      * right. intros r ->. discriminate H2.
Qed.

Lemma layout_wfb_ok : forall L, layout_wfb L = true -> layout_ok L.
Proof.
  induction L as [|p L IH]; intro H; [exact I|]. destruct p as [k v|s|d s]; cbn [layout_wfb layout_ok] in *;
    apply andb_true_iff in H; destruct H as [H1 H2]; split; auto.
  - apply piece_wfb_ok. exact H1.
  - intros fuel pos Hf. apply (read_token_block s d (flat L) fuel pos H1 Hf).
Qed.

(* Lexing the text of a well-formed layout gives back its token pieces, each at the byte offset
   where it was written, followed by the EOF token. *)
Theorem lex_flat_layout : forall L, layout_wfb L = true ->
  lex (flat L) = Ok (ptoks 0 L ++ [eof_tok (nlen (flat L))], false).
Proof.
  intros L H. unfold lex, lex_src. cbn [snd].
  pose proof (lex_layout L [] 0 (S (length (flat L))) eq_refl (layout_wfb_ok L H)) as X.
  cbn [app] in X. rewrite X by lia. unfold nlen at 1 2. cbn [length]. rewrite !N.add_0_l. reflexivity.
Qed.

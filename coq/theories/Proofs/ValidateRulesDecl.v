(* Relational specifications for the parts of the simple rules whose declarative predicate
   in Proofs/ValidateRules.v still mentions an executable helper of the model:
   - RecursiveVariableUsages (NoUndefinedVariables, NoUnusedVariables, VariablesInAllowedPosition):
     a usage belongs to an operation iff it occurs in the operation or in a fragment
     reachable from it through spreads (inductive Reach) -- instead of the closure iteration;
   - isTypeSubTypeOf (VariablesInAllowedPosition): the inductive relation Subtype;
   - doTypesOverlap (PossibleFragmentSpreads): two types overlap iff they are equal or have a
     common possible object type. *)
From Coq Require Import List Bool String NArith.
From GQL Require Import Exec.Syntax Validate.VSyntax Validate.Overlap Validate.Rules
     Proofs.ValidateRules Proofs.ValidateRun Proofs.ValidateCycles Proofs.ValidateUnused Proofs.ValidateClosure
     Proofs.ValidateReflect.
Import ListNotations.
Open Scope string_scope.
Open Scope list_scope.

Section Uses.
Variable S : schema.
Variable W : wdoc.

(* the variable usages RecursiveVariableUsages(op) ranges over *)
Definition UsedIn (o : wop) (u : N * (name * option tyref)) : Prop :=
  In u (uses_of (op_items S o)) \/
  exists g f, Reach W (spread_names (wo_sel o)) g /\ fragw W g = Some f /\ In u (uses_of (frag_items S f)).

Lemma rec_uses_iff : forall o u, In u (rec_uses S W o) <-> UsedIn o u.
Proof.
  intros o u. unfold rec_uses, UsedIn. rewrite in_app_iff, in_flat_map. apply or_iff; [reflexivity|]. split.
  - intros (g & Hg & H). apply referenced_iff in Hg. destruct Hg as (R & f & Ef). rewrite Ef in H. eauto.
  - intros (g & f & R & Ef & H). exists g. rewrite Ef. split; [apply referenced_iff; eauto | exact H].
Qed.

Definition Violates_no_undefined_variables_decl : Prop :=
  exists o u, In o (w_ops W) /\ UsedIn o u /\ ~ In (fst (snd u)) (map wv_name (wo_vars o)).

Theorem no_undefined_variables_decl_iff :
  rule_no_undefined_variables S W <> [] <-> Violates_no_undefined_variables_decl.
Proof.
  etransitivity; [apply no_undefined_variables_iff|].
  split; intros (o & u & Ho & Hu & H); exists o, u; (split; [exact Ho|]); (split; [apply rec_uses_iff; exact Hu | exact H]).
Qed.

Definition Violates_no_unused_variables_decl : Prop :=
  exists o v, In o (w_ops W) /\ In v (wo_vars o) /\ forall u, UsedIn o u -> fst (snd u) <> wv_name v.

Theorem no_unused_variables_decl_iff :
  rule_no_unused_variables S W <> [] <-> Violates_no_unused_variables_decl.
Proof.
  etransitivity; [apply no_unused_variables_iff|].
  split; intros (o & v & Ho & Hv & H); exists o, v; (split; [exact Ho|]); (split; [exact Hv|]).
  - intros u Hu E. apply H, in_map_iff. exists u. split; [exact E | apply rec_uses_iff; exact Hu].
  - intro Hin. apply in_map_iff in Hin. destruct Hin as (u & E & Hu). apply (H u); [apply rec_uses_iff; exact Hu | exact E].
Qed.
End Uses.

Section Sub.
Variable S : schema.

Inductive Subtype : tyref -> tyref -> Prop :=
| ST_same : forall x, Subtype (TNamed x) (TNamed x)
| ST_possible : forall x y, is_abstract S y = true -> is_object S x = true -> possible_type S y x = true ->
    Subtype (TNamed x) (TNamed y)
| ST_nonnull : forall a b, Subtype a b -> Subtype (TNonNull a) (TNonNull b)
| ST_nonnull_l : forall a b, is_nonnull b = false -> Subtype a b -> Subtype (TNonNull a) b
| ST_list : forall a b, Subtype a b -> Subtype (TList a) (TList b).

Theorem subtype_iff : forall a b, subtype S a b = true <-> Subtype a b.
Proof.
  intros a b. split.
  - revert b. induction a as [x|a IH|a IH]; intros [y|b|b]; simpl; try discriminate; intro H;
      try (constructor; auto; fail).
    apply orb_true_iff in H. destruct H as [H|H]; [apply String.eqb_eq in H; subst; apply ST_same|].
    apply andb_true_iff in H. destruct H as [H H3]. apply andb_true_iff in H. destruct H. apply ST_possible; assumption.
  - induction 1 as [x|x y H1 H2 H3|a b _ IH|a b Hb _ IH|a b _ IH]; simpl; try exact IH.
    + rewrite String.eqb_refl. reflexivity.
    + rewrite H1, H2, H3. apply orb_true_r.
    + destruct b; [exact IH | exact IH | discriminate Hb].
Qed.
End Sub.

Section Allowed.
Variable S : schema.
Variable W : wdoc.

(* a variable used where a value of type ut is expected must have a declared type that --
   made non-null when the variable has a default value -- is a subtype of ut *)
Definition Violates_variables_in_allowed_position_decl : Prop :=
  exists o u vd ut vt, In o (w_ops W) /\ UsedIn S W o u /\
    find_vardef (fst (snd u)) (wo_vars o) = Some vd /\ snd (snd u) = Some ut /\
    type_from_ast S (erase_type (wv_type vd)) = Some vt /\
    ~ Subtype S (effective_type vt vd) ut.

Theorem variables_in_allowed_position_decl_iff :
  rule_variables_in_allowed_position S W <> [] <-> Violates_variables_in_allowed_position_decl.
Proof.
  etransitivity; [apply variables_in_allowed_position_iff|].
  split; intros (o & u & vd & ut & vt & Ho & Hu & Ev & Eu & Et & Es); exists o, u, vd, ut, vt;
    (split; [exact Ho|]); (split; [apply rec_uses_iff; exact Hu|]); repeat (split; [assumption|]);
    apply (not_true_iff _ _ (subtype_iff S _ _)); exact Es.
Qed.
End Allowed.

Section Overlaps.
Variable S : schema.
Variable W : wdoc.

(* the object types a composite type can stand for at run time *)
Definition PossObj (t o : name) : Prop :=
  (is_object S t = true /\ o = t) \/ (is_abstract S t = true /\ possible_type S t o = true).
Definition Overlaps (t1 t2 : name) : Prop := t1 = t2 \/ exists o, PossObj t1 o /\ PossObj t2 o.

Lemma object_not_abstract : forall t, is_object S t = true -> is_abstract S t = false.
Proof. intros t H. unfold is_object, is_abstract in *. destruct (lookup_type S t) as [[| | | | |]|]; try discriminate; reflexivity. Qed.

Lemma possible_object : forall t o, is_abstract S t = true -> possible_type S t o = true -> is_object S o = true.
Proof.
  intros t o Ha H. unfold is_abstract, possible_type, is_object in *.
  destruct (lookup_type S t) as [[| | | | |]|]; try discriminate;
    destruct (lookup_type S o) as [[| | | | |]|]; try discriminate; reflexivity.
Qed.

Lemma object_names_in : forall o, is_object S o = true -> In o (object_names S).
Proof.
  intros o H. unfold is_object, lookup_type in H. destruct (alookup o (s_types S)) as [td|] eqn:E; [|discriminate].
  apply alookup_in in E. unfold object_names. apply in_flat_map. exists (o, td). split; [exact E|].
  destruct td; try discriminate. left. reflexivity.
Qed.

Theorem types_overlap_iff : forall t1 t2, types_overlap S t1 t2 = true <-> Overlaps t1 t2.
Proof.
  intros t1 t2. unfold types_overlap, Overlaps. destruct (String.eqb t1 t2) eqn:E.
  { apply String.eqb_eq in E. split; [left; exact E | reflexivity]. }
  apply String.eqb_neq in E.
  destruct (is_object S t1) eqn:O1.
  - pose proof (object_not_abstract t1 O1) as A1. destruct (is_object S t2) eqn:O2.
    + pose proof (object_not_abstract t2 O2) as A2. split; [discriminate|].
      intros [H|[o [[[_ H1]|[H1 _]] [[_ H2]|[H2 _]]]]]; try congruence.
    + destruct (is_abstract S t2) eqn:A2.
      * split.
        -- intro H. right. exists t1. split; [left; auto | right; auto].
        -- intros [H|[o [[[_ H1]|[H1 _]] [[H2 _]|[_ H2]]]]]; try congruence.
      * split; [discriminate|]. intros [H|[o [_ [[H2 _]|[H2 _]]]]]; congruence.
  - destruct (is_abstract S t1) eqn:A1.
    + destruct (is_object S t2) eqn:O2.
      * pose proof (object_not_abstract t2 O2) as A2. split.
        -- intro H. right. exists t2. split; [right; auto | left; auto].
        -- intros [H|[o [[[H1 _]|[_ H1]] [[_ H2]|[H2 _]]]]]; try congruence.
      * destruct (is_abstract S t2) eqn:A2.
        -- rewrite existsb_exists. split.
           ++ intros [o [_ H]]. apply andb_true_iff in H. destruct H as [H1 H2]. right. exists o. split; right; auto.
           ++ intros [H|[o [[[H1 _]|[_ H1]] [[H2 _]|[_ H2]]]]]; try congruence.
              exists o. split; [apply object_names_in; apply (possible_object t1 o A1 H1) | rewrite H1, H2; reflexivity].
        -- split; [discriminate|]. intros [H|[o [_ [[H2 _]|[H2 _]]]]]; congruence.
    + split; [discriminate|]. intros [H|[o [[[H1 _]|[H1 _]] _]]]; congruence.
Qed.

Definition bad_spread_decl (i : item) : Prop :=
  match i with
  | IInline (Some p) (Some t) _ _ => ~ Overlaps t p
  | ISpread (Some p) _ _ g =>
    exists f t, fragw W g = Some f /\ resolve S (wf_cond f) = Some t /\ ~ Overlaps t p
  | _ => False
  end.
Definition Violates_possible_fragment_spreads_decl : Prop := exists i, In i (doc_items S W) /\ bad_spread_decl i.

Theorem possible_fragment_spreads_decl_iff :
  rule_possible_fragment_spreads S W <> [] <-> Violates_possible_fragment_spreads_decl.
Proof.
  pose proof (fun t p => not_true_iff _ _ (types_overlap_iff t p)) as N.
  etransitivity; [apply possible_fragment_spreads_iff|].
  split; intros (i & Hi & H); exists i; (split; [exact Hi|]);
    destruct i as [|[p|] id nid g|[p|] [t|] id tc| | |]; try contradiction; try (apply N; exact H);
    destruct H as (f & t & H1 & H2 & H3); exists f, t; (split; [exact H1|]); (split; [exact H2 | apply N; exact H3]).
Qed.
End Overlaps.

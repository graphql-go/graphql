(* NoFragmentCycles: the DFS with visitedFrags / spreadPath / spreadPathIndexByName reports an
   error only if some fragment reaches itself through spreads, reports it at a spread of some
   fragment definition, and -- with unique fragment names -- reports every cycle. *)
From Coq Require Import List Lia String NArith Relations.
From GQL Require Import Exec.Syntax Validate.VSyntax Validate.Overlap Validate.Rules Proofs.ValidateRules.
Import ListNotations.
Open Scope string_scope.
Open Scope list_scope.

Section Cycles.
Variable W : wdoc.

(* g spreads h: some definition named g contains a spread of h (at any depth) *)
Definition edge (g h : name) : Prop :=
  exists f, In f (w_frags W) /\ wf_name f = g /\ In h (spread_names (wf_sel f)).
Definition reach : name -> name -> Prop := clos_trans name edge.
Definition Violates_no_fragment_cycles : Prop := exists g, reach g g.

Definition idx_inv (idx : list (name * nat)) (cur : name) : Prop :=
  forall n i, In (n, i) idx -> clos_refl_trans name edge n cur.

Definition no_new (st st' : cyc) : Prop := Violates_no_fragment_cycles \/ cy_errs st' = cy_errs st.

Lemma no_new_trans : forall a b c, no_new a b -> no_new b c -> no_new a c.
Proof.
  intros a b c [H|H] [H'|H']; try (left; assumption). right. congruence.
Qed.

Lemma fold_inv : forall {A B} (P : B -> Prop) (step : B -> A -> B) (l : list A),
  (forall st x, In x l -> P st -> P (step st x)) -> forall st, P st -> P (fold_left step l st).
Proof.
  intros A B P step l. induction l as [|x r IH]; intros H st Hs; simpl; [exact Hs|].
  apply IH; [intros st' y Hy; apply H; right; exact Hy | apply H; [left; reflexivity | exact Hs]].
Qed.

Lemma detect_sound : forall fuel f path idx st,
  In f (w_frags W) -> idx_inv idx (wf_name f) -> no_new st (detect W fuel f path idx st).
Proof.
  induction fuel as [|fu IH]; intros f path idx st Hf Hinv; cbn [detect]; [right; reflexivity|].
  destruct (ctx_spreads (wf_sel f)) as [|sp0 sps] eqn:Esp; [right; reflexivity|].
  apply (fold_inv (no_new st)); [|right; reflexivity].
  intros st' sp Hsp Hp. apply (no_new_trans _ _ _ Hp).
  assert (He : edge (wf_name f) (snd (snd sp))).
  { exists f. split; [exact Hf|]. split; [reflexivity|]. unfold spread_names. rewrite Esp.
    apply (in_map (fun p : N * (N * name) => snd (snd p))). exact Hsp. }
  assert (Hinv' : idx_inv ((wf_name f, List.length path) :: idx) (wf_name f)).
  { intros n i [[= <- _]|Hin]; [apply rt_refl | exact (Hinv n i Hin)]. }
  destruct (alookup (snd (snd sp)) ((wf_name f, List.length path) :: idx)) as [ci|] eqn:El.
  - (* a spread back onto the current path: a real cycle *)
    left. exists (snd (snd sp)). apply alookup_in in El.
    apply (clos_rt_t _ _ _ (wf_name f)); [exact (Hinv' _ _ El) | apply t_step, He].
  - destruct (nmem (snd (snd sp)) (cy_visited st')); [right; reflexivity|].
    destruct (fragw W (snd (snd sp))) as [sf|] eqn:Ef; [|right; reflexivity].
    destruct (fragw_some W _ _ Ef) as [Hsf Hname].
    apply IH; [exact Hsf|]. rewrite Hname. intros n i Hin.
    apply rt_trans with (wf_name f); [exact (Hinv' n i Hin) | apply rt_step, He].
Qed.

Theorem no_fragment_cycles_sound :
  rule_no_fragment_cycles W <> [] -> Violates_no_fragment_cycles.
Proof.
  unfold rule_no_fragment_cycles. intro H.
  match type of H with cy_errs ?r <> [] => assert (G : no_new {| cy_visited := []; cy_errs := [] |} r) end.
  { apply (fold_inv (no_new _)); [|right; reflexivity]. intros st f Hf Hp. apply (no_new_trans _ _ _ Hp).
    destruct (nmem (wf_name f) (cy_visited st)); [right; reflexivity|].
    apply detect_sound; [exact Hf | intros n i []]. }
  destruct G as [G|G]; [exact G | destruct H; rewrite G; reflexivity].
Qed.

Definition SpreadId (x : N) : Prop :=
  exists f, In f (w_frags W) /\ In x (map fst (ctx_spreads (wf_sel f))).

Lemma detect_located : forall fuel f path idx st,
  In f (w_frags W) -> (forall x, In x path -> SpreadId x) -> (forall x, In x (cy_errs st) -> SpreadId x) ->
  forall x, In x (cy_errs (detect W fuel f path idx st)) -> SpreadId x.
Proof.
  induction fuel as [|fu IH]; intros f path idx st Hf Hp He; [exact He|]. cbn [detect].
  destruct (ctx_spreads (wf_sel f)) as [|sp0 sps] eqn:Esp; [exact He|].
  apply (fold_inv (fun st' => forall x, In x (cy_errs st') -> SpreadId x)); [|exact He].
  intros st' sp Hsp He'.
  assert (Hid : SpreadId (fst sp)).
  { exists f. split; [exact Hf|]. rewrite Esp. apply in_map. exact Hsp. }
  destruct (alookup (snd (snd sp)) ((wf_name f, Datatypes.length path) :: idx)) as [ci|].
  - simpl. intros x Hx. apply in_app_or in Hx. destruct Hx as [Hx|[Hx|[]]]; [apply He'; exact Hx|]. subst x.
    destruct (skipn ci path) as [|y r] eqn:Es; [exact Hid|]. apply Hp.
    rewrite <- (firstn_skipn ci path), Es. apply in_or_app. right. left. reflexivity.
  - destruct (nmem (snd (snd sp)) (cy_visited st')); [exact He'|].
    destruct (fragw W (snd (snd sp))) as [sf|] eqn:Efw; [|exact He'].
    destruct (fragw_some W _ _ Efw) as [Hsf _]. apply IH; [exact Hsf | | exact He'].
    intros x Hx. apply in_app_or in Hx. destruct Hx as [Hx|[Hx|[]]]; [apply Hp; exact Hx | subst x; exact Hid].
Qed.

Theorem no_fragment_cycles_located : forall x, In x (rule_no_fragment_cycles W) -> SpreadId x.
Proof.
  intros x. unfold rule_no_fragment_cycles.
  apply (fold_inv (fun st' => forall x, In x (cy_errs st') -> SpreadId x)); [|intros y []].
  intros st f Hf He. destruct (nmem (wf_name f) (cy_visited st)); [exact He|].
  apply detect_located; [exact Hf | intros y [] | exact He].
Qed.
End Cycles.

(* Completeness.  Invariant (Good): while no error has been reported, every visited fragment
   that lies on a cycle is still on the current path.  A call on such a fragment cannot return
   without an error: its successor on the cycle is on the path (an error), or visited and off
   the path (excluded by the invariant), or entered by a call that cannot return without one. *)
Section Complete.
Variable W : wdoc.
Hypothesis names_nodup : NoDup (map wf_name (w_frags W)).
Notation names := (map wf_name (w_frags W)).
Notation edge := (edge W).
Notation reach := (reach W).
Definition Names (idx : list (name * nat)) : list name := map fst idx.

Lemma edge_defined : forall x y, edge x y -> In x names.
Proof. intros x y [f [Hf [Hn _]]]. subst x. apply in_map. exact Hf. Qed.

Lemma frag_unique : forall f f', In f (w_frags W) -> In f' (w_frags W) -> wf_name f = wf_name f' -> f = f'.
Proof.
  intros f f'. generalize names_nodup. generalize (w_frags W).
  induction l as [|x r IH]; simpl; intros ND Hf Hf' E; [destruct Hf|].
  apply NoDup_cons_iff in ND. destruct ND as [Hx ND].
  destruct Hf as [->|Hf], Hf' as [->|Hf']; [reflexivity | | | exact (IH ND Hf Hf' E)];
    destruct Hx; [rewrite E | rewrite <- E]; apply in_map; assumption.
Qed.

Definition on_cycle (x : name) : Prop := reach x x.

Lemma on_cycle_next : forall x, on_cycle x -> exists y, edge x y /\ on_cycle y.
Proof.
  intros x R. apply clos_trans_t1n in R. inversion R as [y H|y z H R']; subst.
  - exists x. split; [exact H | apply t_step, H].
  - exists y. split; [exact H|]. apply clos_t1n_trans in R'. apply (t_trans _ _ _ x); [exact R' | apply t_step, H].
Qed.

(* the count of unvisited definitions bounds the recursion depth *)
Definition unv (st : cyc) : nat := fresh names (cy_visited st).

Lemma unv_mono : forall st st', incl (cy_visited st) (cy_visited st') -> unv st' <= unv st.
Proof. intros st st'. apply fresh_mono. Qed.

Lemma unv_dec : forall st n, In n names -> ~ In n (cy_visited st) ->
  unv {| cy_visited := n :: cy_visited st; cy_errs := cy_errs st |} < unv st.
Proof. intros st n Hn Hv. apply (fresh_lt _ _ _ n); [apply incl_tl, incl_refl | exact Hn | exact Hv | left; reflexivity]. Qed.

Lemma unv_le : forall st, unv st <= List.length (w_frags W).
Proof. intro st. rewrite <- (map_length wf_name). apply fresh_le. Qed.

Definition Mono (st st' : cyc) : Prop :=
  (cy_errs st' = [] -> cy_errs st = []) /\ incl (cy_visited st) (cy_visited st').

Lemma Mono_refl : forall st, Mono st st.
Proof. intro st. split; [auto | apply incl_refl]. Qed.

Lemma Mono_trans : forall a b c, Mono a b -> Mono b c -> Mono a c.
Proof. intros a b c [E1 I1] [E2 I2]. split; [auto | eapply incl_tran; eauto]. Qed.

Definition Good (st : cyc) (P : list name) : Prop :=
  cy_errs st = [] -> forall x, on_cycle x -> In x (cy_visited st) -> In x P.

Lemma fold_Mono : forall {A} (Pre : cyc -> Prop) (Q : A -> cyc -> Prop) (step : cyc -> A -> cyc) l,
  (forall a st st', Mono st st' -> Q a st -> Q a st') ->
  (forall st a, In a l -> Pre st -> Mono st (step st a) /\ Pre (step st a) /\ Q a (step st a)) ->
  forall st, Pre st ->
    Mono st (fold_left step l st) /\ Pre (fold_left step l st) /\ forall a, In a l -> Q a (fold_left step l st).
Proof.
  intros A Pre Q step l Hq. induction l as [|a r IH]; intros Hstep st Hp; simpl.
  - split; [apply Mono_refl|]. split; [exact Hp | intros a []].
  - destruct (Hstep st a (or_introl eq_refl) Hp) as (M1 & P1 & Q1).
    destruct (IH (fun st' a' Ha' => Hstep st' a' (or_intror Ha')) _ P1) as (M2 & P2 & Q2).
    split; [exact (Mono_trans _ _ _ M1 M2)|]. split; [exact P2|].
    intros a' [<-|Ha']; [exact (Hq a _ _ M2 Q1) | exact (Q2 a' Ha')].
Qed.

Lemma detect_good : forall fuel f path idx st,
  In f (w_frags W) -> ~ In (wf_name f) (cy_visited st) -> unv st < fuel -> Good st (Names idx) ->
  Mono st (detect W fuel f path idx st) /\ In (wf_name f) (cy_visited (detect W fuel f path idx st)) /\
  Good (detect W fuel f path idx st) (Names idx).
Proof.
  induction fuel as [|fu IH]; intros f path idx st Hf Hnv Hfu HG; [lia|]. cbn [detect].
  set (n := wf_name f).
  set (st1 := {| cy_visited := n :: cy_visited st; cy_errs := cy_errs st |}).
  set (B := n :: Names idx).
  assert (Hn : In n names) by (apply in_map; exact Hf).
  assert (U1 : unv st1 < fu) by (pose proof (unv_dec st n Hn Hnv); unfold st1; lia).
  assert (M1 : Mono st st1) by (split; [auto | apply incl_tl, incl_refl]).
  assert (G1 : Good st1 B).
  { intros Hc x Cx [<-|Hx]; [left; reflexivity | right; exact (HG Hc x Cx Hx)]. }
  assert (Finish : forall st', Mono st1 st' -> Good st' B ->
            (cy_errs st' = [] -> forall y, In y (spread_names (wf_sel f)) -> ~ on_cycle y) ->
            Mono st st' /\ In n (cy_visited st') /\ Good st' (Names idx)).
  { intros st' M GB HS. split; [exact (Mono_trans _ _ _ M1 M)|]. split; [apply M; left; reflexivity|].
    intros Hc x Cx Hx. destruct (GB Hc x Cx Hx) as [<-|Hp]; [|exact Hp].
    (* n itself: its successor on the cycle is one of the spreads of f *)
    destruct (on_cycle_next n Cx) as (y & (f' & Hf' & En & Hy) & Cy).
    rewrite <- (frag_unique f f' Hf Hf' (eq_sym En)) in Hy. destruct (HS Hc y Hy Cy). }
  destruct (ctx_spreads (wf_sel f)) as [|sp0 sps] eqn:Esp.
  { apply Finish; [apply Mono_refl | exact G1 | intros _ y Hy]. unfold spread_names in Hy. rewrite Esp in Hy. destruct Hy. }
  match goal with |- context [fold_left ?stp ?l ?s0] => set (step := stp); set (sprs := l) end.
  destruct (fold_Mono (fun st_a => unv st_a < fu /\ Good st_a B)
                      (fun sp st_a => cy_errs st_a = [] -> ~ on_cycle (snd (snd sp))) step sprs) with (st := st1)
    as (M & [_ GB] & HQ).
  - intros sp st_a st_b [Me _] H Hc. exact (H (Me Hc)).
  - intros st_a sp _ [Ua Ga]. set (g := snd (snd sp)). unfold step. fold g.
    change ((wf_name f, Datatypes.length path) :: idx) with ((n, Datatypes.length path) :: idx).
    destruct (alookup g ((n, Datatypes.length path) :: idx)) as [ci|] eqn:El.
    + (* an error is reported: nothing more is claimed *)
      assert (N : forall l (x : N), l ++ [x] = [] -> False) by (intros l x K; exact (app_cons_not_nil _ _ _ (eq_sym K))).
      split; [split; [|apply incl_refl]|split; [split; [exact Ua|]|]]; simpl; intro K; destruct (N _ _ K).
    + apply alookup_none in El. simpl in El.
      destruct (nmem g (cy_visited st_a)) eqn:Ev.
      * split; [apply Mono_refl|]. split; [split; assumption|]. intros Hc Cg. apply El, (Ga Hc g Cg), nmem_in, Ev.
      * apply nmem_not_in in Ev. destruct (fragw W g) as [sf|] eqn:Efw.
        -- destruct (fragw_some W g sf Efw) as [Hsf Hname].
           destruct (IH sf (path ++ [fst sp]) ((n, Datatypes.length path) :: idx) st_a Hsf
                        ltac:(rewrite Hname; exact Ev) Ua Ga) as (Mb & Vb & Gb).
           rewrite Hname in Vb. split; [exact Mb|].
           split; [split; [pose proof (unv_mono _ _ (proj2 Mb)); lia | exact Gb]|].
           intros Hc Cg. apply El, (Gb Hc g Cg Vb).
        -- split; [apply Mono_refl|]. split; [split; assumption|]. intros _ Cg.
           destruct (on_cycle_next g Cg) as (y & Hy & _). apply fragw_none in Efw. apply Efw, (edge_defined g y Hy).
  - split; [exact U1 | exact G1].
  - apply Finish; [exact M | exact GB|]. intros Hc y Hy Cy. unfold spread_names in Hy. rewrite Esp in Hy.
    apply in_map_iff in Hy. destruct Hy as (sp & <- & Hsp). exact (HQ sp Hsp Hc Cy).
Qed.

Theorem no_fragment_cycles_complete :
  Violates_no_fragment_cycles W -> rule_no_fragment_cycles W <> [].
Proof.
  intros [g Rg] Hnil. unfold rule_no_fragment_cycles in Hnil.
  set (step := fun st f => if nmem (wf_name f) (cy_visited st) then st
                           else detect W (Datatypes.S (List.length (w_frags W))) f [] [] st) in Hnil.
  set (st0 := {| cy_visited := []; cy_errs := [] |}) in *.
  destruct (fold_Mono (fun st => Good st []) (fun f st => In (wf_name f) (cy_visited st)) step (w_frags W))
    with (st := st0) as (_ & G & HV).
  - intros f st st' [_ Hi] H. exact (Hi _ H).
  - intros st f Hf HG. unfold step. destruct (nmem (wf_name f) (cy_visited st)) eqn:Ev.
    + split; [apply Mono_refl|]. split; [exact HG | apply nmem_in, Ev].
    + apply nmem_not_in in Ev.
      destruct (detect_good (Datatypes.S (List.length (w_frags W))) f [] [] st Hf Ev
                            ltac:(pose proof (unv_le st); lia) HG) as (M & V & G).
      split; [exact M|]. split; [exact G | exact V].
  - intros _ x _ [].
  - destruct (on_cycle_next g Rg) as (y & Hy & _). pose proof (edge_defined g y Hy) as Hd.
    apply in_map_iff in Hd. destruct Hd as (f & <- & Hf). exact (G Hnil _ Rg (HV f Hf)).
Qed.

Theorem no_fragment_cycles_iff :
  rule_no_fragment_cycles W <> [] <-> Violates_no_fragment_cycles W.
Proof. split; [apply no_fragment_cycles_sound | apply no_fragment_cycles_complete]. Qed.

End Complete.

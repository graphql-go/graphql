(* Proofs about Conc/Locks.v: the lockset discipline excludes races, the lock order excludes
   deadlock, and idempotent lazy initialisation gives every request its sequential results. *)
From Coq Require Import List Arith Bool Lia.
From GQL Require Import Conc.Locks.
Import ListNotations.

Lemma set_nth_spec : forall A (l : list A) i x j y, nth_error (set_nth i x l) j = Some y ->
  (j = i /\ y = x) \/ (j <> i /\ nth_error l j = Some y).
Proof.
  induction l as [|a l IH]; intros [|i] x [|j] y H; cbn in H; try discriminate H.
  - injection H as <-. left. split; reflexivity.
  - right. split; [discriminate|exact H].
  - right. split; [discriminate|exact H].
  - destruct (IH i x j y H) as [(-> & ->)|(N & E)]; [left; split; reflexivity|right; split; [congruence|exact E]].
Qed.

Lemma map_set_nth_same : forall A B (f : A -> B) (l : list A) i x t,
  nth_error l i = Some t -> f x = f t -> map f (set_nth i x l) = map f l.
Proof.
  induction l as [|a l IH]; intros [|i] x t H E; cbn in *; try discriminate H.
  - injection H as ->. rewrite E. reflexivity.
  - rewrite (IH i x t H E). reflexivity.
Qed.

Lemma mem_nat_true : forall x l, mem_nat x l = true <-> In x l.
Proof.
  intros x l. unfold mem_nat. rewrite existsb_exists. split.
  - intros (y & I & E). apply Nat.eqb_eq in E. subst. exact I.
  - intros I. exists x. split; [exact I|apply Nat.eqb_refl].
Qed.

Lemma remove_nat_incl : forall x y l, In y (remove_nat x l) -> In y l.
Proof.
  induction l as [|z l IH]; cbn; intros H; [exact H|].
  destruct (Nat.eqb x z); [right; exact H|]. destruct H as [H|H]; [left; exact H|right; apply IH; exact H].
Qed.

Lemma reach_invariant : forall (P : cfg -> Prop) c0,
  P c0 -> (forall c i c', P c -> step c i = Some c' -> P c') -> forall c, reach c0 c -> P c.
Proof. intros P c0 H0 HS c R. induction R as [|c i c' _ IH Hs]; [exact H0|exact (HS _ _ _ IH Hs)]. Qed.

Lemma run_sched_reach : forall sched c0 c, reach c0 c -> reach c0 (run_sched c sched).
Proof.
  induction sched as [|i r IH]; intros c0 c R; cbn; [exact R|].
  destruct (step c i) as [c'|] eqn:E; [apply IH; eapply reach_step; eauto|apply IH; exact R].
Qed.

Lemma step_set_nth : forall c i c', step c i = Some c' ->
  exists t t', nth_error c i = Some t /\ thread_step c t = Some t' /\ c' = set_nth i t' c.
Proof.
  intros c i c' H. unfold step in H. destruct (nth_error c i) as [t|]; [|discriminate H].
  destruct (thread_step c t) as [t'|] eqn:Et; [|discriminate H]. injection H as <-. exists t, t'. auto.
Qed.

Lemma threads_invariant : forall (ok : list nat -> list action -> bool),
  (forall c t t', thread_step c t = Some t' -> ok (fst t) (snd t) = true -> ok (fst t') (snd t') = true) ->
  forall progs, forallb (ok []) progs = true ->
  forall c, reach (init_cfg progs) c -> Forall (fun t => ok (fst t) (snd t) = true) c.
Proof.
  intros ok HS progs W. apply reach_invariant.
  - apply Forall_forall. intros t It. apply in_map_iff in It. destruct It as (p & <- & Ip).
    exact (proj1 (forallb_forall _ _) W p Ip).
  - intros c i c' F H. destruct (step_set_nth _ _ _ H) as (t & t' & Ei & Et & ->). rewrite Forall_forall in *.
    intros u Iu. apply In_nth_error in Iu. destruct Iu as (j & Ej).
    destruct (set_nth_spec _ _ _ _ _ _ Ej) as [(_ & ->)|(_ & E)].
    + exact (HS _ _ _ Et (F _ (nth_error_In _ _ Ei))).
    + exact (F _ (nth_error_In _ _ E)).
Qed.

Lemma thread_moves : forall c t t', In t c -> thread_step c t = Some t' -> can_move c.
Proof.
  intros c t t' It Et. destruct (In_nth_error _ _ It) as (i & Ei). exists i. unfold step. rewrite Ei, Et. eexists. reflexivity.
Qed.

Lemma held_by_someone_false : forall m c t, held_by_someone m c = false -> In t c -> ~ In m (fst t).
Proof.
  intros m c t H It Im. enough (held_by_someone m c = true) by congruence.
  apply existsb_exists. exists t. split; [exact It|apply mem_nat_true; exact Im].
Qed.

Lemma thread_step_held : forall c t t' x, thread_step c t = Some t' -> In x (fst t') ->
  In x (fst t) \/ held_by_someone x c = false.
Proof.
  intros c [h [|[m|m|l|l] r]] t' x H; cbn in H; try discriminate H.
  - destruct (held_by_someone m c) eqn:E; [discriminate H|]. injection H as <-. intros [<-|X]; [right; exact E|left; exact X].
  - destruct (mem_nat m h); [|discriminate H]. injection H as <-. intros X. left. exact (remove_nat_incl _ _ _ X).
  - injection H as <-. auto.
  - injection H as <-. auto.
Qed.

(* No mutex is held by two threads: a fact about the semantics, whatever the programs. *)
Definition excl (c : cfg) : Prop := forall i j ti tj m,
  nth_error c i = Some ti -> nth_error c j = Some tj -> In m (fst ti) -> In m (fst tj) -> i = j.

Lemma excl_reach : forall progs c, reach (init_cfg progs) c -> excl c.
Proof.
  intros progs. apply reach_invariant.
  - intros i j ti tj m Hi _ Hm. unfold init_cfg in Hi. rewrite nth_error_map in Hi.
    destruct (nth_error progs i); [|discriminate Hi]. injection Hi as <-. destruct Hm.
  - intros c i c' I H. destruct (step_set_nth _ _ _ H) as (t & t' & Ei & Et & ->).
    (* a thread of c holding a mutex that the moved thread holds afterwards is that thread *)
    assert (K : forall b tb m, nth_error c b = Some tb -> In m (fst t') -> In m (fst tb) -> b = i).
    { intros b tb m Hb Hm Hm'. destruct (thread_step_held _ _ _ _ Et Hm) as [X|X].
      - exact (I b i tb t m Hb Ei Hm' X).
      - destruct (held_by_someone_false _ _ _ X (nth_error_In _ _ Hb) Hm'). }
    intros a b ta tb m Ha Hb Hma Hmb.
    destruct (set_nth_spec _ _ _ _ _ _ Ha) as [(-> & ->)|(_ & Ea)];
      destruct (set_nth_spec _ _ _ _ _ _ Hb) as [(-> & ->)|(_ & Eb)].
    + reflexivity.
    + symmetry. exact (K b tb m Eb Hma Hmb).
    + exact (K a ta m Ea Hmb Hma).
    + exact (I a b ta tb m Ea Eb Hma Hmb).
Qed.

(* What the lockset scan and the lock-order scan share: a walk that threads the held set through a
   program; an operation is closed when it starts and ends holding nothing. *)
Section Scanner.
Variable f : list nat -> list action -> option (list nat).
Hypothesis f_app : forall a h b, f h (a ++ b) = match f h a with Some h' => f h' b | None => None end.
Hypothesis f_nil : f [] [] = Some [].

Definition closed (p : list action) : bool := match f [] p with Some [] => true | _ => false end.

Lemma closed_concat : forall ops, forallb closed ops = true -> closed (concat ops) = true.
Proof.
  unfold closed. induction ops as [|o ops IH]; cbn; intros H; [rewrite f_nil; reflexivity|].
  apply andb_true_iff in H. destruct H as (H1 & H2). rewrite f_app.
  destruct (f [] o) as [[|x h]|]; try discriminate H1. exact (IH H2).
Qed.

Lemma closed_lib_progs : forallb closed lib_ops = true ->
  forall reqs p, In p (map prog_of_ids reqs) -> closed p = true.
Proof.
  intros T reqs p Hp. apply in_map_iff in Hp. destruct Hp as (ks & <- & _).
  unfold prog_of_ids. rewrite flat_map_concat_map. apply closed_concat, forallb_forall.
  intros o Io. apply in_map_iff in Io. destruct Io as (k & <- & _). unfold op_of_id.
  destruct (nth_in_or_default k lib_ops []) as [I| ->]; [exact (proj1 (forallb_forall _ _) T _ I)|].
  unfold closed. rewrite f_nil. reflexivity.
Qed.
End Scanner.

Section Lockset.
Variable guard : nat -> option nat.
Notation scan := (scan guard).
Notation scans := (scans guard).

Lemma scan_app : forall a h b, scan h (a ++ b) = match scan h a with Some h' => scan h' b | None => None end.
Proof.
  induction a as [|x a IH]; intros h b; cbn; [reflexivity|].
  destruct x; cbn.
  - destruct (mem_nat m h); [reflexivity|apply IH].
  - destruct (mem_nat m h); [apply IH|reflexivity].
  - destruct (match guard l with Some m => mem_nat m h | None => true end); [apply IH|reflexivity].
  - destruct (match guard l with Some m => mem_nat m h | None => false end); [apply IH|reflexivity].
Qed.

Lemma op_ok_scans : forall p, op_ok guard p = true -> scans [] p = true.
Proof. intros p. unfold op_ok, Locks.scans. destruct (Locks.scan guard [] p) as [[|]|]; auto. Qed.

Lemma scans_step : forall c t t', thread_step c t = Some t' ->
  scans (fst t) (snd t) = true -> scans (fst t') (snd t') = true.
Proof.
  intros c [h [|[m|m|l|l] r]] t' H S; unfold Locks.scans in *; cbn [thread_step] in H; cbn [fst snd Locks.scan] in S; try discriminate H.
  - destruct (held_by_someone m c); [discriminate H|]. injection H as <-. destruct (mem_nat m h); [discriminate S|exact S].
  - destruct (mem_nat m h); [|discriminate H]. injection H as <-. exact S.
  - injection H as <-. destruct (access_ok guard h (Rd l)); [exact S|discriminate S].
  - injection H as <-. destruct (access_ok guard h (Wr l)); [exact S|discriminate S].
Qed.

Lemma next_access_guarded : forall t l w, scans (fst t) (snd t) = true -> next_access t = Some (l, w) ->
  match guard l with Some m => In m (fst t) | None => w = false end.
Proof.
  intros [h p] l w S N. cbn [fst snd] in *. unfold next_access in N. cbn [snd] in N. unfold Locks.scans in S.
  destruct p as [|a r]; [discriminate|]. destruct a as [m|m|l0|l0]; try discriminate; inversion N; subst; cbn [Locks.scan access_ok] in S.
  - destruct (guard l) as [m|]; [|reflexivity]. destruct (mem_nat m h) eqn:E; [apply mem_nat_true; exact E|discriminate].
  - destruct (guard l) as [m|]; [|discriminate]. destruct (mem_nat m h) eqn:E; [apply mem_nat_true; exact E|discriminate].
Qed.

Theorem lockset_race_free : forall progs, well_guarded guard progs = true ->
  forall c, reach (init_cfg progs) c -> ~ race c.
Proof.
  intros progs W c R (i & j & ti & tj & l & wi & wj & Nij & Hi & Hj & Ai & Aj & Wr).
  pose proof (threads_invariant _ scans_step progs W c R) as I. rewrite Forall_forall in I.
  pose proof (next_access_guarded ti l wi (I ti (nth_error_In _ _ Hi)) Ai) as Gi.
  pose proof (next_access_guarded tj l wj (I tj (nth_error_In _ _ Hj)) Aj) as Gj.
  destruct (guard l) as [m|].
  - exact (Nij (excl_reach progs c R i j ti tj m Hi Hj Gi Gj)).
  - destruct Wr; congruence.
Qed.

Theorem lockset_race_free_sched : forall progs sched, well_guarded guard progs = true ->
  ~ race (run_sched (init_cfg progs) sched).
Proof.
  intros progs sched W. eapply lockset_race_free; [exact W|]. apply run_sched_reach. apply reach_refl.
Qed.

Theorem lockset_race_free_ops : forall (table : list (list action)) (reqs : list (list (list action))),
  forallb (op_ok guard) table = true ->
  (forall r o, In r reqs -> In o r -> In o table) ->
  forall sched, ~ race (run_sched (init_cfg (map (@concat action) reqs)) sched).
Proof.
  intros table reqs T Hin sched. apply lockset_race_free_sched, forallb_forall.
  intros p Hp. apply in_map_iff in Hp. destruct Hp as (r & <- & Ir).
  apply op_ok_scans, (closed_concat scan scan_app eq_refl), forallb_forall.
  intros o Io. exact (proj1 (forallb_forall _ _) T o (Hin r o Ir Io)).
Qed.
End Lockset.

Section Lazy.
Variable V : Type.
Variable init_value : nat -> V.
Notation do_lop := (do_lop V init_value).
Notation lrun := (lrun V init_value).
Notation run_alone := (run_alone V init_value).

Definition good (m : lmem V) : Prop := forall s, m s = None \/ m s = Some (init_value s).
Definition pure_out (o : lop) : list V := match o with Get s => [init_value s] | Reset _ => [] end.

Lemma good_empty : good (empty_lmem V).
Proof. intros s. left. reflexivity. Qed.

Lemma do_lop_good : forall m o, good m -> good (fst (do_lop m o)) /\ snd (do_lop m o) = pure_out o.
Proof.
  intros m o G. destruct o as [s|s]; cbn.
  - destruct (G s) as [E|E]; rewrite E; cbn.
    + split; [|reflexivity]. intros x. unfold lmem_set. destruct (Nat.eqb x s) eqn:X; [apply Nat.eqb_eq in X; subst; right; reflexivity|apply G].
    + split; [exact G|reflexivity].
  - split; [|reflexivity]. intros x. unfold lmem_set. destruct (Nat.eqb x s); [left; reflexivity|apply G].
Qed.

Lemma run_alone_good : forall p m, good m -> run_alone m p = flat_map pure_out p.
Proof.
  induction p as [|o p IH]; intros m G; cbn; [reflexivity|].
  destruct (do_lop_good m o G) as (G' & E). destruct (do_lop m o) as [m' out]. cbn in *. rewrite E, (IH m' G'). reflexivity.
Qed.

(* what a request has returned so far, followed by what the rest of it returns from a good memory *)
Definition linv (reqs : list (list lop)) (c : list (lthread V)) : Prop :=
  map (fun t => fst t ++ flat_map pure_out (snd t)) c = map (flat_map pure_out) reqs.

Lemma lrun_inv : forall reqs sched m c, good m -> linv reqs c ->
  good (fst (lrun m c sched)) /\ linv reqs (snd (lrun m c sched)).
Proof.
  intros reqs. induction sched as [|i r IH]; intros m c G L; cbn; [tauto|].
  unfold lstep. destruct (nth_error c i) as [[res [|o rest]]|] eqn:E; try (apply IH; assumption).
  destruct (do_lop_good m o G) as (G' & Eo). destruct (do_lop m o) as [m' out]. cbn in G', Eo.
  apply IH; [exact G'|]. unfold linv. rewrite (map_set_nth_same _ _ _ _ _ _ _ E); [exact L|].
  cbn. rewrite Eo, <- app_assoc. reflexivity.
Qed.

Theorem results_sequential : forall reqs sched,
  let mc := lrun (empty_lmem V) (linit V reqs) sched in
  good (fst mc) /\
  (finished V (snd mc) -> map fst (snd mc) = map (run_alone (empty_lmem V)) reqs).
Proof.
  intros reqs sched. cbv zeta.
  destruct (lrun_inv reqs sched (empty_lmem V) (linit V reqs) good_empty) as (G & L).
  { unfold linv, linit. rewrite map_map. reflexivity. }
  split; [exact G|]. intros Fin.
  transitivity (map (flat_map pure_out) reqs).
  - rewrite <- L. apply map_ext_in. intros t It. rewrite (Fin t It). symmetry. apply app_nil_r.
  - apply map_ext. intros p. symmetry. apply run_alone_good, good_empty.
Qed.
End Lazy.

Lemma lib_ops_ok : forallb (op_ok lib_guard) lib_ops = true.
Proof. vm_compute. reflexivity. Qed.

Theorem library_race_free : forall (reqs : list (list nat)) sched,
  ~ race (run_sched (init_cfg (map prog_of_ids reqs)) sched).
Proof.
  intros reqs sched. apply (lockset_race_free_sched lib_guard), forallb_forall. intros p Hp.
  exact (op_ok_scans _ p (closed_lib_progs _ (scan_app lib_guard) eq_refl lib_ops_ok reqs p Hp)).
Qed.

(* the pre-repair / mutant versions of four operations: the scan rejects them and two goroutines
   running one of them reach a race *)
Definition old_ops : list (list action) :=
  [op_enum_serialize_lazy; op_is_possible_type_lazy; op_abstract_alternative_nomutex; op_cache_reset_nolock].

Theorem old_ops_rejected : forallb (fun o => negb (op_ok lib_guard o)) old_ops = true.
Proof. vm_compute. reflexivity. Qed.

Theorem old_ops_race : forall o, In o old_ops -> exists sched, race (run_sched (init_cfg [o; o]) sched).
Proof.
  intros o I. cbn in I. destruct I as [E|[E|[E|[E|[]]]]]; subst o.
  - exists [0]. exists 0, 1. eexists _, _, L_enum_values, true, false. cbn. repeat split; auto; discriminate.
  - exists [0]. exists 0, 1. eexists _, _, L_possible, true, false. cbn. repeat split; auto; discriminate.
  - exists [0; 0; 0; 0; 0]. exists 0, 1. eexists _, _, L_alternatives, true, false. cbn. repeat split; auto; discriminate.
  - exists []. exists 0, 1. eexists _, _, L_cache_entries, true, true. cbn. repeat split; auto; discriminate.
Qed.

Section Order.
Variable rank : nat -> nat.
Notation oscan := (oscan rank).
Notation ordered := (ordered rank).

Lemma oscan_app : forall a h b, oscan h (a ++ b) = match oscan h a with Some h' => oscan h' b | None => None end.
Proof.
  induction a as [|x a IH]; intros h b; [reflexivity|]. destruct x; cbn [Locks.oscan app].
  - destruct (forallb (fun x => rank x <? rank m) h); [apply IH|reflexivity].
  - destruct (mem_nat m h); [apply IH|reflexivity].
  - apply IH.
  - apply IH.
Qed.

Lemma ordered_step : forall c t t', thread_step c t = Some t' ->
  ordered (fst t) (snd t) = true -> ordered (fst t') (snd t') = true.
Proof.
  intros c [h [|[m|m|l|l] r]] t' H O; unfold Locks.ordered in *; cbn [thread_step] in H; cbn [fst snd Locks.oscan] in O; try discriminate H.
  - destruct (held_by_someone m c); [discriminate H|]. injection H as <-.
    destruct (forallb (fun x => rank x <? rank m) h); [exact O|discriminate O].
  - destruct (mem_nat m h); [|discriminate H]. injection H as <-. exact O.
  - injection H as <-. exact O.
  - injection H as <-. exact O.
Qed.

Lemma stuck_thread : forall c t, ordered (fst t) (snd t) = true -> snd t <> [] -> thread_step c t = None ->
  exists m r, snd t = Acq m :: r /\ held_by_someone m c = true /\ forall x, In x (fst t) -> rank x < rank m.
Proof.
  intros c [h p] O N S. cbn [fst snd] in *. unfold Locks.ordered in O. destruct p as [|a r]; [congruence|].
  cbn [Locks.oscan] in O. unfold thread_step in S. destruct a as [m|m|l|l]; try discriminate S.
  - exists m, r. split; [reflexivity|]. destruct (held_by_someone m c); [|discriminate S]. split; [reflexivity|].
    destruct (forallb (fun x => rank x <? rank m) h) eqn:F; [|discriminate O].
    intros x Ix. rewrite forallb_forall in F. apply Nat.ltb_lt. apply F. exact Ix.
  - destruct (mem_nat m h); [discriminate S|discriminate O].
Qed.

Lemma finished_holds_nothing : forall t, ordered (fst t) (snd t) = true -> snd t = [] -> fst t = [].
Proof. intros [h p] O E. cbn [fst snd] in *. subst p. unfold Locks.ordered in O. cbn in O. destruct h; [reflexivity|discriminate]. Qed.

Definition wait_rank (t : thread) : nat := match snd t with Acq m :: _ => rank m | _ => 0 end.

Theorem ordered_no_deadlock : forall c, Forall (fun t => ordered (fst t) (snd t) = true) c -> unfinished c -> can_move c.
Proof.
  intros c I (i0 & t0 & E0 & N0). rewrite Forall_forall in I.
  set (M := list_max (map wait_rank c)).
  assert (HM : forall t, In t c -> wait_rank t <= M).
  { intros t It. exact (proj1 (Forall_forall _ _) (proj1 (list_max_le _ M) (le_n M)) _ (in_map wait_rank _ _ It)). }
  (* the holder of the mutex a blocked thread waits for moves, or is blocked on a mutex of larger rank *)
  assert (D : forall d t, In t c -> snd t <> [] -> thread_step c t = None -> M - wait_rank t < d -> can_move c).
  { induction d as [|d IH]; intros t It Nt Et Hd; [lia|].
    destruct (stuck_thread c t (I t It) Nt Et) as (m & r & P & Hm & _).
    apply existsb_exists in Hm. destruct Hm as (tj & Ij & Mj). apply mem_nat_true in Mj.
    assert (Nj : snd tj <> []) by (intros Ej; rewrite (finished_holds_nothing tj (I tj Ij) Ej) in Mj; exact Mj).
    destruct (thread_step c tj) as [tj'|] eqn:Etj; [exact (thread_moves c tj tj' Ij Etj)|].
    apply (IH tj Ij Nj Etj). destruct (stuck_thread c tj (I tj Ij) Nj Etj) as (mj & rj & Pj & _ & Lj).
    specialize (Lj m Mj). pose proof (HM tj Ij) as B. unfold wait_rank in *. rewrite P in Hd. rewrite Pj in *. lia. }
  pose proof (nth_error_In _ _ E0) as I0.
  destruct (thread_step c t0) as [t0'|] eqn:Et0; [exact (thread_moves c t0 t0' I0 Et0)|].
  exact (D _ t0 I0 N0 Et0 (Nat.lt_succ_diag_r _)).
Qed.

Theorem lock_order_deadlock_free : forall progs, well_ordered rank progs = true ->
  forall c, reach (init_cfg progs) c -> unfinished c -> can_move c.
Proof. intros progs W c R. exact (ordered_no_deadlock c (threads_invariant _ ordered_step progs W c R)). Qed.
End Order.

Lemma lib_ops_ordered : forallb (ordered lib_rank []) lib_ops = true.
Proof. vm_compute. reflexivity. Qed.

Theorem library_deadlock_free : forall (reqs : list (list nat)) c,
  reach (init_cfg (map prog_of_ids reqs)) c -> unfinished c -> can_move c.
Proof.
  intros reqs c. apply (lock_order_deadlock_free lib_rank), forallb_forall.
  exact (closed_lib_progs _ (oscan_app lib_rank) eq_refl lib_ops_ordered reqs).
Qed.

Theorem inverted_order_deadlocks :
  exists c, reach (init_cfg [[Acq 0; Acq 1; Rel 1; Rel 0]; [Acq 1; Acq 0; Rel 0; Rel 1]]) c /\ unfinished c /\ ~ can_move c.
Proof.
  exists (run_sched (init_cfg [[Acq 0; Acq 1; Rel 1; Rel 0]; [Acq 1; Acq 0; Rel 0; Rel 1]]) [0; 1]).
  split; [|split].
  - apply run_sched_reach, reach_refl.
  - exists 0. eexists. cbn. split; [reflexivity|discriminate].
  - intros (i & c' & H). destruct i as [|[|[|i]]]; vm_compute in H; discriminate H.
Qed.

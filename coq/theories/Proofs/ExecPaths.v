(* C20 / C18: paths recorded by the executor (Exec/Exec.v).
   (A) every response under construction is "positioned": a deferred value (thunk) records as its
       path the position it occupies, objects have distinct keys;
   (B) the paths of the resolver invocations of a request are pairwise distinct (C20: every
       selected field of every object value is resolved at most once);
   (C) every error path addresses a null of the response, at the path or at one of its
       prefixes (C18).
   Each part is one induction on the derivations of Proofs/ExecInv.v (Run_ind); the later
   parts use the earlier ones, and run_inv, on the sub-derivations. *)
From Coq Require Import List ZArith NArith String Bool Lia.
From GQL Require Import Exec.Syntax Exec.Coerce Exec.Exec Exec.Request
     Proofs.ExecField Proofs.ExecInv Proofs.CollectProofs Run.ExecRun.
Import ListNotations.
Open Scope string_scope.
Open Scope list_scope.

Definition sprefix (p q : path) : Prop := exists x r, q = p ++ x :: r.

Lemma sprefix_prefix : forall p q, sprefix p q -> prefix p q.
Proof. intros p q [x [r ->]]. exists (x :: r). reflexivity. Qed.

Lemma sprefix_irrefl : forall p, ~ sprefix p p.
Proof.
  intros p [x [r H]]. apply (f_equal (@List.length pseg)) in H.
  rewrite app_length in H. cbn [List.length] in H. lia.
Qed.

Lemma prefix_sprefix : forall p q r, prefix p q -> sprefix q r -> sprefix p r.
Proof.
  intros p q r [a ->] [x [b ->]]. destruct a as [|y a].
  - exists x, b. rewrite app_nil_r. reflexivity.
  - exists y, (a ++ x :: b). rewrite <- app_assoc. reflexivity.
Qed.

Lemma sprefix_prefix_trans : forall p q r, sprefix p q -> prefix q r -> sprefix p r.
Proof. intros p q r [x [a ->]] [b ->]. exists x, (a ++ b). rewrite <- app_assoc. reflexivity. Qed.

Lemma snoc_prefix_sprefix : forall p x q, prefix (p ++ [x]) q -> sprefix p q.
Proof. intros p x q [r ->]. exists x, r. rewrite <- app_assoc. reflexivity. Qed.

(* two different children of p have no common extension *)
Lemma snoc_apart : forall p (a b : pseg) x, prefix (p ++ [a]) x -> prefix (p ++ [b]) x -> a = b.
Proof.
  intros p a b x [r ->] [r' H]. rewrite <- !app_assoc in H. apply app_inv_head in H.
  cbn in H. inversion H. reflexivity.
Qed.

Lemma NoDup_app_intro : forall (A : Type) (l1 l2 : list A),
  NoDup l1 -> NoDup l2 -> (forall x, In x l1 -> In x l2 -> False) -> NoDup (l1 ++ l2).
Proof.
  intros A l1 l2 H1 H2 Hd. induction H1 as [|x l1 Hx H1 IH]; [exact H2|].
  cbn [app]. constructor.
  - intro Hin. apply in_app_or in Hin. destruct Hin as [Hin|Hin]; [exact (Hx Hin)|].
    exact (Hd x (or_introl eq_refl) Hin).
  - apply IH. intros y Hy1 Hy2. exact (Hd y (or_intror Hy1) Hy2).
Qed.

Inductive Pos : path -> presp -> Prop :=
| Pos_null b : Pos b QNull
| Pos_leaf b v : Pos b (QLeaf v)
| Pos_list b l : PosL b 0%N l -> Pos b (QList l)
| Pos_obj b l : NoDup (map fst l) -> PosF b l -> Pos b (QObj l)
| Pos_thunk b t nodes occs o : is_nonnull t = false -> Pos b (QThunk t nodes occs b o)
with PosL : path -> N -> list presp -> Prop :=
| PosL_nil b i : PosL b i []
| PosL_cons b i y l : Pos (b ++ [PIdx i]) y -> PosL b (i + 1)%N l -> PosL b i (y :: l)
with PosF : path -> list (name * presp) -> Prop :=
| PosF_nil b : PosF b []
| PosF_cons b k y l : Pos (b ++ [PKey k]) y -> PosF b l -> PosF b ((k, y) :: l).

Scheme Pos_mut := Minimality for Pos Sort Prop
  with PosL_mut := Minimality for PosL Sort Prop
  with PosF_mut := Minimality for PosF Sort Prop.
Combined Scheme Pos_mutind from Pos_mut, PosL_mut, PosF_mut.

Lemma Pos_thunks_ok_all :
  (forall b q, Pos b q -> thunks_ok b q) /\
  (forall b i l, PosL b i l -> Forall (thunks_ok b) l) /\
  (forall b l, PosF b l -> Forall (fun kv => thunks_ok b (snd kv)) l).
Proof.
  apply Pos_mutind.
  - intros b. unfold thunks_ok. cbn. constructor.
  - intros b v. unfold thunks_ok. cbn. constructor.
  - intros b l _ IH. apply thunks_ok_list_intro. exact IH.
  - intros b l _ _ IH. apply thunks_ok_obj_intro. exact IH.
  - intros b t nodes occs o H. unfold thunks_ok. cbn. constructor; [|constructor].
    split; cbn; [exact H|apply prefix_refl].
  - intros. constructor.
  - intros b i y l _ IH1 _ IH2. constructor; [|exact IH2].
    eapply thunks_ok_weaken; [apply prefix_app|exact IH1].
  - intros. constructor.
  - intros b k y l _ IH1 _ IH2. constructor; [|exact IH2].
    cbn [snd]. eapply thunks_ok_weaken; [apply prefix_app|exact IH1].
Qed.

Lemma Pos_inv : forall b q, Pos b q ->
  match q with
  | QList l => PosL b 0%N l
  | QObj l => NoDup (map fst l) /\ PosF b l
  | QThunk t _ _ tp _ => tp = b /\ is_nonnull t = false
  | _ => True
  end.
Proof. intros b q H. destruct H; auto. Qed.

Lemma PosL_cons_inv : forall b i y l, PosL b i (y :: l) -> Pos (b ++ [PIdx i]) y /\ PosL b (i + 1)%N l.
Proof. intros b i y l H. inversion H; subst; split; assumption. Qed.

Lemma PosF_cons_inv : forall b k y l, PosF b ((k, y) :: l) -> Pos (b ++ [PKey k]) y /\ PosF b l.
Proof. intros b k y l H. inversion H; subst; split; assumption. Qed.

Lemma Pos_thunks_ok : forall b q, Pos b q -> thunks_ok b q.
Proof. exact (proj1 Pos_thunks_ok_all). Qed.

Definition posr (b : path) (r : xres presp) : Prop :=
  match r with XOk y _ => Pos b y | _ => True end.

Lemma posr_catch : forall b t r, posr b r -> posr b (catch_at t r).
Proof.
  intros b t [y s|e s|] H; cbn in *; auto.
  destruct (is_nonnull t); cbn; [exact I|constructor].
Qed.

Lemma collect_all_keys_nodup : forall fuel S D vars obj sets visited g g',
  collect_all fuel S D vars obj sets visited g = Some g' -> NoDup (map fst g) -> NoDup (map fst g').
Proof.
  intros fuel S D vars obj sets. induction sets as [|x sets IH]; intros visited g g' H Hn; cbn [collect_all] in H.
  - inversion H; subst. exact Hn.
  - destruct (collect fuel S D vars obj x visited g) as [[g1 v1]|] eqn:E1; [|discriminate].
    eapply IH; [exact H|]. eapply collect_keys_nodup; eassumption.
Qed.

Definition posG (b : path) (g : groups) (r : xres (list (name * presp))) : Prop :=
  match r with
  | XOk fs _ => PosF b fs /\ NoDup (map fst fs) /\ incl (map fst fs) (map fst g)
  | _ => True
  end.

Definition posO (b : path) (r : xres (option presp)) : Prop :=
  match r with XOk (Some y) _ => Pos b y | _ => True end.
Definition posL (b : path) (i : N) (r : xres (list presp)) : Prop :=
  match r with XOk ys _ => PosL b i ys | _ => True end.
Definition posF (b : path) (l : list (name * presp)) (r : xres (list (name * presp))) : Prop :=
  match r with XOk ys _ => PosF b ys /\ map fst ys = map fst l | _ => True end.

Lemma run_pos : forall E j, Run E j ->
  match j with
  | Complete _ _ _ _ p _ _ r | Object _ _ p _ _ r | Outcome _ _ _ p _ _ r => posr p r
  | Items _ _ _ _ p _ i _ r => posL p i r
  | Groups _ _ g p _ r => NoDup (map fst g) -> posG p g r
  | Field _ _ k _ p _ r => posO (p ++ [PKey k]) r
  | Invoke _ _ k _ p _ _ r => posr (p ++ [PKey k]) r
  | Dethunk q _ r => forall b, Pos b q -> posr b r
  | DList l _ r => forall b i, PosL b i l -> posL b i r
  | DFields l _ r => forall b, PosF b l -> posF b l r
  end.
Proof.
  intros E. apply Run_ind; cbv beta iota.
  - intros t nodes occs fpath p v s [[]|e s'|] _ IH; cbn in *; auto.
  - constructor.
  - intros. unfold leaf. destruct (nullish _); constructor.
  - intros. unfold leaf. destruct (nullish _); constructor.
  - intros. exact I.
  - intros t nodes occs fpath p l s [ys s'|e s'|] _ IH; cbn in *; auto. constructor. exact IH.
  - intros n rt nodes occs fpath p v s s1 r _ _ _ _ IH. exact IH.
  - constructor.
  - intros. exact I.
  - intros t nodes occs fpath p x l i s r1 y s' [ys s''|e s''|] _ IH Ec _ IH2; cbn in *; auto.
    apply (posr_catch _ t) in IH. rewrite Ec in IH. constructor; assumption.
  - intros obj occs p src s fuel g [fs s'|e s'|] Eg _ IH; cbn in *; auto.
    destruct IH as [H1 [H2 _]]; [eapply collect_all_keys_nodup; [exact Eg|constructor]|]. constructor; assumption.
  - intros. split; [constructor|split; [constructor|intros x []]].
  - intros. exact I.
  - intros obj src k occs g p s y s' [ys s''|e s''|] _ IH _ IH2 Hn; cbn in *; auto.
    apply NoDup_cons_iff in Hn. destruct Hn as [Hk Hn']. destruct (IH2 Hn') as [G1 [G2 G3]]. destruct y as [q|]; cbn.
    + split; [constructor; assumption|]. split.
      * constructor; [|exact G2]. intro Hin. apply Hk. apply G3. exact Hin.
      * intros x [<-|Hx]; [left; reflexivity|right; apply G3; exact Hx].
    + split; [exact G1|]. split; [exact G2|]. intros x Hx. right. apply G3. exact Hx.
  - intros. constructor.
  - intros. exact I.
  - intros obj src k occs p s fd r1 _ IH. apply (posr_catch _ (f_type fd)) in IH.
    destruct (catch_at (f_type fd) r1); exact IH.
  - intros obj src k occs s fd r1 y s' [y' s''|e s''|] _ IH Ec _ _ IHd; cbn in *; auto.
    apply (posr_catch _ (f_type fd)) in IH. rewrite Ec in IH. exact (IHd _ IH).
  - intros. constructor. assumption.
  - intros obj src k occs p s fd fuel args o thunked [q s'|e s'|] _ _ _ _ _ _ IH; cbn in *; auto.
    destruct thunked; exact I.
  - intros t nodes occs p v s r _ IH. exact IH.
  - intros. exact I.
  - intros [] s Hq b _; try contradiction; constructor.
  - intros l s [ys s'|e s'|] _ IH b Hq; cbn in *; auto. constructor. apply (IH b 0%N). exact (Pos_inv _ _ Hq).
  - intros l s [ys s'|e s'|] _ IH b Hq; cbn in *; auto. destruct (Pos_inv _ _ Hq) as [Hn HF].
    destruct (IH b HF) as [L1 L2]. constructor; [rewrite L2; exact Hn|exact L1].
  - intros. exact I.
  - intros t nodes occs p o s r1 y s' r _ IH Ec _ IHd b Hq. destruct (Pos_inv _ _ Hq) as [-> Hnn].
    apply (posr_catch _ t) in IH. rewrite Ec in IH. exact (IHd b IH).
  - constructor.
  - intros. exact I.
  - intros x l s y s' [ys s''|e s''|] _ IH _ IH2 b i Hl; cbn in *; auto.
    destruct (PosL_cons_inv _ _ _ _ Hl) as [Hy Hr]. constructor; [exact (IH _ Hy)|exact (IH2 _ _ Hr)].
  - intros. split; [constructor|reflexivity].
  - intros. exact I.
  - intros k x l s y s' [ys s''|e s''|] _ IH _ IH2 b Hl; cbn in *; auto.
    destruct (PosF_cons_inv _ _ _ _ Hl) as [Hy Hr]. destruct (IH2 _ Hr) as [I1 I2].
    split; [constructor; [exact (IH _ Hy)|exact I1]|cbn; rewrite I2; reflexivity].
Qed.

(* q holds a deferred value at tp *)
Definition InT (q : presp) (tp : path) : Prop := exists t, In (t, tp) (thunks q).

Lemma in_thunks_app : forall tp (a b : list (tyref * path)),
  (exists t, In (t, tp) (a ++ b)) <-> (exists t, In (t, tp) a) \/ (exists t, In (t, tp) b).
Proof.
  intros tp a b. split.
  - intros [t H]. apply in_app_or in H. destruct H as [H|H]; [left|right]; exists t; exact H.
  - intros [[t H]|[t H]]; exists t; apply in_or_app; [left|right]; exact H.
Qed.

Lemma InT_cons : forall tp y l, InT (QList (y :: l)) tp <-> InT y tp \/ InT (QList l) tp.
Proof. intros tp y l. apply in_thunks_app. Qed.

Lemma InT_fcons : forall tp k y (l : list (name * presp)), InT (QObj ((k, y) :: l)) tp <-> InT y tp \/ InT (QObj l) tp.
Proof. intros tp k y l. apply in_thunks_app. Qed.

Lemma InT_nil : forall tp q, thunks q = [] -> ~ InT q tp.
Proof. intros tp q H [t Ht]. rewrite H in Ht. exact Ht. Qed.

Lemma InT_under : forall b q tp, Pos b q -> InT q tp -> prefix b tp.
Proof.
  intros b q tp Hp [t Ht]. pose proof (Pos_thunks_ok b q Hp) as H. unfold thunks_ok in H.
  rewrite Forall_forall in H. destruct (H _ Ht) as [_ H2]. exact H2.
Qed.

(* regions of sibling subtrees *)
Definition Ridx (b : path) (i : N) (x : path) : Prop := exists j, (i <= j)%N /\ prefix (b ++ [PIdx j]) x.
Definition Rkey (b : path) (ks : list name) (x : path) : Prop := exists k, In k ks /\ prefix (b ++ [PKey k]) x.

Lemma Ridx_here : forall b i x, prefix (b ++ [PIdx i]) x -> Ridx b i x.
Proof. intros b i x H. exists i. split; [apply N.le_refl|exact H]. Qed.

Lemma Ridx_succ : forall b i x, Ridx b (i + 1) x -> Ridx b i x.
Proof. intros b i x [j [H1 H2]]. exists j. split; [lia|exact H2]. Qed.

Lemma Rkey_here : forall b k ks x, prefix (b ++ [PKey k]) x -> Rkey b (k :: ks) x.
Proof. intros b k ks x H. exists k. split; [left; reflexivity|exact H]. Qed.

Lemma Rkey_incl : forall b ks ks' x, incl ks ks' -> Rkey b ks x -> Rkey b ks' x.
Proof. intros b ks ks' x Hi [k [H1 H2]]. exists k. split; [apply Hi; exact H1|exact H2]. Qed.

Lemma Ridx_up : forall b i x y, Ridx b i x -> prefix x y -> Ridx b i y.
Proof. intros b i x y [j [H1 H2]] H. exists j. split; [exact H1|eapply prefix_trans; eassumption]. Qed.

Lemma Rkey_up : forall b ks x y, Rkey b ks x -> prefix x y -> Rkey b ks y.
Proof. intros b ks x y [k [H1 H2]] H. exists k. split; [exact H1|eapply prefix_trans; eassumption]. Qed.

Lemma Ridx_sep : forall b i x, prefix (b ++ [PIdx i]) x -> Ridx b (i + 1) x -> False.
Proof.
  intros b i x H [j [H1 H2]]. pose proof (snoc_apart _ _ _ _ H H2) as E. inversion E. lia.
Qed.

Lemma Rkey_sep : forall b k ks x, ~ In k ks -> prefix (b ++ [PKey k]) x -> Rkey b ks x -> False.
Proof.
  intros b k ks x Hk H [k' [H1 H2]]. pose proof (snoc_apart _ _ _ _ H H2) as E. inversion E. subst. exact (Hk H1).
Qed.

Lemma Ridx_sprefix : forall b i x, Ridx b i x -> sprefix b x.
Proof. intros b i x [j [_ H]]. eapply snoc_prefix_sprefix. exact H. Qed.

Lemma Rkey_sprefix : forall b ks x, Rkey b ks x -> sprefix b x.
Proof. intros b ks x [k [_ H]]. eapply snoc_prefix_sprefix. exact H. Qed.

Lemma InT_PosL : forall l b i, PosL b i l -> forall tp, InT (QList l) tp -> Ridx b i tp.
Proof.
  induction l as [|y l IH]; intros b i Hl tp Ht; [destruct Ht as [t []]|].
  destruct (PosL_cons_inv _ _ _ _ Hl) as [Hy Hr]. apply InT_cons in Ht. destruct Ht as [Ht|Ht].
  - apply Ridx_here. eapply InT_under; eassumption.
  - apply Ridx_succ. exact (IH _ _ Hr tp Ht).
Qed.

Lemma InT_PosF : forall (l : list (name * presp)) b, PosF b l -> forall tp, InT (QObj l) tp -> Rkey b (map fst l) tp.
Proof.
  induction l as [|[k y] l IH]; intros b Hl tp Ht; [destruct Ht as [t []]|].
  destruct (PosF_cons_inv _ _ _ _ Hl) as [Hy Hr]. apply InT_fcons in Ht. destruct Ht as [Ht|Ht].
  - apply Rkey_here. eapply InT_under; eassumption.
  - eapply Rkey_incl; [apply incl_tl, incl_refl|exact (IH _ Hr tp Ht)].
Qed.

(* what a sub-execution adds to the calls: new calls cs, all in region R, pairwise distinct
   paths, none strictly below a deferred value (T) of the result *)
Definition cres {A : Type} (R : path -> Prop) (T : A -> path -> Prop) (s : st) (r : xres A) : Prop :=
  match r with
  | XOk a s' => exists cs, st_calls s' = st_calls s ++ cs /\ Forall (fun c => R (c_path c)) cs /\
                           NoDup (map c_path cs) /\
                           (forall c tp, In c cs -> T a tp -> ~ sprefix tp (c_path c))
  | XRaise _ s' => exists cs, st_calls s' = st_calls s ++ cs /\ Forall (fun c => R (c_path c)) cs /\
                              NoDup (map c_path cs)
  | XFuel => True
  end.

Definition To (y : option presp) (tp : path) : Prop := match y with Some q => InT q tp | None => False end.

Lemma cres_weaken : forall A (R R' : path -> Prop) (T : A -> path -> Prop) s r,
  (forall x, R x -> R' x) -> cres R T s r -> cres R' T s r.
Proof.
  intros A R R' T s [a s'|e s'|] HR H; cbn in *; auto.
  - destruct H as [cs [H1 [H2 [H3 H4]]]]. exists cs. repeat split; auto.
    eapply Forall_impl; [|exact H2]. intros c Hc. apply HR. exact Hc.
  - destruct H as [cs [H1 [H2 H3]]]. exists cs. repeat split; auto.
    eapply Forall_impl; [|exact H2]. intros c Hc. apply HR. exact Hc.
Qed.

Lemma cres_calls_eq : forall A (R : path -> Prop) (T : A -> path -> Prop) s0 s r,
  st_calls s = st_calls s0 -> cres R T s r -> cres R T s0 r.
Proof. intros A R T s0 s [a s'|e s'|] He H; cbn in *; auto; rewrite <- He; exact H. Qed.

Lemma cres_ok_nil : forall A (R : path -> Prop) (T : A -> path -> Prop) s a, cres R T s (XOk a s).
Proof.
  intros. cbn. exists []. rewrite app_nil_r. repeat split; [constructor|constructor|]. intros c tp [].
Qed.

Lemma cres_raise_nil : forall A (R : path -> Prop) (T : A -> path -> Prop) s e, cres R T s (@XRaise A e s).
Proof. intros. cbn. exists []. rewrite app_nil_r. repeat split; constructor. Qed.

Lemma cres_catch : forall R s t r, cres R InT s r -> cres R InT s (catch_at t r).
Proof.
  intros R s t [q s'|e s'|] H; cbn in *; auto.
  destruct (is_nonnull t); cbn; [exact H|].
  destruct H as [cs [H1 [H2 H3]]]. exists cs. repeat split; auto.
  intros c tp _ [t0 []].
Qed.

Lemma cres_xmap : forall A B (R R' : path -> Prop) (T : A -> path -> Prop) (T' : B -> path -> Prop) (f : A -> B) s r,
  (forall x, R x -> R' x) -> (forall a tp, T' (f a) tp -> T a tp) -> cres R T s r -> cres R' T' s (xmap f r).
Proof.
  intros A B R R' T T' f s [a s'|e s'|] HR HT H; [|exact (cres_weaken _ _ _ T' s (XRaise e s') HR H)|exact I].
  destruct (cres_weaken _ _ _ _ _ _ HR H) as [cs [H1 [H2 [H3 H4]]]]. exists cs. repeat split; auto.
Qed.

Lemma cres_escapes : forall R s th r, cres R InT s r -> cres R InT s (escapes th r).
Proof. intros R s th [q s'|e s'|] H; cbn; auto. destruct th; exact H. Qed.

Definition news (R : path -> Prop) (s s' : st) : Prop :=
  exists cs, st_calls s' = st_calls s ++ cs /\ Forall (fun c => R (c_path c)) cs /\ NoDup (map c_path cs).

Lemma news_refl : forall R s, news R s s.
Proof. intros. exists []. rewrite app_nil_r. repeat split; constructor. Qed.

Lemma cres_news : forall A R (T : A -> path -> Prop) s a s', cres R T s (XOk a s') -> news R s s'.
Proof. intros A R T s a s' [cs [H1 [H2 [H3 _]]]]. exists cs. auto. Qed.

Lemma news_cres : forall A R (T : A -> path -> Prop) s a s',
  news R s s' -> (forall tp, ~ T a tp) -> cres R T s (XOk a s').
Proof. intros A R T s a s' [cs [H1 [H2 H3]]] HT. exists cs. repeat split; auto. intros c tp _ Ht. destruct (HT tp Ht). Qed.

Lemma NoDup_paths_app : forall (R1 R2 : path -> Prop) cs1 cs2,
  (forall a, R1 a -> R2 a -> False) ->
  Forall (fun c => R1 (c_path c)) cs1 -> Forall (fun c => R2 (c_path c)) cs2 ->
  NoDup (map c_path cs1) -> NoDup (map c_path cs2) -> NoDup (map c_path (cs1 ++ cs2)).
Proof.
  intros R1 R2 cs1 cs2 Sep F1 F2 N1 N2. rewrite Forall_forall in F1, F2.
  rewrite map_app. apply NoDup_app_intro; [exact N1|exact N2|].
  intros x H1 H2. apply in_map_iff in H1. destruct H1 as [c1 [<- H1]].
  apply in_map_iff in H2. destruct H2 as [c2 [E2 H2]].
  apply (Sep (c_path c1)); [apply F1; exact H1|rewrite <- E2; apply F2; exact H2].
Qed.

(* two runs, one after the other, in separated regions *)
Lemma news_both : forall (R1 R2 R : path -> Prop) s s' s'',
  (forall a, R1 a -> R2 a -> False) -> (forall a, R1 a -> R a) -> (forall a, R2 a -> R a) ->
  news R1 s s' -> news R2 s' s'' -> news R s s''.
Proof.
  intros R1 R2 R s s' s'' Sep W1 W2 [cs1 [E1 [F1 N1]]] [cs2 [E2 [F2 N2]]].
  exists (cs1 ++ cs2). split; [rewrite E2, E1, app_assoc; reflexivity|]. split.
  - apply Forall_app. split; (eapply Forall_impl; [|eassumption]); intros c; [apply W1|apply W2].
  - eapply NoDup_paths_app; eassumption.
Qed.

(* ... with results: what lies strictly below a value deferred by one of the runs lies in that
   run's region, where the other has called nothing *)
Lemma cres_seq : forall A B (R1 R2 R : path -> Prop) (T1 : A -> path -> Prop) (T2 T : B -> path -> Prop) s y s' r,
  (forall a, R1 a -> R2 a -> False) -> (forall a, R1 a -> R a) -> (forall a, R2 a -> R a) ->
  (forall tp x, T1 y tp -> sprefix tp x -> R1 x) ->
  (forall b s'', r = XOk b s'' -> forall tp x, T2 b tp -> sprefix tp x -> R2 x) ->
  (forall b tp, T b tp -> T1 y tp \/ T2 b tp) ->
  cres R1 T1 s (XOk y s') -> cres R2 T2 s' r -> cres R T s r.
Proof.
  intros A B R1 R2 R T1 T2 T s y s' r Sep W1 W2 HT1 HT2 HT H1 H2.
  destruct r as [b s''|e s''|];
    [|exact (news_both R1 R2 R s s' s'' Sep W1 W2 (cres_news _ _ _ _ _ _ H1) H2)|exact I].
  destruct H1 as [cs1 [E1 [F1 [N1 C1]]]]. destruct H2 as [cs2 [E2 [F2 [N2 C2]]]].
  exists (cs1 ++ cs2). split; [rewrite E2, E1, app_assoc; reflexivity|]. split; [|split].
  - apply Forall_app. split; (eapply Forall_impl; [|eassumption]); intros c; [apply W1|apply W2].
  - eapply NoDup_paths_app; eassumption.
  - intros c tp Hin Ht Hs. rewrite Forall_forall in F1, F2. apply in_app_or in Hin.
    destruct (HT b tp Ht) as [Ht1|Ht2]; destruct Hin as [Hin|Hin].
    + exact (C1 c tp Hin Ht1 Hs).
    + apply (Sep (c_path c)); [exact (HT1 tp _ Ht1 Hs)|apply F2; exact Hin].
    + apply (Sep (c_path c)); [apply F1; exact Hin|exact (HT2 b s'' eq_refl tp _ Ht2 Hs)].
    + exact (C2 c tp Hin Ht2 Hs).
Qed.

(* a run, then calls strictly below what it deferred *)
Lemma news_forced : forall A (R R' Q : path -> Prop) (T : A -> path -> Prop) a s s' s'',
  (forall x, R x -> R' x) -> (forall x, Q x -> R' x) -> (forall x, Q x -> exists tp, T a tp /\ sprefix tp x) ->
  cres R T s (XOk a s') -> news Q s' s'' -> news R' s s''.
Proof.
  intros A R R' Q T a s s' s'' W1 W2 HQ [cs1 [E1 [F1 [N1 C1]]]] [cs2 [E2 [F2 N2]]].
  exists (cs1 ++ cs2). split; [rewrite E2, E1, app_assoc; reflexivity|]. split.
  - apply Forall_app. split; (eapply Forall_impl; [|eassumption]); intros c; [apply W1|apply W2].
  - rewrite Forall_forall in F2. rewrite map_app. apply NoDup_app_intro; [exact N1|exact N2|].
    intros x H1 H2. apply in_map_iff in H1. destruct H1 as [c1 [<- H1]].
    apply in_map_iff in H2. destruct H2 as [c2 [E3 H2]].
    destruct (HQ _ (F2 c2 H2)) as [tp [Ht Hs]]. rewrite E3 in Hs. exact (C1 c1 tp H1 Ht Hs).
Qed.

(* forcing: the new calls lie strictly below deferred values of the forced response *)
Definition below (q : presp) (x : path) : Prop := exists tp, InT q tp /\ sprefix tp x.

Definition forced {A : Type} (q : presp) (s : st) (r : xres A) : Prop :=
  match r with XOk _ s' => news (below q) s s' | _ => True end.

Lemma below_mono : forall q q' x, (forall tp, InT q tp -> InT q' tp) -> below q x -> below q' x.
Proof. intros q q' x H [tp [Ht Hs]]. exists tp. split; [apply H; exact Ht|exact Hs]. Qed.

Lemma below_under : forall b q x, Pos b q -> below q x -> sprefix b x.
Proof. intros b q x Hp [tp [Ht Hs]]. eapply prefix_sprefix; [eapply InT_under; eassumption|exact Hs]. Qed.

Lemma below_list : forall b i l x, PosL b i l -> below (QList l) x -> Ridx b i x.
Proof. intros b i l x Hp [tp [Ht Hs]]. eapply Ridx_up; [eapply InT_PosL; eassumption|apply sprefix_prefix; exact Hs]. Qed.

Lemma below_obj : forall b l x, PosF b l -> below (QObj l) x -> Rkey b (map fst l) x.
Proof. intros b l x Hp [tp [Ht Hs]]. eapply Rkey_up; [eapply InT_PosF; eassumption|apply sprefix_prefix; exact Hs]. Qed.

(* the field's own invocation, at its path, then what its value's completion adds strictly below *)
Lemma cres_first : forall E obj src k occs p args s r,
  cres (sprefix (p ++ [PKey k])) InT (after_call E obj src k occs p args s) r ->
  posr (p ++ [PKey k]) r -> cres (prefix (p ++ [PKey k])) InT s r.
Proof.
  intros E obj src k occs p args s r H Hp. set (fp := p ++ [PKey k]) in *.
  eapply (cres_seq unit _ (eq fp) (sprefix fp) _ (fun _ _ => False) InT InT s tt); [| | | | | | |exact H].
  - intros a <-. apply sprefix_irrefl.
  - intros a <-. apply prefix_refl.
  - apply sprefix_prefix.
  - intros tp x [].
  - intros q s' -> tp x Ht Hx. eapply prefix_sprefix; [eapply InT_under; eassumption|exact Hx].
  - intros q tp Ht. right. exact Ht.
  - exists [field_call obj src k occs p args]. rewrite after_call_calls.
    repeat split; [repeat constructor|repeat constructor; intros []|intros c tp _ []].
Qed.

Lemma run_calls : forall E j, Run E j ->
  match j with
  | Complete _ _ _ _ p _ s r | Object _ _ p _ s r | Outcome _ _ _ p _ s r => cres (sprefix p) InT s r
  | Items _ _ _ _ p _ i s r => cres (Ridx p i) (fun l => InT (QList l)) s r
  | Groups _ _ g p s r => NoDup (map fst g) -> cres (Rkey p (map fst g)) (fun l => InT (QObj l)) s r
  | Field _ _ k _ p s r => cres (prefix (p ++ [PKey k])) To s r
  | Invoke _ _ k _ p s _ r => cres (prefix (p ++ [PKey k])) InT s r
  | Dethunk q s r => forall b, Pos b q -> forced q s r
  | DList l s r => forall b i, PosL b i l -> forced (QList l) s r
  | DFields l s r => forall b, PosF b l -> NoDup (map fst l) -> forced (QObj l) s r
  end.
Proof.
  intros E.
  assert (Hin : forall b q tp x, Pos b q -> InT q tp -> sprefix tp x -> prefix b x).
  { intros b q tp x Hq Ht Hx. eapply prefix_trans; [eapply InT_under; eassumption|apply sprefix_prefix; exact Hx]. }
  apply Run_ind; cbv beta iota.
  - intros t nodes occs fpath p v s [[]|e s'|] _ IH; cbn [null_raises]; try exact IH.
    exact (cres_news _ _ _ _ _ _ IH).
  - intros. apply cres_ok_nil.
  - intros. apply cres_ok_nil.
  - intros. apply cres_ok_nil.
  - intros t nodes occs fpath p v s s' Hs. apply (cres_calls_eq _ _ _ s s'); [|apply cres_raise_nil].
    destruct Hs as [->| ->]; reflexivity.
  - intros t nodes occs fpath p l s r _ IH. eapply cres_xmap; [apply Ridx_sprefix| |exact IH]. auto.
  - intros n rt nodes occs fpath p v s s1 r _ _ Hs _ IH. apply (cres_calls_eq _ _ _ s s1); [|exact IH].
    destruct Hs as [->| ->]; reflexivity.
  - intros. apply cres_ok_nil.
  - intros t nodes occs fpath p x l i s r1 e s' _ IH Ec.
    apply (cres_catch _ _ t) in IH. rewrite Ec in IH. eapply cres_weaken; [|exact IH].
    intros a Ha. apply Ridx_here, sprefix_prefix, Ha.
  - intros t nodes occs fpath p x l i s r1 y s' r Hx IH Ec Hl IH2.
    apply (cres_catch _ _ t) in IH. rewrite Ec in IH.
    apply (run_pos E), (posr_catch _ t) in Hx. rewrite Ec in Hx. apply (run_pos E) in Hl.
    apply cres_xmap with (R := Ridx p i) (T := fun ys => InT (QList (y :: ys))); [auto|auto|].
    eapply (cres_seq _ _ (prefix (p ++ [PIdx i])) (Ridx p (i + 1)) _ InT (fun l => InT (QList l)));
      [apply Ridx_sep|apply Ridx_here|apply Ridx_succ|intros tp a; apply Hin; exact Hx| |intros ys tp; apply InT_cons
      |eapply cres_weaken; [apply sprefix_prefix|exact IH]|exact IH2].
    intros ys s'' -> tp a Ht Ha. eapply Ridx_up; [eapply InT_PosL; eassumption|apply sprefix_prefix; exact Ha].
  - intros obj occs p src s fuel g r Eg _ IH.
    eapply cres_xmap; [apply Rkey_sprefix| |apply IH; eapply collect_all_keys_nodup; [exact Eg|constructor]]. auto.
  - intros. apply cres_ok_nil.
  - intros obj src k occs g p s e s' _ IH _. eapply cres_weaken; [|exact IH]. intros a. apply Rkey_here.
  - intros obj src k occs g p s y s' r Hf IH Hg IH2 Hn. apply NoDup_cons_iff in Hn. destruct Hn as [Hk Hn'].
    apply (run_pos E) in Hf. apply (run_pos E) in Hg. specialize (Hg Hn').
    apply cres_xmap with (R := Rkey p (map fst ((k, occs) :: g))) (T := fun ys => InT (QObj (keyed k y ys))); [auto|auto|].
    eapply (cres_seq _ _ (prefix (p ++ [PKey k])) (Rkey p (map fst g)) _ To (fun l => InT (QObj l)));
      [intros a; apply Rkey_sep; exact Hk|apply Rkey_here|intros a; apply Rkey_incl, incl_tl, incl_refl| | | |exact IH|exact (IH2 Hn')].
    + intros tp a Ht. destruct y as [q|]; [exact (Hin _ _ _ _ Hf Ht)|contradiction].
    + intros ys s'' -> tp a Ht Ha. destruct Hg as [G1 [_ G3]].
      eapply Rkey_up; [eapply Rkey_incl; [exact G3|eapply InT_PosF; eassumption]|apply sprefix_prefix; exact Ha].
    + intros ys tp Ht. destruct y as [q|]; [exact (proj1 (InT_fcons _ _ _ _) Ht)|right; exact Ht].
  - intros. apply cres_ok_nil.
  - intros. apply cres_ok_nil.
  - intros obj src k occs p s fd r1 _ IH. apply (cres_catch _ _ (f_type fd)) in IH.
    eapply cres_xmap; [| |exact IH]; auto.
  - intros obj src k occs s fd r1 y s' r Hn IH Ec _ Hd IHd.
    apply (cres_catch _ _ (f_type fd)) in IH. rewrite Ec in IH.
    apply (run_pos E), (posr_catch _ (f_type fd)) in Hn. rewrite Ec in Hn.
    specialize (IHd _ Hn). apply (run_inv E) in Hd. specialize (Hd ([] ++ [PKey k]) (Pos_thunks_ok _ _ Hn)).
    destruct r as [y' s''|e s''|]; cbn in Hd, IHd; [|contradiction|exact I].
    apply (news_cres _ _ To s (Some y')); [|intros tp; apply InT_nil; apply Hd].
    eapply news_forced; [| | |exact IH|exact IHd]; auto.
    intros x Hx. apply sprefix_prefix. eapply below_under; eassumption.
  - intros obj src k occs p s fd fuel args o _ _ _ _ Hnn.
    eapply cres_first; [apply cres_ok_nil|constructor; exact Hnn].
  - intros obj src k occs p s fd fuel args o thunked r _ _ _ _ _ Ho IH.
    apply cres_escapes. eapply cres_first; [exact IH|exact ((run_pos E) _ Ho)].
  - intros t nodes occs p v s r _ IH. exact IH.
  - intros. apply cres_raise_nil.
  - intros. apply news_refl.
  - intros l s [ys s'|e s'|] _ IH b Hq; cbn in IH |- *; auto. apply (IH b 0%N). exact (Pos_inv _ _ Hq).
  - intros l s [ys s'|e s'|] _ IH b Hq; cbn in IH |- *; auto. destruct (Pos_inv _ _ Hq) as [Hn HF]. exact (IH b HF Hn).
  - intros. exact I.
  - intros t nodes occs p o s r1 y s' r Ho IH Ec _ IHd b Hq.
    destruct (Pos_inv _ _ Hq) as [-> Hnn].
    apply (cres_catch _ _ t) in IH. rewrite Ec in IH.
    apply (run_pos E), (posr_catch _ t) in Ho. rewrite Ec in Ho. specialize (IHd _ Ho).
    destruct r as [y' s''|e s''|]; cbn in IHd |- *; auto.
    assert (Hb : forall x, sprefix b x -> below (QThunk t nodes occs b o) x).
    { intros x Hx. exists b. split; [exists t; left; reflexivity|exact Hx]. }
    eapply news_forced; [exact Hb| | |exact IH|exact IHd]; auto.
    intros x Hx. apply Hb. eapply below_under; eassumption.
  - intros. apply news_refl.
  - intros. exact I.
  - intros x l s y s' [ys s''|e s''|] _ IH _ IH2 b i Hl; cbn in IH2 |- *; auto.
    destruct (PosL_cons_inv _ _ _ _ Hl) as [Hy Hr].
    eapply (news_both (below x) (below (QList l))); [| | |exact (IH _ Hy)|exact (IH2 _ _ Hr)].
    + intros a Ha Hb. eapply Ridx_sep; [|eapply below_list; eassumption].
      apply sprefix_prefix. eapply below_under; eassumption.
    + intros a. apply below_mono. intros tp Ht. apply InT_cons. left. exact Ht.
    + intros a. apply below_mono. intros tp Ht. apply InT_cons. right. exact Ht.
  - intros. apply news_refl.
  - intros. exact I.
  - intros k x l s y s' [ys s''|e s''|] _ IH _ IH2 b Hl Hn; cbn in IH2 |- *; auto.
    destruct (PosF_cons_inv _ _ _ _ Hl) as [Hy Hr]. apply NoDup_cons_iff in Hn. destruct Hn as [Hk Hn'].
    eapply (news_both (below x) (below (QObj l))); [| | |exact (IH _ Hy)|exact (IH2 _ Hr Hn')].
    + intros a Ha Hb. eapply Rkey_sep; [exact Hk| |eapply below_obj; eassumption].
      apply sprefix_prefix. eapply below_under; eassumption.
    + intros a. apply below_mono. intros tp Ht. apply InT_fcons. left. exact Ht.
    + intros a. apply below_mono. intros tp Ht. apply InT_fcons. right. exact Ht.
Qed.

(* C20: no response path is resolved twice in a request *)
Theorem request_calls_nodup : forall fuel S D opn inputs root or tor data s,
  request fuel S D opn inputs root or tor = RDone data s -> NoDup (map c_path (st_calls s)).
Proof.
  intros fuel S D opn inputs root or tor data s H.
  destruct (request_run _ _ _ _ _ _ _ _ _ _ H) as [op [rt [vars [g [v [_ [_ [_ [Ec Hf]]]]]]]]].
  assert (Hkeys : NoDup (map fst g)) by (eapply collect_keys_nodup; [exact Ec|constructor]).
  assert (Hfin : forall R s', news R st0 s' -> NoDup (map c_path (st_calls s'))).
  { intros R s' [cs [E1 [_ N1]]]. rewrite E1. exact N1. }
  match type of Hf with Finished ?E0 _ _ _ _ _ => set (E := E0) in * end.
  inversion Hf as [fs s1 q s' Hg Hd|e s1 Hg]; subst; apply (Hfin (fun _ => True)).
  - destruct (run_pos E _ Hg Hkeys) as [G1 [G2 _]].
    eapply news_forced; [| | |exact (run_calls E _ Hg Hkeys)|apply (run_calls E _ Hd []); constructor; assumption]; auto.
  - eapply (cres_weaken (list (name * presp)) _ _ _ st0 (XRaise e s1)); [|exact (run_calls E _ Hg Hkeys)]. auto.
Qed.
Print Assumptions request_calls_nodup.
(* null_on_path (Run/ExecRun.v) on responses under construction *)
Fixpoint qnull_on (q : presp) (r : path) {struct r} : bool :=
  match q with
  | QNull => true
  | _ =>
    match r with
    | [] => false
    | PKey k :: r' => match q with
                      | QObj l => match alookup k l with Some x => qnull_on x r' | None => false end
                      | _ => false
                      end
    | PIdx i :: r' => match q with
                      | QList l => match nth_error l (N.to_nat i) with Some x => qnull_on x r' | None => false end
                      | _ => false
                      end
    end
  end.

Lemma qnull_on_null : forall r, qnull_on QNull r = true.
Proof. intros [|[k|i] r]; reflexivity. Qed.

Lemma alookup_in_keys : forall A k (l : list (name * A)) x, alookup k l = Some x -> In k (map fst l).
Proof.
  intros A k l x. induction l as [|[k' v] l IH]; cbn; intros H; [discriminate|].
  destruct (String.eqb k k') eqn:Ek; [left; symmetry; apply String.eqb_eq; exact Ek|right; apply IH; exact H].
Qed.

Lemma alookup_map_snd : forall A B (f : A -> B) k (l : list (name * A)),
  alookup k (map (fun kv => (fst kv, f (snd kv))) l) = option_map f (alookup k l).
Proof.
  intros A B f k l. induction l as [|[k' v] l IH]; cbn; [reflexivity|].
  destruct (String.eqb k k'); [reflexivity|exact IH].
Qed.

(* the walk carries over to the final response *)
Lemma qnull_to_resp : forall r q, qnull_on q r = true -> null_on_path (to_resp q) r = true.
Proof.
  induction r as [|a r IH]; intros q H.
  - destruct q; cbn in H |- *; try discriminate; reflexivity.
  - destruct a as [k|i]; destruct q as [|v|l|l|t nodes occs tp o]; cbn in H |- *; try discriminate; try reflexivity.
    + rewrite alookup_map_snd. destruct (alookup k l) as [x|]; cbn; [apply IH; exact H|discriminate].
    + rewrite nth_error_map. destruct (nth_error l (N.to_nat i)) as [x|]; cbn; [apply IH; exact H|discriminate].
Qed.

Definition qn_nth (l : list presp) (j : nat) (r : path) : bool :=
  match nth_error l j with Some x => qnull_on x r | None => false end.

(* an error recorded below b, and the null the response q (at b) holds on its path *)
Definition eok (b : path) (q : presp) (e : gerr) : Prop := exists r, e_path e = b ++ r /\ qnull_on q r = true.
Definition eokL (b : path) (i : N) (ys : list presp) (e : gerr) : Prop :=
  exists j r, e_path e = b ++ PIdx (i + N.of_nat j) :: r /\ qn_nth ys j r = true.
Definition eokF (b : path) (fs : list (name * presp)) (e : gerr) : Prop := eok b (QObj fs) e.
Definition eokO (b : path) (y : option presp) (e : gerr) : Prop :=
  match y with Some q => eok b q e | None => False end.

Lemma eokL_head : forall b i y ys e, eok (b ++ [PIdx i]) y e -> eokL b i (y :: ys) e.
Proof.
  intros b i y ys e [r [H1 H2]]. exists 0%nat, r. split.
  - rewrite H1, <- app_assoc. cbn. rewrite N.add_0_r. reflexivity.
  - exact H2.
Qed.

Lemma eokL_tail : forall b i y ys e, eokL b (i + 1) ys e -> eokL b i (y :: ys) e.
Proof.
  intros b i y ys e [j [r [H1 H2]]]. exists (S j), r. split; [|exact H2].
  rewrite H1. do 3 f_equal. rewrite Nat2N.inj_succ. lia.
Qed.

Lemma eokL_list : forall b ys e, eokL b 0 ys e -> eok b (QList ys) e.
Proof.
  intros b ys e [j [r [H1 H2]]]. exists (PIdx (0 + N.of_nat j) :: r). split; [exact H1|].
  cbn. rewrite Nat2N.id. exact H2.
Qed.

Lemma eokF_head : forall b k y ys e, eok (b ++ [PKey k]) y e -> eokF b ((k, y) :: ys) e.
Proof.
  intros b k y ys e [r [H1 H2]]. exists (PKey k :: r). split; [rewrite H1, <- app_assoc; reflexivity|].
  cbn. rewrite String.eqb_refl. exact H2.
Qed.

(* a key that does not occur in ys does not shadow anything *)
Lemma eokF_tail : forall b k y ys e, ~ In k (map fst ys) -> eokF b ys e -> eokF b ((k, y) :: ys) e.
Proof.
  intros b k y ys e Hk [[|[k0|i] r] [H1 H2]]; cbn in H2; try discriminate.
  exists (PKey k0 :: r). split; [exact H1|]. cbn. destruct (String.eqb k0 k) eqn:Ek; [|exact H2].
  apply String.eqb_eq in Ek. subst k0. destruct (alookup k ys) as [x|] eqn:Ea; [|discriminate].
  destruct (Hk (alookup_in_keys _ _ _ _ Ea)).
Qed.

Definition eres {A : Type} (OK : A -> gerr -> Prop) (s : st) (r : xres A) : Prop :=
  match r with
  | XOk a s' => exists es, st_errs s' = st_errs s ++ es /\ Forall (OK a) es
  | _ => True
  end.

(* a raise and the errors recorded before it lie under b *)
Definition rinv {A : Type} (b : path) (s : st) (r : xres A) : Prop :=
  match r with
  | XRaise e s' => (exists es, st_errs s' = st_errs s ++ es /\ Forall (fun e0 => prefix b (e_path e0)) es) /\
                   prefix b (e_path e)
  | _ => True
  end.

Lemma inv1_rinv : forall b s r, inv1 b s r -> rinv b s r.
Proof. intros b s [q s'|e s'|] H; cbn in *; auto. destruct H as [[_ He] Hp]. split; assumption. Qed.

Lemma eres_ok_nil : forall A (OK : A -> gerr -> Prop) s a, eres OK s (XOk a s).
Proof. intros. cbn. exists []. rewrite app_nil_r. split; constructor. Qed.

Lemma eres_errs_eq : forall A (OK : A -> gerr -> Prop) s0 s r,
  st_errs s = st_errs s0 -> eres OK s r -> eres OK s0 r.
Proof. intros A OK s0 s [a s'|e s'|] He H; cbn in *; auto; rewrite <- He; exact H. Qed.

Lemma rinv_errs_eq : forall A b s0 s (r : xres A), st_errs s = st_errs s0 -> rinv b s r -> rinv b s0 r.
Proof. intros A b s0 s [a s'|e s'|] He H; cbn in *; auto; rewrite <- He; exact H. Qed.

Lemma eres_catch : forall b s t r, rinv b s r -> eres (eok b) s r -> eres (eok b) s (catch_at t r).
Proof.
  intros b s t [q s'|e s'|] Hr H; cbn in *; auto.
  destruct (is_nonnull t); cbn; [exact I|].
  destruct Hr as [[es [E F]] Hp]. exists (es ++ [e]). split; [rewrite E, app_assoc; reflexivity|].
  apply Forall_app. split.
  - eapply Forall_impl; [|exact F]. intros e0 [r Hr]. exists r. split; [exact Hr|apply qnull_on_null].
  - constructor; [|constructor]. destruct Hp as [r Hr]. exists r. split; [exact Hr|apply qnull_on_null].
Qed.

Lemma eres_escapes : forall b s th r, eres (eok b) s r -> eres (eok b) s (escapes th r).
Proof. intros b s th [q s'|e s'|] H; cbn; auto. destruct th; exact I. Qed.

Lemma eres_then : forall A B C (OK1 : A -> gerr -> Prop) (OK2 : B -> gerr -> Prop) (OK : C -> gerr -> Prop)
    (f : B -> C) s y s' r,
  eres OK1 s (XOk y s') -> eres OK2 s' r ->
  (forall b s'', r = XOk b s'' -> (forall e, OK1 y e -> OK (f b) e) /\ (forall e, OK2 b e -> OK (f b) e)) ->
  eres OK s (xmap f r).
Proof.
  intros A B C OK1 OK2 OK f s y s' [b s''|e s''|] [es1 [E1 F1]] H2 H; cbn; auto.
  destruct H2 as [es2 [E2 F2]]. destruct (H b s'' eq_refl) as [W1 W2].
  exists (es1 ++ es2). rewrite E2, E1, app_assoc. split; [reflexivity|].
  apply Forall_app. split; (eapply Forall_impl; [|eassumption]); assumption.
Qed.

Lemma eres_xmap : forall A B (OK : A -> gerr -> Prop) (OK' : B -> gerr -> Prop) (f : A -> B) s r,
  (forall a e, OK a e -> OK' (f a) e) -> eres OK s r -> eres OK' s (xmap f r).
Proof.
  intros A B OK OK' f s [a s'|e s'|] H Hr; cbn in *; auto.
  destruct Hr as [es [E1 F1]]. exists es. split; [exact E1|]. eapply Forall_impl; [|exact F1]. apply H.
Qed.

(* forcing keeps the nulls where they are and puts the new errors' nulls in place *)
Definition deres {A : Type} (K : A -> Prop) (OK : A -> gerr -> Prop) (s : st) (r : xres A) : Prop :=
  match r with XOk a _ => K a | _ => True end /\ eres OK s r.

Definition keeps (q q' : presp) : Prop := forall r, qnull_on q r = true -> qnull_on q' r = true.

Lemma keeps_thunk : forall t nodes occs p o y, keeps (QThunk t nodes occs p o) y.
Proof. intros t nodes occs p o y [|[k|i] r] H; discriminate. Qed.

Lemma keeps_list : forall l ys, (forall j r, qn_nth l j r = true -> qn_nth ys j r = true) -> keeps (QList l) (QList ys).
Proof. intros l ys K [|[k|i] r] H; try discriminate. exact (K (N.to_nat i) r H). Qed.

Lemma keeps_fcons : forall k x y l ys,
  keeps x y -> keeps (QObj l) (QObj ys) -> keeps (QObj ((k, x) :: l)) (QObj ((k, y) :: ys)).
Proof.
  intros k x y l ys K1 K2 [|[k0|i] r] H; try discriminate. cbn in H |- *.
  destruct (String.eqb k0 k); [exact (K1 r H)|exact (K2 (PKey k0 :: r) H)].
Qed.

(* a run, then the forcing of its result *)
Lemma eres_forced : forall b s y s' r, eres (eok b) s (XOk y s') -> deres (keeps y) (eok b) s' r -> eres (eok b) s r.
Proof.
  intros b s y s' [y' s''|e s''|] [es1 [E1 F1]] [K H2]; cbn; auto. destruct H2 as [es2 [E2 F2]].
  exists (es1 ++ es2). rewrite E2, E1, app_assoc. split; [reflexivity|]. apply Forall_app. split; [|exact F2].
  eapply Forall_impl; [|exact F1]. intros e [r0 [R1 R2]]. exists r0. split; [exact R1|apply K; exact R2].
Qed.

Lemma run_errs : forall E j, Run E j ->
  match j with
  | Complete _ _ _ _ p _ s r | Object _ _ p _ s r | Outcome _ _ _ p _ s r => eres (eok p) s r
  | Items _ _ _ _ p _ i s r => eres (eokL p i) s r
  | Groups _ _ g p s r => NoDup (map fst g) -> eres (eokF p) s r
  | Field _ _ k _ p s r => eres (eokO (p ++ [PKey k])) s r
  | Invoke _ _ k _ p s _ r => eres (eok (p ++ [PKey k])) s r
  | Dethunk q s r => forall b, Pos b q -> deres (keeps q) (eok b) s r
  | DList l s r => forall b i, PosL b i l ->
      deres (fun ys => forall j r0, qn_nth l j r0 = true -> qn_nth ys j r0 = true) (eokL b i) s r
  | DFields l s r => forall b, PosF b l -> NoDup (map fst l) ->
      deres (fun ys => map fst ys = map fst l /\ keeps (QObj l) (QObj ys)) (eokF b) s r
  end.
Proof.
  intros E.
  apply Run_ind; cbv beta iota.
  - intros t nodes occs fpath p v s [[]|e s'|] _ IH; cbn; auto; exact IH.
  - intros. apply eres_ok_nil.
  - intros. apply eres_ok_nil.
  - intros. apply eres_ok_nil.
  - intros. exact I.
  - intros t nodes occs fpath p l s r _ IH. eapply eres_xmap; [|exact IH]. intros ys e. apply eokL_list.
  - intros n rt nodes occs fpath p v s s1 r _ _ Hs _ IH. apply (eres_errs_eq _ _ s s1); [|exact IH].
    destruct Hs as [->| ->]; reflexivity.
  - intros. apply eres_ok_nil.
  - intros. exact I.
  - intros t nodes occs fpath p x l i s r1 y s' r Hx IH Ec _ IH2.
    apply (eres_catch _ _ t) in IH; [|apply inv1_rinv; exact ((run_inv E) _ Hx)]. rewrite Ec in IH.
    eapply eres_then; [exact IH|exact IH2|]. intros ys s'' _. split; intros e; [apply eokL_head|apply eokL_tail].
  - intros obj occs p src s fuel g r Eg _ IH.
    eapply eres_xmap; [|apply IH; eapply collect_all_keys_nodup; [exact Eg|constructor]]. auto.
  - intros. apply eres_ok_nil.
  - intros. exact I.
  - intros obj src k occs g p s y s' r _ IH Hg IH2 Hn. apply NoDup_cons_iff in Hn. destruct Hn as [Hk Hn'].
    eapply eres_then; [exact IH|exact (IH2 Hn')|]. intros ys s'' ->.
    destruct ((run_pos E) _ Hg Hn') as [_ [_ G3]]. destruct y as [q|]; cbn; split; intros e He;
      [apply eokF_head; exact He|apply eokF_tail; [intro Hin; apply Hk, G3, Hin|exact He]|contradiction|exact He].
  - intros. apply eres_ok_nil.
  - intros. apply eres_ok_nil.
  - intros obj src k occs p s fd r1 Hi IH.
    apply (eres_catch _ _ (f_type fd)) in IH; [|apply inv1_rinv; exact ((run_inv E) _ Hi)].
    eapply eres_xmap; [|exact IH]. auto.
  - intros obj src k occs s fd r1 y s' r Hi IH Ec _ _ IHd.
    apply (eres_catch _ _ (f_type fd)) in IH; [|apply inv1_rinv; exact ((run_inv E) _ Hi)]. rewrite Ec in IH.
    apply (run_pos E), (posr_catch _ (f_type fd)) in Hi. rewrite Ec in Hi.
    eapply eres_xmap; [|exact (eres_forced _ _ _ _ _ IH (IHd _ Hi))]. auto.
  - intros obj src k occs p s fd fuel args o _ _ _ _ _.
    eapply eres_errs_eq; [apply after_call_errs|apply eres_ok_nil].
  - intros obj src k occs p s fd fuel args o thunked r _ _ _ _ _ _ IH.
    apply eres_escapes. eapply eres_errs_eq; [apply after_call_errs|exact IH].
  - intros t nodes occs p v s r _ IH. exact IH.
  - intros. exact I.
  - intros q s _ b _. split; [intros r0 H0; exact H0|apply eres_ok_nil].
  - intros l s r _ IH b Hq. destruct (IH b 0%N (Pos_inv _ _ Hq)) as [K H]. split.
    + destruct r as [ys s'|e s'|]; cbn; auto. apply keeps_list. exact K.
    + eapply eres_xmap; [|exact H]. intros ys e. apply eokL_list.
  - intros l s r _ IH b Hq. destruct (Pos_inv _ _ Hq) as [Hn HF]. destruct (IH b HF Hn) as [K H]. split.
    + destruct r as [ys s'|e s'|]; cbn; auto. apply K.
    + eapply eres_xmap; [|exact H]. auto.
  - intros. split; exact I.
  - intros t nodes occs p o s r1 y s' r Ho IH Ec _ IHd b Hq.
    destruct (Pos_inv _ _ Hq) as [-> Hnn].
    apply (eres_catch _ _ t) in IH; [|apply inv1_rinv; exact ((run_inv E) _ Ho)]. rewrite Ec in IH.
    apply (run_pos E), (posr_catch _ t) in Ho. rewrite Ec in Ho. split; [|exact (eres_forced _ _ _ _ _ IH (IHd _ Ho))].
    destruct r as [y' s''|e s''|]; auto. apply keeps_thunk.
  - intros s b i _. split; [auto|apply eres_ok_nil].
  - intros. split; exact I.
  - intros x l s y s' r _ IH _ IH2 b i Hl. destruct (PosL_cons_inv _ _ _ _ Hl) as [Hy Hr].
    destruct (IH _ Hy) as [K1 H1]. destruct (IH2 _ _ Hr) as [K2 H2]. split.
    + destruct r as [ys s''|e s''|]; cbn; auto.
      intros [|j] r0 H0; unfold qn_nth in *; cbn [nth_error] in *; [apply K1; exact H0|apply (K2 j r0); exact H0].
    + eapply eres_then; [exact H1|exact H2|]. intros ys s'' _. split; intros e; [apply eokL_head|apply eokL_tail].
  - intros s b _ _. split; [split; [reflexivity|intros r0 H0; exact H0]|apply eres_ok_nil].
  - intros. split; exact I.
  - intros k x l s y s' r _ IH _ IH2 b Hl Hn. destruct (PosF_cons_inv _ _ _ _ Hl) as [Hy Hr].
    apply NoDup_cons_iff in Hn. destruct Hn as [Hk Hn'].
    destruct (IH _ Hy) as [K1 H1]. destruct (IH2 _ Hr Hn') as [K2 H2]. split.
    + destruct r as [ys s''|e s''|]; cbn; auto. destruct K2 as [M2 S2].
      split; [cbn; rewrite M2; reflexivity|apply keeps_fcons; assumption].
    + eapply eres_then; [exact H1|exact H2|]. intros ys s'' ->. destruct K2 as [M2 _].
      split; intros e He; [apply eokF_head; exact He|apply eokF_tail; [rewrite M2; exact Hk|exact He]].
Qed.

(* C18: every error path of a completed request addresses a null of the data, at the path
   itself or at one of its prefixes *)
Theorem request_error_paths_null : forall fuel S D opn inputs root or tor d s,
  request fuel S D opn inputs root or tor = RDone (Some d) s -> paths_ok (Some d) (st_errs s) = true.
Proof.
  intros fuel S D opn inputs root or tor d s H.
  destruct (request_run _ _ _ _ _ _ _ _ _ _ H) as [op [rt [vars [g [v [_ [_ [_ [Ec Hf]]]]]]]]].
  assert (Hkeys : NoDup (map fst g)) by (eapply collect_keys_nodup; [exact Ec|constructor]).
  match type of Hf with Finished ?E0 _ _ _ _ _ => set (E := E0) in * end.
  inversion Hf as [fs s1 q s' Hg Hd|]; subst.
  destruct (run_pos E _ Hg Hkeys) as [G1 [G2 _]].
  destruct (eres_forced [] _ (QObj fs) _ _ (run_errs E _ Hg Hkeys) (run_errs E _ Hd [] (Pos_obj _ _ G2 G1))) as [es [E1 F1]].
  unfold paths_ok. apply forallb_forall. intros e He. rewrite E1 in He. rewrite Forall_forall in F1.
  destruct (F1 e He) as [r0 [R1 R2]]. cbn [app] in R1. rewrite R1. apply qnull_to_resp. exact R2.
Qed.
Print Assumptions request_error_paths_null.

(* The two theorems are not vacuous: a query whose list field is deferred, whose second item has
   a field that is deferred and fails, with an aliased second occurrence of the same field.  The
   request completes with data, five invocations and one error, whose path addresses the null. *)
Definition ex_schema : schema :=
  {| s_types := [("Q", TObject [{| f_name := "a"; f_args := []; f_type := TNamed "Int" |};
                                {| f_name := "l"; f_args := []; f_type := TList (TNonNull (TNamed "Q")) |}] []);
                 ("Int", TScalar SInt)];
     s_query := "Q"; s_mutation := None |}.
Definition ex_doc : document :=
  {| d_ops := [{| o_kind := OpQuery; o_name := None; o_vars := [];
                  o_sel := [SField 0%N None "l" [] []
                                   [SField 1%N (Some "x") "a" [] [] []; SField 2%N None "a" [] [] []]] |}];
     d_frags := [] |}.
Definition ex_oracle : oracle := fun p =>
  match p with
  | [PKey "l"] => Some (OThunk (OVal (RList [RObj 1%N "Q"; RObj 2%N "Q"])))
  | [PKey "l"; PIdx 1%N; PKey "a"] => Some (OThunk OErr)
  | _ => Some (OVal (RInt 7))
  end.

Example paths_nonvacuous :
  exists s,
    request 10 ex_schema ex_doc None [] (RObj 0%N "Q") ex_oracle (fun _ => Some "Q")
    = RDone (Some (PObj [("l", PList [PObj [("x", PLeaf (JInt 7)); ("a", PLeaf (JInt 7))];
                                      PObj [("x", PLeaf (JInt 7)); ("a", PNull)]])])) s /\
    map c_path (st_calls s) = [[PKey "l"]; [PKey "l"; PIdx 0%N; PKey "x"]; [PKey "l"; PIdx 0%N; PKey "a"];
                               [PKey "l"; PIdx 1%N; PKey "x"]; [PKey "l"; PIdx 1%N; PKey "a"]] /\
    map e_path (st_errs s) = [[PKey "l"; PIdx 1%N; PKey "a"]].
Proof. eexists. split; [vm_compute; reflexivity|split; reflexivity]. Qed.

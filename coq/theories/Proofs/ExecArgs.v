(* C20, "its arguments are the coerced arguments of that field, and its info names ... the
   field's occurrences in the document": for EVERY resolver invocation of a request -- also
   inside subtrees nulled later -- the occurrences it is told about are field nodes of the
   document (in an operation, a fragment, or below such a node), all with ... the invocation's
   field name being the first one's, and the argument map is what input coercion
   (get_argument_values, specified by C05) yields from the first occurrence's argument literals
   against the argument definitions of the schema field (parent type, field name) under the
   request's coerced variables.  Here: what that says (args_ok) and that CollectFields only yields
   field nodes of the document; the theorem (request_told) is proved in Proofs/ExecSource.v together
   with the accuracy of sources. *)
From Coq Require Import List String.
From GQL Require Import Exec.Syntax Exec.Coerce Exec.Exec Exec.Request Exec.Conform
     Proofs.CollectProofs Proofs.ExecCoverage.
Import ListNotations.
Open Scope string_scope.
Open Scope list_scope.

(* selection sets of the document: of an operation, of a fragment, or below a field / inline fragment *)
Inductive Reach (D : document) : list selection -> Prop :=
| R_op op : In op (d_ops D) -> Reach D (o_sel op)
| R_frag f : In f (d_frags D) -> Reach D (fr_sel f)
| R_field sels id al nm args ds sub : Reach D sels -> In (SField id al nm args ds sub) sels -> Reach D sub
| R_inline sels id tc ds sub : Reach D sels -> In (SInline id tc ds sub) sels -> Reach D sub.

(* o is (the relevant projection of) a field node of the document *)
Definition field_node (D : document) (o : occ) : Prop :=
  exists sels al ds, Reach D sels /\ In (SField (oc_id o) al (oc_name o) (oc_args o) ds (oc_sub o)) sels.

Lemma field_node_sub : forall D o, field_node D o -> Reach D (oc_sub o).
Proof. intros D o [sels [al [ds [H1 H2]]]]. eapply R_field; eassumption. Qed.

Lemma Occurs_node : forall S D vars obj sels k o,
  Occurs S D vars obj sels k o -> Reach D sels -> field_node D o.
Proof.
  intros S D vars obj sels k o H. induction H as [sels id al nm args ds sub Hin _|sels id tc ds sub k o Hin _ _ _ IH|sels id nm ds f k o Hin _ Hf _ _ IH]; intros HR.
  - exists sels, al, ds. split; [exact HR|exact Hin].
  - apply IH. eapply R_inline; eassumption.
  - apply IH. apply R_frag. exact (proj1 (find_fragment_in _ _ _ Hf)).
Qed.

Definition occs_ok (D : document) (occs : list occ) : Prop := Forall (field_node D) occs.
Definition groups_ok (D : document) (g : groups) : Prop := forall k o, in_group g k o -> field_node D o.

Lemma collect_nodes : forall fuel S D vars obj sels visited g g' v',
  collect fuel S D vars obj sels visited g = Some (g', v') -> Reach D sels -> groups_ok D g -> groups_ok D g'.
Proof.
  intros fuel S D vars obj sels visited g g' v' H HR Hg k o Hin.
  destruct (collect_sound _ _ _ _ _ _ _ _ _ _ H k o Hin) as [H1|H1]; [apply (Hg k o H1)|].
  eapply Occurs_node; eassumption.
Qed.

Lemma collect_all_nodes : forall fuel S D vars obj sets visited g g',
  collect_all fuel S D vars obj sets visited g = Some g' ->
  (forall s, In s sets -> Reach D s) -> groups_ok D g -> groups_ok D g'.
Proof.
  intros fuel S D vars obj sets. induction sets as [|x sets IH]; intros visited g g' H HR Hg; cbn [collect_all] in H.
  - inversion H; subst. exact Hg.
  - destruct (collect fuel S D vars obj x visited g) as [[g1 v1]|] eqn:E1; [|discriminate].
    eapply IH; [exact H|intros s Hs; apply HR; right; exact Hs|].
    eapply collect_nodes; [exact E1|apply HR; left; reflexivity|exact Hg].
Qed.

Lemma groups_ok_nil : forall D, groups_ok D [].
Proof. intros D k o [os [[] _]]. Qed.

Lemma groups_ok_head : forall D k occs g, groups_ok D ((k, occs) :: g) -> occs_ok D occs /\ groups_ok D g.
Proof.
  intros D k occs g H. split.
  - apply Forall_forall. intros o Ho. apply (H k o). exists occs. split; [left; reflexivity|exact Ho].
  - intros k' o [os [H1 H2]]. apply (H k' o). exists os. split; [right; exact H1|exact H2].
Qed.

Section Args.
Variable E : env.

Definition args_ok (c : call) : Prop :=
  exists occs fd fuel,
    occs_ok (en_D E) occs /\ c_nodes c = map oc_id occs /\ c_field c = first_name occs /\
    find_field (c_field c) (object_fields (en_S E) (c_parent c)) = Some fd /\
    get_argument_values fuel (en_S E) (f_args fd) (first_args occs) (Some (en_vars E)) = Some (c_args c).

End Args.

Lemma find_op_in : forall n ops acc op, find_op n ops acc = Some op -> In op ops \/ acc = Some op.
Proof.
  intros n ops. induction ops as [|o ops IH]; intros acc op H; cbn in H; [right; exact H|].
  destruct (IH _ _ H) as [Hin|Hacc]; [left; right; exact Hin|].
  destruct (o_name o) as [m|]; [|right; exact Hacc].
  destruct (String.eqb m n); [inversion Hacc; subst; left; left; reflexivity|right; exact Hacc].
Qed.

Lemma get_operation_in : forall D opn op, get_operation D opn = Some op -> In op (d_ops D).
Proof.
  intros D [n|] op H; cbn in H.
  - destruct (find_op_in _ _ _ _ H) as [Hin|Habs]; [exact Hin|discriminate].
  - destruct (d_ops D) as [|o [|o2 r]]; try discriminate. inversion H; subst. left. reflexivity.
Qed.

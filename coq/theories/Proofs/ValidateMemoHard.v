(* The memo tables never hide a conflict: if the memoised algorithm (L3) completes within
   its fuel and reports nothing, the unmemoised algorithm (L2) reports nothing at any fuel.
   Proof: the memoised run is a depth-first exploration with a visited set; when it ends,
   every memo entry is "locally correct" with respect to the final tables (its own field
   comparisons passed and everything it would recurse into is covered by an entry).  The
   questions covered by such tables are closed under the one-step checks, so the unmemoised
   run answers them silently (ValidateRun.silent_overlap). *)
From Coq Require Import List Bool NArith.
From GQL Require Import Exec.Syntax Validate.Overlap Validate.OverlapSpec Validate.Cost
     Proofs.ValidateRules Proofs.ValidateOverlap Proofs.ValidateRun Proofs.ValidateCost.
Import ListNotations.
Open Scope string_scope.
Open Scope list_scope.

Section Hard.
Variable S : schema.
Variable D : document.
Notation base := (base_ok S).
Notation fields := (fields S).
Notation fbody := (fbody S D).

Definition body_of (fr : fragment) : fset := (resolve S (fr_cond fr), fr_sel fr).

(* the selection sets the algorithm can be called on *)
Inductive DS : fset -> Prop :=
| DS_top : forall s, In s (all_sets S D) -> DS s
| DS_frag : forall g fr, frag D g = Some fr -> DS (body_of fr)
| DS_sub : forall s e, DS s -> In e (dfields S (fst s) (snd s)) -> DS (sub_pt e, fe_sub e).

Lemma DS_body : forall g b, fbody g = Some b -> DS b.
Proof.
  intros g b E. unfold OverlapSpec.fbody in E. destruct (frag D g) as [fr|] eqn:Ef; [|discriminate].
  inversion E. apply (DS_frag g fr Ef).
Qed.

(* a field of one of those sets *)
Definition Dfield (a : fentry) : Prop := exists s, DS s /\ In a (fields s).
Definition Dfields (l : list fentry) : Prop := forall a, In a l -> Dfield a.

Lemma DS_fields : forall s, DS s -> Dfields (fields s).
Proof. intros s Hs a Ha. exists s. auto. Qed.

Lemma DS_field_sub : forall a, Dfield a -> DS (subset_of a).
Proof. intros a (s & Hs & Ha). apply (DS_sub s a Hs Ha). Qed.

(* selection sets are identified by (parent type, id of the first selection), as the
   implementation identifies them by pointer *)
Hypothesis key_inj : forall s s', DS s -> DS s' ->
  fst s = fst s' -> first_id (snd s) = first_id (snd s') -> s = s'.
(* the two-field test is symmetric on the document's fields (unique argument names) *)
Hypothesis base_sym : forall x y ex, Dfield x -> Dfield y -> base ex x y = base ex y x.

Definition psym (V : mst) : Prop :=
  forall a b, pair_find a b (m_pairs V) = pair_find b a (m_pairs V).

(* what the tables V answer without looking further *)
Definition covF (V : mst) (fl : bool) (s : fset) (g : name) : Prop :=
  ff_has V (fst s) (first_id (snd s)) g fl = true.
Definition covP (V : mst) (fl : bool) (g1 g2 : name) : Prop :=
  fbody g1 = None \/ fbody g2 = None \/ g1 = g2 \/ pair_has V g1 g2 fl = true.

(* the decomposition, cut off at the questions about fragments *)
Inductive FCc (V : mst) : bool -> fentry -> fentry -> Prop :=
| FCc_i : forall fl a b,
    base (exf S fl a b) a b = true ->
    (has_sub a && has_sub b = true -> SUBc V (exf S fl a b) (subset_of a) (subset_of b)) ->
    FCc V fl a b
with SUBc (V : mst) : bool -> fset -> fset -> Prop :=
| SUBc_i : forall fl s1 s2,
    (forall a b, In a (fields s1) -> In b (fields s2) -> fe_key a = fe_key b -> FCc V fl a b) ->
    (forall g, In g (dspreads (snd s2)) -> covF V fl s1 g) ->
    (forall g, In g (dspreads (snd s1)) -> covF V fl s2 g) ->
    (forall g1 g2, In g1 (dspreads (snd s1)) -> In g2 (dspreads (snd s2)) -> covP V fl g1 g2) ->
    SUBc V fl s1 s2.

Scheme FCc_ind' := Induction for FCc Sort Prop
with SUBc_ind' := Induction for SUBc Sort Prop.
Combined Scheme cut_mutind from FCc_ind', SUBc_ind'.

(* an entry is locally correct: what its call compared passed, what it recursed into is covered *)
Definition FFloc (V : mst) (fl : bool) (s : fset) (g : name) : Prop :=
  forall b, fbody g = Some b ->
    same_set s b = true \/
    (Cbt (FCc V) fl (fields s) (fields b) /\ (forall h, In h (dspreads (snd b)) -> covF V fl s h)).

Definition FRloc (V : mst) (fl : bool) (g1 g2 : name) : Prop :=
  forall b1 b2, fbody g1 = Some b1 -> fbody g2 = Some b2 ->
    Cbt (FCc V) fl (fields b1) (fields b2) /\
    (forall h, In h (dspreads (snd b2)) -> covP V fl g1 h) /\
    (forall h, In h (dspreads (snd b1)) -> covP V fl h g2).

Definition okF (V : mst) (e : ptype * N * name * bool) : Prop :=
  let '(p, k, g, fl) := e in
  exists s, DS s /\ fst s = p /\ first_id (snd s) = k /\ FFloc V fl s g.
Definition okP (V : mst) (e : name * name * bool) : Prop :=
  let '(a, b, fl) := e in FRloc V fl a b \/ FRloc V fl b a.

Definition Closed (V : mst) : Prop :=
  (forall e, In e (m_ffs V) -> okF V e) /\ (forall e, In e (m_pairs V) -> okP V e).

(* the entries of st' that st does not have are locally correct with respect to V *)
Definition New (st st' V : mst) : Prop :=
  (forall e, In e (m_ffs st') -> In e (m_ffs st) \/ okF V e) /\
  (forall e, In e (m_pairs st') -> In e (m_pairs st) \/ okP V e).

Lemma New_refl : forall st V, New st st V.
Proof. intros st V. split; intros e H; left; exact H. Qed.
Lemma New_trans : forall a b c V, New a b V -> New b c V -> New a c V.
Proof.
  intros a b c V (H1 & H2) (K1 & K2). split; intros e He.
  - destruct (K1 e He) as [Hb|Hok]; [apply H1, Hb | right; exact Hok].
  - destruct (K2 e He) as [Hb|Hok]; [apply H2, Hb | right; exact Hok].
Qed.

Definition ext (st st' : mst) : Prop :=
  (forall p k g fl, ff_has st p k g fl = true -> ff_has st' p k g fl = true) /\
  (forall a b fl, pair_has st a b fl = true -> pair_has st' a b fl = true) /\
  (m_oof st = true -> m_oof st' = true).

Lemma ext_refl : forall st, ext st st.
Proof. intro st. repeat split; auto. Qed.
Lemma ext_trans : forall a b c, ext a b -> ext b c -> ext a c.
Proof. intros a b c (H1 & H2 & H3) (K1 & K2 & K3). repeat split; auto. Qed.

Lemma oof_back : forall st st', ext st st' -> m_oof st' = false -> m_oof st = false.
Proof.
  intros st st' (_ & _ & H) E. destruct (m_oof st) eqn:E0; [|reflexivity].
  rewrite (H eq_refl) in E. discriminate.
Qed.

Definition fle (a b : bool) : Prop := a = true -> b = true.

Lemma answers_self : forall fl, answers (Some fl) fl = true.
Proof. intros [|]; reflexivity. Qed.

Lemma answers_flag : forall o fl fl', fle fl fl' -> answers o fl = true -> answers o fl' = true.
Proof. intros [[|]|] [|] [|] L H; try reflexivity; try discriminate; discriminate (L eq_refl). Qed.

Lemma answers_entry : forall o fl, answers o fl = true -> exists fl0, o = Some fl0 /\ fle fl0 fl.
Proof. intros [fl0|] fl H; [|discriminate]. exists fl0. split; [reflexivity|]. intro E. subst fl0. destruct fl; [reflexivity | discriminate]. Qed.

Lemma answers_add : forall o fl fl', answers o fl = false -> answers o fl' = true -> answers (Some fl) fl' = true.
Proof. intros [[|]|] [|] [|] Hn H; try reflexivity; discriminate. Qed.

Lemma ff_key_refl : forall p k g, (pt_eqb p p && N.eqb k k && String.eqb g g) = true.
Proof. intros. apply ff_key_cases. auto. Qed.

Lemma ff_has_add_self : forall st p k g fl, ff_has (ff_add st p k g fl) p k g fl = true.
Proof. intros. unfold ff_has, ff_add. simpl. rewrite ff_key_refl. apply answers_self. Qed.

Lemma ext_ff_add : forall st p k g fl, ff_has st p k g fl = false -> ext st (ff_add st p k g fl).
Proof.
  intros st p k g fl Hn. split; [|split]; [|intros; assumption|intro H; exact H].
  intros p' k' g' fl' H. unfold ff_has, ff_add in *. simpl.
  destruct (pt_eqb p' p && N.eqb k' k && String.eqb g' g) eqn:E; [|exact H].
  apply ff_key_cases in E. destruct E as [E1 [E2 E3]]. subst p' k' g'. exact (answers_add _ fl fl' Hn H).
Qed.

Lemma psym_add : forall st a b fl, psym st -> psym (pair_add st a b fl).
Proof.
  intros st a b fl K x y. unfold pair_add. simpl.
  rewrite (andb_comm (String.eqb y a)), (andb_comm (String.eqb y b)), (K x y).
  destruct (String.eqb x a && String.eqb y b), (String.eqb x b && String.eqb y a); reflexivity.
Qed.

Lemma pair_has_add_self : forall st a b fl, pair_has (pair_add st a b fl) a b fl = true.
Proof. intros. unfold pair_has, pair_add. simpl. rewrite !String.eqb_refl. apply answers_self. Qed.

Lemma ext_pair_add : forall st a b fl,
  psym st -> pair_has st a b fl = false -> ext st (pair_add st a b fl).
Proof.
  intros st a b fl K Hn. split; [intros; assumption|]. split; [|intro H; exact H].
  intros x y fl' H. unfold pair_has, pair_add in *. simpl.
  destruct (String.eqb x a && String.eqb y b) eqn:E1.
  - apply eqb_pair_cases in E1. destruct E1; subst x y. exact (answers_add _ fl fl' Hn H).
  - destruct (String.eqb x b && String.eqb y a) eqn:E2; [|exact H].
    apply eqb_pair_cases in E2. destruct E2; subst x y. rewrite (K b a) in H. exact (answers_add _ fl fl' Hn H).
Qed.

(* The specification of one call of the memoised algorithm, with respect to tables V that
   the run may reach later: the tables only grow, and if the call is silent and within its
   fuel and V lies beyond its result, then P holds and the entries the call made are locally
   correct with respect to V.  Speaking of a later V, not of the tables at the end of the
   call, is what lets the pieces of a run compose without a monotonicity argument. *)
Section AtV.
Variable V : mst.

Definition spec_at (st : mst) (r : list N * mst) (P : Prop) : Prop :=
  psym st ->
  psym (snd r) /\ ext st (snd r) /\ (clean r -> ext (snd r) V -> P /\ New st (snd r) V).
Definition spec (p : act) (P : Prop) : Prop := forall st, spec_at st (p st) P.

Lemma spec_oof : forall st P, spec_at st ([], set_oof st) P.
Proof.
  intros st P Ps. split; [exact Ps|]. split; [repeat split; auto|]. intros [_ H]. discriminate.
Qed.

Lemma spec_here : forall st (P : Prop), (ext st V -> P) -> spec_at st ([], st) P.
Proof.
  intros st P H Ps. split; [exact Ps|]. split; [apply ext_refl|]. intros _ EV.
  split; [apply H, EV | apply New_refl].
Qed.

Lemma spec_cov : covariant spec.
Proof.
  split.
  - intros p q P E H st. rewrite E. apply H.
  - intros P H st. apply spec_here. intros _. exact H.
  - intros p P Q H Sp st Ps. destruct (Sp st Ps) as (Pr & E & C). split; [exact Pr|]. split; [exact E|].
    intros Hc EV. destruct (C Hc EV) as (HP & N). split; [apply H; exact HP | exact N].
  - intros p q P Q Hp Hq st Ps. destruct (Hp st Ps) as (P1 & E1 & C1). destruct (Hq _ P1) as (P2 & E2 & C2).
    split; [exact P2|]. split; [eapply ext_trans; eauto|]. intros [Hc Ho] EV.
    apply app_eq_nil in Hc. destruct Hc as [Hc1 Hc2].
    destruct (C2 (conj Hc2 Ho) EV) as [HQ N2].
    destruct (C1 (conj Hc1 (oof_back _ _ E2 Ho)) (ext_trans _ _ _ E2 EV)) as [HP N1].
    split; [split; assumption | eapply New_trans; eauto].
Qed.

(* a memo lookup: a hit answers the question; otherwise the new entry must be justified by
   what the body establishes *)
Lemma spec_guard : forall hit add body (Pb P : Prop),
  (forall st, hit st = true -> ext st V -> P) ->
  (forall st, psym st -> hit st = false -> psym (add st) /\ ext st (add st)) ->
  (forall st, hit st = false -> ext (add st) V -> Pb -> P /\ New st (add st) V) ->
  spec body Pb -> spec (guard true hit add body) P.
Proof.
  intros hit add body Pb P H1 H2 H3 Hb st. unfold guard. simpl. destruct (hit st) eqn:E.
  - apply spec_here. apply (H1 st E).
  - intro Ps. destruct (H2 st Ps E) as [Pa Ea]. destruct (Hb (add st) Pa) as (Pr & Eb & C).
    split; [exact Pr|]. split; [eapply ext_trans; eauto|]. intros Hc EV. destruct (C Hc EV) as [HPb N].
    destruct (H3 st E (ext_trans _ _ _ Eb EV) HPb) as [HP N0]. split; [exact HP | eapply New_trans; eauto].
Qed.

Lemma same_set_eq : forall s s', DS s -> DS s' -> same_set s s' = true -> s = s'.
Proof.
  intros s s' H H' E. unfold same_set in E. apply andb_true_iff in E. destruct E as [E1 E2].
  apply pt_eqb_eq in E1. apply N.eqb_eq in E2. apply key_inj; assumption.
Qed.

Lemma memo_spec : forall f,
  (forall fl a b, Dfield a -> Dfield b -> spec (Overlap.fc S D true f fl a b) (FCc V fl a b)) /\
  (forall fl l1 l2, Dfields l1 -> Dfields l2 -> spec (between S D true f fl l1 l2) (Cbt (FCc V) fl l1 l2)) /\
  (forall fl s1 s2, DS s1 -> DS s2 -> spec (Overlap.subsets S D true f fl s1 s2) (SUBc V fl s1 s2)) /\
  (forall fl s g, DS s -> spec (ffrag S D true f fl s g) (covF V fl s g)) /\
  (forall fl g1 g2, spec (frfr S D true f fl g1 g2) (covP V fl g1 g2)).
Proof.
  induction f as [|f (Ifc & Ibt & Isub & Iff & Ifr)]; [split; [|split; [|split; [|split]]]; intros; intro st; apply spec_oof|].
  split; [|split; [|split; [|split]]].
  - (* fc: counting the call changes nothing the specification talks about *)
    intros fl a b Ha Hb st Ps. rewrite fc_S.
    assert (E0 : ext st (inc_fc st)) by (repeat split; auto).
    destruct (negb (base (exf S fl a b) a b)) eqn:Eb.
    { split; [exact Ps|]. split; [exact E0|]. intros [Hc _]. discriminate. }
    apply negb_false_iff in Eb. destruct (has_sub a && has_sub b) eqn:Eh.
    + destruct (Isub (exf S fl a b) (subset_of a) (subset_of b) (DS_field_sub a Ha) (DS_field_sub b Hb) (inc_fc st) Ps)
        as (P & E & C).
      cbv zeta. split; [exact P|]. split; [exact (ext_trans _ _ _ E0 E)|]. intros [Hc Ho] EV. simpl in Hc, Ho.
      destruct (fst (Overlap.subsets _ _ _ _ _ _ _ _)) eqn:Er; [|discriminate].
      destruct (C (conj Er Ho) EV) as [HQ N]. split; [constructor; [exact Eb | intros _; exact HQ] | exact N].
    + split; [exact Ps|]. split; [exact E0|]. intros _ _.
      split; [constructor; [exact Eb | intro H; congruence] | apply (New_refl st)].
  - intros fl l1 l2 I1 I2. apply (cov_between spec_cov). intros a b Ha Hb. apply Ifc; [apply I1, Ha | apply I2, Hb].
  - intros fl s1 s2 H1 H2. eapply (cov_weaken spec_cov);
      [|apply (cov_subsets spec_cov S D true (covF V) (covP V) f fl s1 s2 _ (Ibt fl _ _ (DS_fields s1 H1) (DS_fields s2 H2)));
        intros; [apply Iff, H1 | apply Iff, H2 | apply Ifr]].
    intros (Q1 & Q2 & Q3 & Q4). constructor; auto.
  - intros fl s g Hs. apply (cov_ext spec_cov _ _ _ (ffrag_S S D true f fl s g)).
    apply (spec_guard _ _ _ (FFloc V fl s g)).
    + intros st Eh (E & _). apply E, Eh.
    + intros st Ps Eh. split; [exact Ps | apply ext_ff_add, Eh].
    + intros st _ (E & _) HL. split; [apply E, ff_has_add_self|].
      split; [|intros e He; left; exact He]. intros e [He|He]; [|left; exact He]. right. subst e. exists s. auto.
    + destruct (fbody g) as [b|] eqn:Eb; [|apply (cov_ret spec_cov); intros b' Eb'; congruence].
      destruct (same_set s b) eqn:Es; [apply (cov_ret spec_cov); intros b' Eb'; left; congruence|].
      eapply (cov_weaken spec_cov); [|apply (cov_andthen spec_cov);
        [apply (Ibt fl _ _ (DS_fields s Hs) (DS_fields b (DS_body g b Eb))) | apply (cov_seq spec_cov); intros h _; apply (Iff fl s h Hs)]].
      intros HQ b' Eb'. rewrite Eb in Eb'. inversion Eb'; subst b'. right. exact HQ.
  - intros fl g1 g2 st. rewrite frfr_S.
    destruct (fbody g1) as [b1|] eqn:E1; [|apply spec_here; left; exact E1].
    destruct (fbody g2) as [b2|] eqn:E2; [|apply spec_here; right; left; exact E2].
    destruct (String.eqb g1 g2) eqn:Eg; [apply spec_here; right; right; left; apply String.eqb_eq, Eg|].
    revert st. apply (spec_guard _ _ _ (FRloc V fl g1 g2)).
    + intros st Eh (_ & E & _). right. right. right. apply E, Eh.
    + intros st Ps Eh. split; [apply psym_add, Ps | apply ext_pair_add; assumption].
    + intros st _ (_ & E & _) HL. split; [right; right; right; apply E, pair_has_add_self|].
      split; [intros e He; left; exact He|].
      intros e [He|[He|He]]; [right; subst e; left; exact HL | right; subst e; right; exact HL | left; exact He].
    + eapply (cov_weaken spec_cov); [|repeat apply (cov_andthen spec_cov);
        [apply (Ibt fl _ _ (DS_fields b1 (DS_body g1 b1 E1)) (DS_fields b2 (DS_body g2 b2 E2)))
        | apply (cov_seq spec_cov); intros h _; apply (Ifr fl g1 h)
        | apply (cov_seq spec_cov); intros h _; apply (Ifr fl h g2)]].
      intros HQ c1 c2 Ec1 Ec2. rewrite E1 in Ec1. rewrite E2 in Ec2. inversion Ec1; inversion Ec2; subst c1 c2. exact HQ.
Qed.

Lemma within_set_spec : forall fuel s, DS s ->
  spec (within_set S D true fuel s) (within_lt S (FCc V) (covF V) (covP V) s).
Proof.
  intros fuel s Hs. destruct (memo_spec fuel) as (Ifc & _ & _ & Iff & Ifr).
  apply (cov_within_set spec_cov); intros; [apply Ifc; apply (DS_fields s Hs); assumption | apply Iff, Hs | apply Ifr].
Qed.
End AtV.

Notation within_c V := (within_lt S (FCc V) (covF V) (covP V)).

Lemma memo_run_closed : forall fuel,
  let V := final_state S D true fuel in
  psym V /\
  (m_oof V = false -> run_overlap S D true fuel = [] ->
   Closed V /\ forall s, In s (all_sets S D) -> within_c V s).
Proof.
  intros fuel V. unfold V, final_state, run_overlap.
  destruct (cov_seq (spec_cov V) (within_set S D true fuel) (fun s => within_c V s) (all_sets S D)
              (fun s Hs => within_set_spec V fuel s (DS_top s Hs)) mst0 (fun a b => eq_refl)) as (P & E & C).
  split; [exact P|]. intros Ho Ef. destruct (C (conj Ef Ho) (ext_refl _)) as (HQ & (Nf & Np)). split; [|exact HQ]. split.
  - intros e He. destruct (Nf e He) as [[]|H]. exact H.
  - intros e He. destruct (Np e He) as [[]|H]. exact H.
Qed.

Lemma ff_find_in : forall p k g l f, ff_find p k g l = Some f -> In (p, k, g, f) l.
Proof.
  intros p k g l. induction l as [|[[[p' k'] g'] f'] r IH]; simpl; intros f H; [discriminate|].
  destruct (pt_eqb p p' && N.eqb k k' && String.eqb g g') eqn:E.
  - apply ff_key_cases in E. destruct E as [E1 [E2 E3]]. subst. inversion H; subst. left. reflexivity.
  - right. apply IH. exact H.
Qed.

Lemma ff_has_entry : forall V p k g fl, ff_has V p k g fl = true ->
  exists fl0, In (p, k, g, fl0) (m_ffs V) /\ fle fl0 fl.
Proof.
  intros V p k g fl H. destruct (answers_entry _ _ H) as (fl0 & E & L). exists fl0. split; [apply ff_find_in, E | exact L].
Qed.

Lemma pair_has_entry : forall V a b fl, pair_has V a b fl = true ->
  exists fl0, In (a, b, fl0) (m_pairs V) /\ fle fl0 fl.
Proof.
  intros V a b fl H. destruct (answers_entry _ _ H) as (fl0 & E & L). exists fl0. split; [apply pair_find_in, E | exact L].
Qed.

Lemma covF_flag : forall V fl fl' s g, fle fl fl' -> covF V fl s g -> covF V fl' s g.
Proof. intros V fl fl' s g L H. exact (answers_flag _ fl fl' L H). Qed.

Lemma covP_flag : forall V fl fl' g1 g2, fle fl fl' -> covP V fl g1 g2 -> covP V fl' g1 g2.
Proof.
  intros V fl fl' g1 g2 L [H|[H|[H|H]]]; [left; exact H|right; left; exact H|right; right; left; exact H|].
  right. right. right. exact (answers_flag _ fl fl' L H).
Qed.

Lemma cut_flag : forall V,
  (forall fl a b, FCc V fl a b -> forall fl', fle fl fl' -> FCc V fl' a b) /\
  (forall fl s1 s2, SUBc V fl s1 s2 -> forall fl', fle fl fl' -> SUBc V fl' s1 s2).
Proof.
  intro V. apply cut_mutind.
  - intros fl a b Hb Hs IH fl' L. unfold exf in *.
    assert (L' : fle (fl || excl S a b) (fl' || excl S a b)).
    { intro H. destruct (excl S a b); [apply orb_true_r|]. rewrite orb_false_r in *. apply L. exact H. }
    constructor; unfold exf.
    + destruct (fl || excl S a b) eqn:E1; [rewrite (L' eq_refl); exact Hb|].
      destruct (fl' || excl S a b); [apply base_ok_mono; exact Hb | exact Hb].
    + intro Hh. apply (IH Hh). exact L'.
  - intros fl s1 s2 H1 IH1 H2 H3 H4 fl' L. constructor.
    + intros a b Ha Hb Hk. apply (IH1 a b Ha Hb Hk). exact L.
    + intros g Hg. eapply covF_flag; eauto.
    + intros g Hg. eapply covF_flag; eauto.
    + intros g1 g2 Hg1 Hg2. eapply covP_flag; eauto.
Qed.

Lemma covP_sym : forall V fl g1 g2, psym V -> covP V fl g1 g2 -> covP V fl g2 g1.
Proof.
  intros V fl g1 g2 K [H|[H|[H|H]]]; [right; left; exact H|left; exact H|right; right; left; symmetry; exact H|].
  right. right. right. unfold pair_has in *. rewrite <- (K g1 g2). exact H.
Qed.

Lemma cut_sym : forall V, psym V ->
  (forall fl a b, FCc V fl a b -> Dfield a -> Dfield b -> FCc V fl b a) /\
  (forall fl s1 s2, SUBc V fl s1 s2 -> DS s1 -> DS s2 -> SUBc V fl s2 s1).
Proof.
  intros V K. apply cut_mutind.
  - intros fl a b Hb Hs IH Ha Hb'. constructor.
    + rewrite exf_sym, (base_sym b a _ Hb' Ha). exact Hb.
    + intro Hh. rewrite exf_sym. rewrite andb_comm in Hh.
      apply (IH Hh (DS_field_sub a Ha) (DS_field_sub b Hb')).
  - intros fl s1 s2 H1 IH1 H2 H3 H4 D1 D2. constructor.
    + intros a b Ha Hb Hk. apply (IH1 b a Hb Ha (eq_sym Hk) (DS_fields s1 D1 b Hb) (DS_fields s2 D2 a Ha)).
    + exact H3.
    + exact H2.
    + intros g1 g2 Hg1 Hg2. apply covP_sym; [exact K|]. apply H4; assumption.
Qed.

(* the memo tables never hide a conflict: the questions that symmetric, closed tables cover,
   asked about the document's own selection sets, are closed under the one-step checks *)
Theorem memo_never_hides : forall fuel fuel',
  run_complete S D true fuel = true ->
  run_overlap S D true fuel = [] ->
  run_overlap S D false fuel' = [].
Proof.
  intros fuel fuel' Hc Hr. destruct (memo_run_closed fuel) as (Vsym & C).
  apply negb_true_iff in Hc. destruct (C Hc Hr) as ((ClF & ClP) & HW). clear C.
  set (V := final_state S D true fuel) in *.
  apply (silent_overlap S D false
           (fun fl a b => Dfield a /\ Dfield b /\ FCc V fl a b)
           (fun fl s1 s2 => DS s1 /\ DS s2 /\ SUBc V fl s1 s2)
           (fun fl s g => DS s /\ covF V fl s g) (fun fl g1 g2 => covP V fl g1 g2)).
  - intros fl a b (Ha & Hb & H). inversion H as [fl' a' b' Hbase Hs]; subst.
    split; [exact Hbase|]. intro E. split; [apply (DS_field_sub a Ha)|]. split; [apply (DS_field_sub b Hb) | exact (Hs E)].
  - intros fl s1 s2 (D1 & D2 & H). inversion H as [fl' s1' s2' H1 H2 H3 H4]; subst.
    split; [intros a b Ha Hb Hk; split; [apply (DS_fields s1 D1 a Ha)|]; split; [apply (DS_fields s2 D2 b Hb) | apply H1; assumption]|].
    split; [intros g Hg; split; [exact D1 | apply H2, Hg]|]. split; [intros g Hg; split; [exact D2 | apply H3, Hg] | exact H4].
  - intros fl s g b [Hs C] Eb Es. destruct (ff_has_entry V _ _ _ _ C) as [fl0 [Hin L]].
    destruct (ClF _ Hin) as [s0 [D0 [K1 [K2 HL]]]].
    assert (s0 = s) by (apply key_inj; assumption). subst s0.
    destruct (HL b Eb) as [Hsame|[HF HC]]; [rewrite Es in Hsame; discriminate|]. split.
    + intros x y Hx Hy Hk. split; [apply (DS_fields s Hs x Hx)|]. split; [apply (DS_fields b (DS_body g b Eb) y Hy)|].
      apply (proj1 (cut_flag V) fl0 x y (HF x y Hx Hy Hk) fl L).
    + intros h Hh. split; [exact Hs | apply (covF_flag V fl0 fl s h L (HC h Hh))].
  - intros fl g1 g2 b1 b2 C E1 E2 Eg. destruct C as [C|[C|[C|C]]]; try congruence.
    { subst g2. rewrite String.eqb_refl in Eg. discriminate. }
    destruct (pair_has_entry V _ _ _ C) as [fl0 [Hin L]].
    pose proof (DS_body g1 b1 E1) as D1. pose proof (DS_body g2 b2 E2) as D2.
    destruct (ClP _ Hin) as [HL|HL].
    + destruct (HL b1 b2 E1 E2) as (A1 & A2 & A3). split; [|split].
      * intros x y Hx Hy Hk. split; [apply (DS_fields b1 D1 x Hx)|]. split; [apply (DS_fields b2 D2 y Hy)|].
        apply (proj1 (cut_flag V) fl0 x y (A1 x y Hx Hy Hk) fl L).
      * intros h Hh. eapply covP_flag; eauto.
      * intros h Hh. eapply covP_flag; eauto.
    + destruct (HL b2 b1 E2 E1) as (A1 & A2 & A3). split; [|split].
      * intros x y Hx Hy Hk. pose proof (DS_fields b1 D1 x Hx) as Dx. pose proof (DS_fields b2 D2 y Hy) as Dy.
        split; [exact Dx|]. split; [exact Dy|].
        apply (proj1 (cut_sym V Vsym) fl y x (proj1 (cut_flag V) fl0 y x (A1 y x Hy Hx (eq_sym Hk)) fl L) Dy Dx).
      * intros h Hh. apply covP_sym; [exact Vsym|]. eapply covP_flag; [exact L|]. apply A3, Hh.
      * intros h Hh. apply covP_sym; [exact Vsym|]. eapply covP_flag; [exact L|]. apply A2, Hh.
  - intros s Hs. destruct (HW s Hs) as (H1 & H2 & H3). pose proof (DS_top s Hs) as Ds. split; [|split; [|exact H3]].
    + intros k Hk. apply (ForallOrdPairs_impl (FCc V false)); [|apply H1, Hk].
      intros a b Ha Hb H. split; [apply (DS_fields s Ds), (with_key_in k), Ha|]. split; [apply (DS_fields s Ds), (with_key_in k), Hb | exact H].
    + intros g Hg. split; [exact Ds | apply H2, Hg].
Qed.

End Hard.

Lemma base_ok_sym_unique : forall S ex a b,
  NoDup (map fst (fe_args a)) -> NoDup (map fst (fe_args b)) -> base_ok S ex a b = base_ok S ex b a.
Proof.
  intros S ex a b Na Nb. rewrite (base_ok_is_base2 S ex a b Na Nb), (base_ok_is_base2 S ex b a Nb Na).
  unfold base2. apply andb_comm.
Qed.

Definition ids_distinct (S : schema) (D : document) : Prop :=
  forall s s', DS S D s -> DS S D s' -> fst s = fst s' -> first_id (snd s) = first_id (snd s') -> s = s'.
Definition args_unique (S : schema) (D : document) : Prop :=
  forall s x, DS S D s -> In x (dfields S (fst s) (snd s)) -> NoDup (map fst (fe_args x)).

Theorem memo_transparent : forall S D fuel fuel',
  ids_distinct S D -> args_unique S D ->
  run_complete S D true fuel = true ->
  run_overlap S D true fuel = [] ->
  run_overlap S D false fuel' = [].
Proof.
  intros S D fuel fuel' Hid Hargs. apply (memo_never_hides S D Hid).
  intros x y ex (s & Hs & Hx) (s' & Hs' & Hy). apply base_ok_sym_unique; [apply (Hargs s x Hs Hx) | apply (Hargs s' y Hs' Hy)].
Qed.

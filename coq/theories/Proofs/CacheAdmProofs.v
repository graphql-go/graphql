(* The transition relation that the runner accepts as "some eviction policy"
   (CacheSpec.adm_get / adm_bypass) holds of every Get of the model, for every
   eviction policy that names a retained key. *)
From Coq Require Import List NArith Bool Lia FinFun.
From GQL Require Import Base.Bytes Cache.LRU Cache.CacheSpec Proofs.CacheProofs.
Import ListNotations.
Open Scope N_scope.

Section Adm.
  Context {R : Type}.
  Variable kid : bytes -> N.
  Hypothesis kid_inj : forall a b, kid a = kid b -> a = b.

  Definition proj (e : entry R) : pent := (kid (e_key e), e_schema e).

  Lemma pent_eqb_true : forall a b, pent_eqb a b = true <-> a = b.
  Proof.
    intros [a1 a2] [b1 b2]. unfold pent_eqb. simpl. rewrite andb_true_iff, !N.eqb_eq.
    split; [intros [-> ->]; reflexivity|intro H; injection H; auto].
  Qed.

  Lemma mem_pent_In : forall a l, mem_pent a l = true <-> In a l.
  Proof.
    intros a l. unfold mem_pent. rewrite existsb_exists. split.
    - intros [x [Hx E]]. apply pent_eqb_true in E. subst. exact Hx.
    - intro H. exists a. split; [exact H|apply pent_eqb_true; reflexivity].
  Qed.

  Lemma subset_pent_incl : forall l1 l2, subset_pent l1 l2 = true <-> incl l1 l2.
  Proof.
    intros l1 l2. unfold subset_pent. rewrite forallb_forall. split.
    - intros H x Hx. apply mem_pent_In. apply H. exact Hx.
    - intros H x Hx. apply mem_pent_In. apply H. exact Hx.
  Qed.

  Lemma has_kid_In : forall k l, has_kid k l = true <-> In k (map fst l).
  Proof.
    intros k l. unfold has_kid. rewrite existsb_exists. split.
    - intros [x [Hx E]]. apply N.eqb_eq in E. subst. apply in_map. exact Hx.
    - intro H. apply in_map_iff in H. destruct H as [x [E Hx]]. exists x. split; [exact Hx|apply N.eqb_eq; exact E].
  Qed.

  Lemma nodup_kid_NoDup : forall l, NoDup (map fst l) -> nodup_kid l = true.
  Proof.
    induction l as [|a l IH]; simpl; intro H; [reflexivity|].
    inversion H as [|? ? Hn Hd]; subst. apply andb_true_iff. split; [|apply IH; exact Hd].
    apply negb_true_iff. destruct (has_kid (fst a) l) eqn:E; [|reflexivity].
    apply has_kid_In in E. contradiction.
  Qed.

  Lemma proj_keys_NoDup : forall es : list (entry R), NoDup (map e_key es) -> NoDup (map fst (map proj es)).
  Proof.
    intros es H. rewrite map_map. simpl. rewrite <- (map_map e_key kid). apply Injective_map_NoDup; assumption.
  Qed.

  Lemma proj_remove : forall k (es : list (entry R)), map proj (remove_key k es) = remove_kid (kid k) (map proj es).
  Proof.
    intros k es. unfold remove_key, remove_kid. induction es as [|e es IH]; simpl; [reflexivity|].
    unfold has_key at 1. destruct (bytes_eqb (e_key e) k) eqn:E; simpl.
    - apply bytes_eqb_eq in E. rewrite E, N.eqb_refl. simpl. exact IH.
    - destruct (kid (e_key e) =? kid k) eqn:E2.
      + apply N.eqb_eq in E2. apply kid_inj in E2. apply bytes_eqb_eq in E2. congruence.
      + simpl. rewrite IH. reflexivity.
  Qed.

  Lemma remove_key_absent : forall k (es : list (entry R)), ~ In k (map e_key es) -> remove_key k es = es.
  Proof.
    intros k es. unfold remove_key. induction es as [|e es IH]; simpl; intro H; [reflexivity|].
    destruct (has_key k e) eqn:E.
    - apply has_key_true in E. exfalso. apply H. left. exact E.
    - simpl. rewrite IH; [reflexivity|]. intro Hin. apply H. right. exact Hin.
  Qed.

  Lemma remove_key_length_exact : forall k (es : list (entry R)),
    NoDup (map e_key es) -> In k (map e_key es) -> S (length (remove_key k es)) = length es.
  Proof.
    intros k es. unfold remove_key. induction es as [|e es IH]; simpl; intros Hd Hin; [contradiction|].
    inversion Hd as [|? ? Hn Hd']; subst. destruct (has_key k e) eqn:E; simpl.
    - apply has_key_true in E. subst k. f_equal.
      change (filter (fun e0 => negb (has_key (e_key e) e0)) es) with (remove_key (e_key e) es).
      rewrite remove_key_absent; [reflexivity|exact Hn].
    - destruct Hin as [Hin|Hin]; [apply has_key_true in Hin; congruence|].
      rewrite (IH Hd' Hin). reflexivity.
  Qed.

  Lemma same_key_same_entry : forall (es : list (entry R)) y e,
    NoDup (map e_key es) -> In y es -> In e es -> e_key y = e_key e -> y = e.
  Proof.
    induction es as [|z zs IH]; intros y e Hd Hy He Ek; [contradiction|].
    inversion Hd as [|? ? Hn Hd']; subst.
    destruct Hy as [Hy|Hy]; destruct He as [He|He]; subst; [reflexivity| | |apply IH; assumption].
    - exfalso. apply Hn. rewrite Ek. apply in_map. exact He.
    - exfalso. apply Hn. rewrite <- Ek. apply in_map. exact Hy.
  Qed.

  Section Policy.
    Variable victim : list (entry R) -> bytes.
    Hypothesis victim_present : forall es, es <> [] -> In (victim es) (map e_key es).

    Lemma evict_length : forall fuel max (es : list (entry R)), NoDup (map e_key es) -> (length es <= fuel)%nat ->
      nlen (evict victim fuel max es) = N.min (nlen es) max.
    Proof.
      induction fuel as [|f IH]; intros max es Hd Hl; simpl.
      - destruct es; simpl in Hl; [|lia]. unfold nlen. simpl. lia.
      - destruct (max <? nlen es) eqn:E.
        + apply N.ltb_lt in E.
          assert (Hne : es <> []) by (intro Z; subst es; unfold nlen in E; simpl in E; lia).
          pose proof (remove_key_length_exact _ _ Hd (victim_present es Hne)) as HL.
          rewrite IH; [|apply remove_key_NoDup; exact Hd|lia].
          unfold nlen in *. lia.
        + apply N.ltb_ge in E. lia.
    Qed.

    Lemma evict_noop : forall fuel max (es : list (entry R)), nlen es <= max -> evict victim fuel max es = es.
    Proof.
      intros fuel max es H. destruct fuel; simpl; [reflexivity|].
      destruct (max <? nlen es) eqn:E; [apply N.ltb_lt in E; lia|reflexivity].
    Qed.

    Lemma store_admissible : forall (c : cfg) (s1 : state R) sch k (v : R) P,
      NoDup (map e_key (entries s1)) -> ~ In k (map e_key (entries s1)) ->
      map proj (entries s1) = remove_kid (kid k) P -> ~ In (kid k, sch) P ->
      adm_get (eff_max c) P (kid k) sch 2 (map proj (entries (store victim c s1 sch k v))) = true.
    Proof.
      intros c s1 sch k v P Hd1 Habs E1 Hnot.
      unfold LRU.store. destruct (find_key k (entries s1)) as [e|] eqn:F1.
      { exfalso. apply Habs. destruct (find_key_some _ _ _ F1) as [Hin <-]. apply in_map. exact Hin. }
      cbn [entries]. set (es := mkE k sch v :: entries s1).
      assert (Hdes : NoDup (map e_key es)) by (simpl; constructor; assumption).
      assert (Q : map proj es = (kid k, sch) :: remove_kid (kid k) P) by (simpl; rewrite E1; reflexivity).
      unfold adm_get. rewrite (nodup_kid_NoDup _ (proj_keys_NoDup _ (evict_NoDup victim _ _ _ Hdes))), <- Q.
      replace (mem_pent (kid k, sch) P) with false
        by (symmetry; apply not_true_is_false; intro M; apply mem_pent_In in M; contradiction).
      rewrite !andb_true_iff. unfold nlen. rewrite !map_length. repeat split.
      - apply subset_pent_incl, incl_map. intros y. apply evict_In.
      - apply N.eqb_eq. apply evict_length; [exact Hdes|lia].
      - apply orb_true_iff. destruct (eff_max c <? N.of_nat (length es)) eqn:E; [left; reflexivity|right].
        apply N.ltb_ge in E. rewrite evict_noop; [|exact E]. apply subset_pent_incl, incl_refl.
    Qed.

    Lemma lookup_store_admissible : forall (c : cfg) (s : state R) sch k (v : R),
      NoDup (map e_key (entries s)) ->
      let P := map proj (entries s) in
      match lookup s sch k with
      | (s1, Some _) => adm_get (eff_max c) P (kid k) sch 1 (map proj (entries s1)) = true
      | (s1, None) => adm_get (eff_max c) P (kid k) sch 2 (map proj (entries (store victim c s1 sch k v))) = true
      end.
    Proof.
      intros c s sch k v Hd P. pose proof (lookup_NoDup s sch k Hd) as Hd1.
      assert (NI : (forall y, In y (entries s) -> e_key y = k -> e_schema y <> sch) -> ~ In (kid k, sch) P).
      { intros HN Hin. apply in_map_iff in Hin. destruct Hin as [y [Ey Hy]]. injection Ey as Ek Es.
        apply kid_inj in Ek. exact (HN y Hy Ek Es). }
      unfold lookup in *. destruct (find_key k (entries s)) as [e|] eqn:F.
      - destruct (find_key_some _ _ _ F) as [Hin Hk].
        (* an entry with key k is the one found *)
        assert (Found : forall y, In y (entries s) -> e_key y = k -> y = e)
          by (intros y Hy Ek; apply (same_key_same_entry (entries s)); congruence).
        destruct (e_schema e =? sch) eqn:ES; cbn [fst entries] in Hd1 |- *.
        + apply N.eqb_eq in ES. unfold adm_get. rewrite (nodup_kid_NoDup _ (proj_keys_NoDup _ Hd1)), !andb_true_iff.
          repeat split.
          * apply mem_pent_In. unfold P. rewrite <- Hk, <- ES. exact (in_map proj _ _ Hin).
          * apply subset_pent_incl, incl_map. intros y [<-|Hy]; [exact Hin|exact (remove_key_In _ _ _ Hy)].
          * apply subset_pent_incl, incl_map. intros y Hy. destruct (bytes_eqb (e_key y) k) eqn:Ek.
            -- left. symmetry. apply (Found y Hy), bytes_eqb_eq, Ek.
            -- right. apply filter_In. split; [exact Hy|]. unfold has_key. rewrite Ek. reflexivity.
        + apply N.eqb_neq in ES. apply store_admissible; [exact Hd1|apply remove_key_notin|apply proj_remove|].
          apply NI. intros y Hy Ek. rewrite (Found y Hy Ek). exact ES.
      - pose proof (find_key_none _ _ F) as Habs. cbn [fst entries] in Hd1 |- *.
        apply store_admissible; [exact Hd|exact Habs| |].
        + unfold P. rewrite <- proj_remove, remove_key_absent; [reflexivity|exact Habs].
        + apply NI. intros y Hy Ek _. apply Habs. rewrite <- Ek. apply in_map. exact Hy.
    Qed.

    Lemma pents_eqb_refl : forall l, pents_eqb l l = true.
    Proof.
      induction l as [|a l IH]; simpl; [reflexivity|]. rewrite IH.
      replace (pent_eqb a a) with true; [reflexivity|]. symmetry. apply pent_eqb_true. reflexivity.
    Qed.

    Context {A : Type}.
    Variable hash : bytes -> bytes.
    Variable fresh : cfg -> req -> R.
    Variable ok : R -> bool.
    Variable synth : req -> A.
    Variable no_synth : A.

    Definition hitc (o : out R A) : N := match o_hit o with None => 0 | Some true => 1 | Some false => 2 end.

    Lemma get_admissible : forall c (s : state R) r,
      NoDup (map e_key (entries s)) ->
      let res := get hash fresh ok synth no_synth victim c s r in
      match key hash c r with
      | Some k => adm_get (eff_max c) (map proj (entries s)) (kid k) (rq_schema r) (hitc (snd res))
                          (map proj (entries (fst res))) = true
      | None => adm_bypass (map proj (entries s)) (hitc (snd res)) (map proj (entries (fst res))) = true
      end.
    Proof.
      intros c s r Hd res. unfold res, LRU.get. destruct (key hash c r) as [k|].
      - pose proof (lookup_store_admissible c s (rq_schema r) k (fresh c r) Hd) as HL.
        destruct (lookup s (rq_schema r) k) as [s1 [v|]]; simpl; exact HL.
      - simpl. unfold adm_bypass, hitc. simpl. apply pents_eqb_refl.
    Qed.
  End Policy.
End Adm.

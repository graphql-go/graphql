(* C09: the fragment-cycle check of Total/FragCycle.v is sound: whenever it
   accepts a document, the rank table it computed is a rank in the sense of
   [rank_respected] (no spread increases it, every spread below a field
   strictly decreases it), and its values are bounded by [max_rank]; and it is
   complete: a document that has any rank is accepted. *)
From Coq Require Import List ListDec Arith NArith String Bool Lia.
From GQL Require Import Exec.Syntax Total.FragCycle.
Import ListNotations.
Open Scope string_scope.
Open Scope list_scope.

Lemma rank_ok_iff : forall D rk, rank_ok D rk = true <-> rank_respected D rk.
Proof.
  intros D rk. unfold rank_ok, rank_respected. rewrite forallb_forall. split.
  - intros H f e Hf He. specialize (H f Hf). rewrite forallb_forall in H. apply Nat.leb_le, H, He.
  - intros H f Hf. apply forallb_forall. intros e He. apply Nat.leb_le, H; assumption.
Qed.

Lemma cycle_check_rank :
  forall D, fragment_cycle_through_field D = false ->
            rank_respected D (rk_of (rank_candidate D)).
Proof.
  intros D H. unfold fragment_cycle_through_field in H.
  apply negb_false_iff in H. apply rank_ok_iff; exact H.
Qed.

Lemma cycle_check_sound : forall D, fragment_cycle_through_field D = false -> has_rank D.
Proof.
  intros D H. exists (rk_of (rank_candidate D)). apply cycle_check_rank; exact H.
Qed.

Lemma alookup_map_keys :
  forall (A B : Type) (g : name -> B) (a : name) (t : list (name * A)),
    alookup a (map (fun kv => (fst kv, g (fst kv))) t)
    = match alookup a t with Some _ => Some (g a) | None => None end.
Proof.
  intros A B g a t. induction t as [|[k v] r IH]; simpl; [reflexivity|].
  destruct (String.eqb a k) eqn:E; [|exact IH]. apply String.eqb_eq in E. subst k. reflexivity.
Qed.

Lemma rk_of_relax :
  forall D t a,
    rk_of (relax D t) a = match alookup a t with Some _ => relax1 D t a | None => 0 end.
Proof.
  intros D t a. unfold rk_of, relax.
  rewrite (alookup_map_keys nat nat (relax1 D t) a t).
  destruct (alookup a t); reflexivity.
Qed.

Lemma relax1_le :
  forall D t m a, (forall b, rk_of t b <= m) -> relax1 D t a <= m + 1.
Proof.
  intros D t m a Hb. unfold relax1.
  induction (succs D a) as [|e r IH]; simpl; [lia|].
  apply Nat.max_lub; [exact IH|]. specialize (Hb (fst e)). unfold edge_weight. destruct (snd e); lia.
Qed.

Lemma relax_le :
  forall D t m, (forall b, rk_of t b <= m) -> forall a, rk_of (relax D t) a <= m + 1.
Proof.
  intros D t m Hb a. rewrite rk_of_relax. destruct (alookup a t); [apply relax1_le; exact Hb | lia].
Qed.

Lemma iter_relax_le :
  forall n D t m, (forall a, rk_of t a <= m) -> forall a, rk_of (iter_relax n D t) a <= m + n.
Proof.
  induction n as [|n IH]; intros D t m Hb a; simpl.
  - specialize (Hb a). lia.
  - specialize (IH D (relax D t) (m + 1) (relax_le D t m Hb) a). lia.
Qed.

Lemma rk_of_init :
  forall (fs : list fragment) a, rk_of (map (fun f => (fr_name f, 0)) fs) a = 0.
Proof.
  intros fs a. unfold rk_of. induction fs as [|f r IH]; simpl; [reflexivity|].
  destruct (String.eqb a (fr_name f)); [reflexivity | exact IH].
Qed.

Lemma rank_candidate_bounded : forall D a, rk_of (rank_candidate D) a <= max_rank D.
Proof.
  intros D a. unfold rank_candidate, max_rank.
  pose proof (iter_relax_le (S (List.length (d_frags D))) D
                            (map (fun f => (fr_name f, 0)) (d_frags D)) 0) as H.
  specialize (H (fun b => Nat.eq_le_incl _ _ (rk_of_init (d_frags D) b)) a).
  simpl in H. simpl. lia.
Qed.

Theorem cycle_check_bounded_rank :
  forall D, fragment_cycle_through_field D = false ->
            exists rk, rank_respected D rk /\ forall a, rk a <= max_rank D.
Proof.
  intros D H. exists (rk_of (rank_candidate D)). split.
  - apply cycle_check_rank; exact H.
  - apply rank_candidate_bounded.
Qed.

Definition fld (nm : name) (sub : list selection) : selection := SField 0%N None nm [] [] sub.
Definition spr (nm : name) : selection := SSpread 0%N nm [].
Definition frag (nm : name) (sel : list selection) : fragment :=
  {| fr_name := nm; fr_cond := "Q"; fr_sel := sel |}.
Definition doc (sel : list selection) (fs : list fragment) : document :=
  {| d_ops := [{| o_kind := OpQuery; o_name := None; o_vars := []; o_sel := sel |}];
     d_frags := fs |}.

(* { ...F } fragment F on Q { x { ...F } } *)
Example reject_self_through_field :
  fragment_cycle_through_field (doc [spr "F"] [frag "F" [fld "x" [spr "F"]]]) = true.
Proof. vm_compute. reflexivity. Qed.

(* F: { x { ...G } }  G: { ...F } *)
Example reject_two_through_field :
  fragment_cycle_through_field
    (doc [spr "F"] [frag "F" [fld "x" [spr "G"]]; frag "G" [spr "F"]]) = true.
Proof. vm_compute. reflexivity. Qed.

(* the cycle is found through an inline fragment as well *)
Example reject_through_inline :
  fragment_cycle_through_field
    (doc [spr "F"] [frag "F" [SInline 0%N (Some "Q") [] [fld "x" [SInline 0%N None [] [spr "F"]]]]]) = true.
Proof. vm_compute. reflexivity. Qed.

(* F: { ...F x } : a cycle on one level *)
Example accept_same_level_self :
  fragment_cycle_through_field (doc [spr "F"] [frag "F" [spr "F"; fld "x" []]]) = false.
Proof. vm_compute. reflexivity. Qed.

(* F: { ...G }  G: { ...F y } *)
Example accept_same_level_two :
  fragment_cycle_through_field
    (doc [spr "F"] [frag "F" [spr "G"]; frag "G" [spr "F"; fld "y" []]]) = false.
Proof. vm_compute. reflexivity. Qed.

(* F: { x { ...G } }  G: { y } *)
Example accept_acyclic :
  fragment_cycle_through_field
    (doc [spr "F"] [frag "F" [fld "x" [spr "G"]]; frag "G" [fld "y" []]]) = false.
Proof. vm_compute. reflexivity. Qed.

(* a chain as long as the table: the candidate needs all its rounds *)
Example accept_chain :
  fragment_cycle_through_field
    (doc [spr "A"] [frag "C" [fld "z" []]; frag "B" [fld "y" [spr "C"]]; frag "A" [fld "x" [spr "B"]]]) = false.
Proof. vm_compute. reflexivity. Qed.

(* Completeness: a document that has a rank is accepted.  The relaxation computes,
   after k rounds, the largest weight of a walk of at most k spread edges; when a rank exists every cycle weighs 0, so the largest
   weights are reached by walks without repeated fragments, which have at most
   |fragments| edges. *)

Lemma succs_in :
  forall D a e,
    In e (succs D a) <-> exists f, In f (d_frags D) /\ fr_name f = a /\ In e (frag_edges f).
Proof.
  intros D a e. unfold succs. rewrite in_flat_map. split.
  - intros [f [Hf He]]. exists f.
    destruct (String.eqb (fr_name f) a) eqn:E; [apply String.eqb_eq in E; auto | contradiction].
  - intros [f [Hf [Hn He]]]. exists f. rewrite Hn, String.eqb_refl. auto.
Qed.

Definition weight (p : list (name * bool)) : nat := list_sum (map edge_weight p).

Fixpoint endof (a : name) (p : list (name * bool)) : name :=
  match p with
  | [] => a
  | e :: r => endof (fst e) r
  end.

Lemma weight_app : forall p q, weight (p ++ q) = weight p + weight q.
Proof. intros p q. unfold weight. rewrite map_app, list_sum_app. reflexivity. Qed.

Lemma endof_app : forall p q a, endof a (p ++ q) = endof (endof a p) q.
Proof. induction p as [|e r IH]; intros q a; simpl; [reflexivity | apply IH]. Qed.

Lemma loop_cut :
  forall p a x, In x (map fst p) ->
                exists q1 q2, p = q1 ++ q2 /\ q1 <> [] /\ endof a q1 = x.
Proof.
  induction p as [|e r IH]; intros a x Hin; simpl in Hin; [contradiction|].
  destruct Hin as [Heq | Hin].
  - exists [e], r. repeat split; [discriminate | exact Heq].
  - destruct (IH (fst e) x Hin) as [q1 [q2 [-> [Hne He]]]].
    exists (e :: q1), q2. repeat split; [discriminate | exact He].
Qed.

Lemma fold_max_ge :
  forall (A : Type) (g : A -> nat) (l : list A) (e : A),
    In e l -> g e <= fold_right (fun e m => Nat.max m (g e)) 0 l.
Proof.
  intros A g l e. induction l as [|x r IH]; simpl; intros Hin; [contradiction|].
  destruct Hin as [-> | Hin]; [|specialize (IH Hin)]; lia.
Qed.

Lemma fold_max_achieved :
  forall (A : Type) (g : A -> nat) (l : list A),
    fold_right (fun e m => Nat.max m (g e)) 0 l = 0
    \/ exists e, In e l /\ fold_right (fun e m => Nat.max m (g e)) 0 l = g e.
Proof.
  intros A g l. induction l as [|x r IH]; simpl.
  - left; reflexivity.
  - destruct (Nat.max_spec (fold_right (fun e m => Nat.max m (g e)) 0 r) (g x)) as [[_ Hm] | [_ Hm]].
    + right. exists x. split; [left; reflexivity | exact Hm].
    + rewrite Hm. destruct IH as [IH | [e [He IH]]].
      * left; exact IH.
      * right. exists e. split; [right; exact He | exact IH].
Qed.

Lemma alookup_some_in :
  forall (A : Type) (a : name) (t : list (name * A)),
    In a (map fst t) -> exists v, alookup a t = Some v.
Proof.
  intros A a t. induction t as [|[k v] r IH]; simpl; intros Hin; [contradiction|].
  destruct (String.eqb a k) eqn:E; [exists v; reflexivity|].
  destruct Hin as [<- | Hin]; [rewrite String.eqb_refl in E; discriminate | exact (IH Hin)].
Qed.

Lemma relax_keys : forall D t, map fst (relax D t) = map fst t.
Proof.
  intros D t. unfold relax. rewrite map_map. apply map_ext. intros kv. reflexivity.
Qed.

Lemma iter_relax_keys : forall n D t, map fst (iter_relax n D t) = map fst t.
Proof.
  induction n as [|n IH]; intros D t; simpl; [reflexivity | rewrite IH; apply relax_keys].
Qed.

Lemma iter_relax_succ : forall n D t, iter_relax (S n) D t = relax D (iter_relax n D t).
Proof.
  induction n as [|n IH]; intros D t; [reflexivity|].
  change (iter_relax (S (S n)) D t) with (iter_relax (S n) D (relax D t)). rewrite IH. reflexivity.
Qed.

Section Complete.
  Variable D : document.

  Fixpoint is_walk (a : name) (p : list (name * bool)) : Prop :=
    match p with
    | [] => True
    | e :: r => In e (succs D a) /\ is_walk (fst e) r
    end.

  Lemma is_walk_app :
    forall p q a, is_walk a (p ++ q) -> is_walk a p /\ is_walk (endof a p) q.
  Proof.
    induction p as [|e r IH]; intros q a Hw; simpl in *.
    - split; [exact I | exact Hw].
    - destruct Hw as [He Hw]. destruct (IH q (fst e) Hw) as [H1 H2].
      split; [split; assumption | exact H2].
  Qed.

  Definition t0 : rank_table := map (fun f => (fr_name f, 0)) (d_frags D).
  Definition r_at (k : nat) (a : name) : nat := rk_of (iter_relax k D t0) a.

  Lemma t0_keys : map fst t0 = map fr_name (d_frags D).
  Proof. unfold t0. rewrite map_map. reflexivity. Qed.

  Lemma succs_defined : forall a e, In e (succs D a) -> In a (map fr_name (d_frags D)).
  Proof.
    intros a e He. apply succs_in in He. destruct He as [f [Hf [Hn _]]].
    rewrite <- Hn. apply in_map; exact Hf.
  Qed.

  Lemma r_at_succ :
    forall k a, r_at (S k) a =
                match alookup a (iter_relax k D t0) with
                | Some _ => relax1 D (iter_relax k D t0) a
                | None => 0
                end.
  Proof. intros k a. unfold r_at. rewrite iter_relax_succ. apply rk_of_relax. Qed.

  Lemma walk_le_table :
    forall k p a, is_walk a p -> List.length p <= k -> weight p <= r_at k a.
  Proof.
    induction k as [|k IH]; intros p a Hw Hlen.
    - destruct p; simpl in Hlen; [unfold weight; simpl; lia | lia].
    - destruct p as [|e r]; [unfold weight; simpl; lia|].
      simpl in Hw, Hlen. destruct Hw as [He Hw].
      rewrite r_at_succ.
      assert (Hdef : In a (map fst (iter_relax k D t0))).
      { rewrite iter_relax_keys, t0_keys. apply (succs_defined a e He). }
      destruct (alookup_some_in nat a _ Hdef) as [v Hv]. rewrite Hv.
      pose proof (fold_max_ge _ (fun e => rk_of (iter_relax k D t0) (fst e) + edge_weight e)
                              (succs D a) e He) as Hge.
      unfold relax1.
      assert (IHr : weight r <= r_at k (fst e)) by (apply IH; [exact Hw | lia]).
      unfold r_at in IHr. unfold weight in *. simpl. simpl in Hge. lia.
  Qed.

  Lemma table_is_walk :
    forall k a, exists p, is_walk a p /\ List.length p <= k /\ weight p = r_at k a.
  Proof.
    induction k as [|k IH]; intros a.
    - exists []. simpl. split; [exact I|]. split; [lia|].
      unfold r_at, weight. simpl. symmetry. apply rk_of_init.
    - rewrite r_at_succ. destruct (alookup a (iter_relax k D t0)).
      + unfold relax1.
        destruct (fold_max_achieved _ (fun e => rk_of (iter_relax k D t0) (fst e) + edge_weight e)
                                    (succs D a)) as [H0 | [e [He Hm]]].
        * exists []. simpl. split; [exact I|]. split; [lia|]. unfold weight. simpl.
          symmetry. exact H0.
        * destruct (IH (fst e)) as [p [Hw [Hlen Hwt]]].
          exists (e :: p). simpl. split; [split; assumption|]. split; [lia|].
          rewrite Hm. unfold r_at in Hwt. unfold weight in *. simpl. lia.
      + exists []. simpl. split; [exact I|]. split; [lia | reflexivity].
  Qed.

  Variable rk : name -> nat.
  Hypothesis Hrk : rank_respected D rk.

  Lemma walk_rank : forall p a, is_walk a p -> rk (endof a p) + weight p <= rk a.
  Proof.
    induction p as [|e r IH]; intros a Hw; simpl in *.
    - unfold weight. simpl. lia.
    - destruct Hw as [He Hw]. specialize (IH (fst e) Hw).
      apply succs_in in He. destruct He as [f [Hf [Hn He]]].
      pose proof (Hrk f e Hf He) as Hr. rewrite Hn in Hr.
      unfold weight in *. simpl. lia.
  Qed.

  Lemma dup_loop :
    forall p a, is_walk a p -> ~ NoDup (a :: map fst p) ->
                exists p', is_walk a p' /\ weight p' = weight p /\ List.length p' < List.length p.
  Proof.
    induction p as [|e r IH]; intros a Hw Hnd.
    - destruct Hnd. constructor; [intros [] | constructor].
    - destruct (in_dec string_dec a (map fst (e :: r))) as [Hin | Hnin].
      + destruct (loop_cut (e :: r) a a Hin) as [q1 [q2 [E [Hne Hend]]]].
        rewrite E in Hw |- *. destruct (is_walk_app q1 q2 a Hw) as [Hw1 Hw2].
        pose proof (walk_rank q1 a Hw1) as Hr. rewrite Hend in Hw2, Hr.
        exists q2. split; [exact Hw2|]. rewrite weight_app, app_length.
        destruct q1; [congruence | simpl; lia].
      + destruct Hw as [He Hw].
        destruct (IH (fst e) Hw) as [r' [Hw' [Hwt Hlen]]].
        { intros Hn. apply Hnd. constructor; [exact Hnin | exact Hn]. }
        exists (e :: r'). split; [split; assumption|]. unfold weight in *. simpl. lia.
  Qed.

  Lemma walk_nodes :
    forall p a x, is_walk a p -> In x (a :: map fst p) ->
                  In x (endof a p :: map fr_name (d_frags D)).
  Proof.
    induction p as [|e r IH]; intros a x Hw Hin.
    - simpl in *. destruct Hin as [Heq | []]. left; exact Heq.
    - simpl in Hw. destruct Hw as [He Hw]. destruct Hin as [Heq | Hin].
      + subst x. right. apply (succs_defined a e He).
      + simpl. apply (IH (fst e) x Hw). exact Hin.
  Qed.

  Lemma walk_nodup_short :
    forall p a, is_walk a p -> NoDup (a :: map fst p) -> List.length p <= List.length (d_frags D).
  Proof.
    intros p a Hw Hn.
    pose proof (NoDup_incl_length Hn (fun x Hx => walk_nodes p a x Hw Hx)) as Hl.
    simpl in Hl. rewrite !map_length in Hl. lia.
  Qed.

  (* a walk that repeats a fragment has a loop, which weighs nothing and is cut out *)
  Lemma walk_short :
    forall n p a, List.length p <= n -> is_walk a p ->
                  exists p', is_walk a p' /\ weight p' = weight p
                             /\ List.length p' <= List.length (d_frags D).
  Proof.
    induction n as [|n IH]; intros p a Hlen Hw;
      (destruct (NoDup_dec string_dec (a :: map fst p)) as [Hn | Hn];
       [exists p; split; [exact Hw|]; split; [reflexivity | exact (walk_nodup_short p a Hw Hn)]|]);
      destruct (dup_loop p a Hw Hn) as [p1 [Hw1 [Hwt1 Hl1]]]; [lia|].
    destruct (IH p1 a) as [p2 [Hw2 [Hwt2 Hl2]]]; [lia | exact Hw1 |].
    exists p2. split; [exact Hw2|]. split; [congruence | exact Hl2].
  Qed.

  Lemma candidate_respected : rank_respected D (rk_of (rank_candidate D)).
  Proof.
    intros f e Hf He.
    change (rk_of (rank_candidate D)) with (r_at (S (List.length (d_frags D)))).
    destruct (table_is_walk (S (List.length (d_frags D))) (fst e)) as [p [Hw [_ Hwt]]].
    assert (Hw' : is_walk (fr_name f) (e :: p)).
    { simpl. split; [| exact Hw]. apply succs_in. exists f. auto. }
    destruct (walk_short _ (e :: p) (fr_name f) (le_n _) Hw') as [p' [Hw2 [Hwt2 Hlen2]]].
    pose proof (walk_le_table (S (List.length (d_frags D))) p' (fr_name f) Hw2) as Hle.
    assert (Hl : List.length p' <= S (List.length (d_frags D))) by lia.
    specialize (Hle Hl).
    unfold weight in *. simpl in Hwt2. lia.
  Qed.
End Complete.

Theorem cycle_check_complete :
  forall D, has_rank D -> fragment_cycle_through_field D = false.
Proof.
  intros D [rk Hrk]. unfold fragment_cycle_through_field.
  apply negb_false_iff. apply rank_ok_iff. apply (candidate_respected D rk Hrk).
Qed.

Theorem cycle_check_iff :
  forall D, fragment_cycle_through_field D = false <-> has_rank D.
Proof. intros D. split; [apply cycle_check_sound | apply cycle_check_complete]. Qed.

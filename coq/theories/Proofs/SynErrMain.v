(* Syntax-error positions, the parts that need no grammar: the lexer with positions lexes what the
   lexer model lexes; the recogniser never runs out of the fuel parse_tokensE gives it and rejects
   exactly what the parser model rejects, on token lists and on sources; its verdict depends on the
   tokens up to the reported one only; a lexed stream ends with its only EOF token. *)
From Coq Require Import String List NArith Bool Lia PeanoNat.
From GQL Require Import Base.Bytes Syntax.Lexer Syntax.Ast Syntax.Parser SynErr.LexErr SynErr.ParseErr.
From GQL Require Import Proofs.SyntaxLexer Proofs.SyntaxSound Proofs.SynErrWB Proofs.SynErrErase.
Import ListNotations.
Open Scope N_scope.

Lemma lex_allE_S : forall f s pos, lex_allE (S f) s pos =
  match skip_ws (S f) s pos false with
  | Ok (s1, p1, _) =>
    match read_token (S f) s1 p1 with
    | Ok (t, s2, p2) =>
      if tkind_beq (tk t) EOF then ([t], LDone) else let '(ts, o) := lex_allE f s2 p2 in (t :: ts, o)
    | Err => ([], LBad p1 (read_token_err (S f) s1 p1))
    | OutOfFuel => ([], LFuel)
    end
  | Err => ([], LBad pos pos)
  | OutOfFuel => ([], LFuel)
  end.
Proof.
  intros f s pos. cbn [lex_allE]. destruct (skip_ws (S f) s pos false) as [[[s1 p1] mb]| |]; try reflexivity.
  destruct (read_token (S f) s1 p1) as [[[t s2] p2]| |]; try reflexivity.
  exact (tkind_eof_case _ t _ (fun _ => let '(ts, o) := lex_allE f s2 p2 in (t :: ts, o))).
Qed.

Lemma lex_allE_spec : forall fuel s pos,
  match lex_all fuel s pos with
  | Ok (ts, _) => lex_allE fuel s pos = (ts, LDone)
  | Err => exists ts a b, lex_allE fuel s pos = (ts, LBad a b)
  | OutOfFuel => exists ts, lex_allE fuel s pos = (ts, LFuel)
  end.
Proof.
  induction fuel as [|f IH]; intros s pos; [exists []; reflexivity|]. rewrite lex_all_S, lex_allE_S.
  destruct (skip_ws (S f) s pos false) as [[[s1 p1] mb]| |]; [|eauto..].
  destruct (read_token (S f) s1 p1) as [[[t s2] p2]| |]; [|eauto..].
  destruct (tkind_beq (tk t) EOF); [reflexivity|]. specialize (IH s2 p2).
  destruct (lex_all f s2 p2) as [[ts fl]| |];
    [rewrite IH; reflexivity|destruct IH as (ts & a & b & ->); eauto|destruct IH as (ts & ->); eauto].
Qed.

Definition tokens_of (src : bytes) : list token := fst (lexE src).

Lemma lexE_lex : forall src,
  match lex src with
  | Ok (ts, _) => lexE src = (ts, LDone)
  | Err => exists ts a b, lexE src = (ts, LBad a b)
  | OutOfFuel => exists ts, lexE src = (ts, LFuel)
  end.
Proof. intro src. exact (lex_allE_spec (S (length src)) src 0). Qed.

Lemma lexE_ok : forall src ts mb, lex src = Ok (ts, mb) -> lexE src = (ts, LDone).
Proof. intros src ts mb H. pose proof (lexE_lex src) as Sp. rewrite H in Sp. exact Sp. Qed.
Lemma lexE_err : forall src, lex src = Err -> exists ts a b, lexE src = (ts, LBad a b).
Proof. intros src H. pose proof (lexE_lex src) as Sp. rewrite H in Sp. exact Sp. Qed.
Lemma lexE_done : forall src ts, lexE src = (ts, LDone) -> exists mb, lex src = Ok (ts, mb).
Proof.
  intros src ts H. pose proof (lexE_lex src) as Sp.
  destruct (lex src) as [[ts' mb]| |]; [|destruct Sp as (ts' & a & b & Sp)|destruct Sp as (ts' & Sp)]; rewrite H in Sp;
    [injection Sp as ->; eauto|discriminate Sp..].
Qed.
Lemma lexE_bad : forall src ts a b, lexE src = (ts, LBad a b) -> lex src = Err.
Proof.
  intros src ts a b H. pose proof (lexE_lex src) as Sp.
  destruct (lex src) as [[ts' mb]| |]; [|reflexivity|destruct Sp as (ts' & Sp)]; rewrite H in Sp; discriminate Sp.
Qed.
Lemma lexE_nofuel : forall src ts, lexE src <> (ts, LFuel).
Proof.
  intros src ts H. pose proof (lexE_lex src) as Sp. pose proof (lex_terminates src) as T.
  destruct (lex src) as [[ts' mb]| |]; [|destruct Sp as (ts' & a & b & Sp)|exact (T eq_refl)]; rewrite H in Sp; discriminate Sp.
Qed.

Lemma lex_allE_done_ne : forall fuel s pos ts, lex_allE fuel s pos = (ts, LDone) -> ts <> [].
Proof.
  intros [|f] s pos ts H; [discriminate H|]. rewrite lex_allE_S in H.
  destruct (skip_ws (S f) s pos false) as [[[s1 p1] mb]| |]; try discriminate H.
  destruct (read_token (S f) s1 p1) as [[[t s2] p2]| |]; try discriminate H.
  destruct (tkind_beq (tk t) EOF); [|destruct (lex_allE f s2 p2)]; injection H as <-; discriminate.
Qed.

(* the recogniser on a token list: it accepts with nothing left, or fails, as the parser model does *)
Lemma parse_tokens_cases : forall ts,
  (exists d, parse_tokens ts = Ok d /\ parse_tokensE ts = OkE []) \/ (exists r, parse_tokens ts = Err /\ parse_tokensE ts = ErrE r).
Proof.
  intro ts. pose proof (Er_parse_tokens ts) as E. pose proof (parse_tokens_terminates ts) as T.
  destruct (parse_tokens ts) as [d| |]; destruct (parse_tokensE ts) as [r|r|]; cbn in E; try discriminate E;
    [left; injection E as <-|right|destruct (T eq_refl)]; eauto.
Qed.

Lemma parse_tokensE_nofuel : forall ts, parse_tokensE ts <> FuelE.
Proof. intros ts H. destruct (parse_tokens_cases ts) as [(d & _ & E)|(r & _ & E)]; rewrite E in H; discriminate H. Qed.

Lemma docE_fuel : forall ts n, (S (2 * length ts) <= n)%nat -> parse_documentE n ts = parse_tokensE ts.
Proof.
  intros ts n H. pose proof (sim_ref _ _ (Sim_parse_documentE (S (2 * length ts)) n H) ts) as X.
  change (parse_documentE (S (2 * length ts)) ts) with (parse_tokensE ts) in X.
  exact (X (parse_tokensE_nofuel ts)).
Qed.

Lemma parse_tokens_err_iff : forall ts, parse_tokens ts = Err <-> exists r, parse_tokensE ts = ErrE r.
Proof.
  intro ts. destruct (parse_tokens_cases ts) as [(d & -> & ->)|(r & -> & ->)]; split; intro H;
    [discriminate H|destruct H as [? H]; discriminate H|eauto|reflexivity].
Qed.

Lemma parse_tokens_ok_iff : forall ts, (exists d, parse_tokens ts = Ok d) <-> parse_tokensE ts = OkE [].
Proof.
  intro ts. destruct (parse_tokens_cases ts) as [(d & -> & ->)|(r & -> & ->)]; split; intro H;
    [reflexivity|eauto|destruct H as [? H]; discriminate H|discriminate H].
Qed.

Theorem parse_err_iff : forall src, parse src = Err <-> exists off, parse_err src = Some off.
Proof.
  intro src. unfold parse, parse_err, parse_err_ext.
  destruct (lex src) as [[ts mb]| |] eqn:L.
  - rewrite (lexE_ok _ _ _ L). destruct (parse_tokens_cases ts) as [(d & -> & ->)|(r & -> & ->)].
    + split; [discriminate|intros [off H]; discriminate H].
    + split; [intros _|intros _; reflexivity]. destruct r as [|t r]; [destruct (tok_ext _) as [[a b] c]|destruct (tok_ext t) as [[a b] c]]; eauto.
  - destruct (lexE_err _ L) as (ts & a & b & ->).
    split; [intros _|intros _; reflexivity].
    destruct (parse_tokensE (ts ++ [end_marker a])) as [r|[|t [|t2 r]]|]; eauto.
    destruct (tok_ext t) as [[x y] z]; eauto.
  - exfalso. exact (lex_terminates src L).
Qed.

Theorem parse_err_none_iff : forall src, parse_err src = None <-> exists d, parse src = Ok d.
Proof.
  intro src. split.
  - intro H. destruct (parse src) as [d| |] eqn:P; [eauto| |].
    + apply parse_err_iff in P. destruct P as [off P]. congruence.
    + exfalso. unfold parse in P. destruct (lex src) as [[ts mb]| |] eqn:L; try discriminate P.
      * pose proof (parse_tokens_terminates ts) as T. destruct (parse_tokens ts); try discriminate P. apply T; reflexivity.
      * exact (lex_terminates src L).
  - intros [d P]. destruct (parse_err src) as [off|] eqn:E; [|reflexivity].
    assert (X : parse src = Err) by (apply parse_err_iff; eauto). congruence.
Qed.

Lemma app_last_split : forall (ts : list token) m u t r, ts ++ [m] = u ++ t :: r -> r <> [] ->
  exists r', r = r' ++ [m] /\ ts = u ++ t :: r'.
Proof.
  intros ts m u t r H Hr.
  destruct (exists_last Hr) as (r' & x & ->).
  change (u ++ t :: r' ++ [x]) with (u ++ (t :: r') ++ [x]) in H. rewrite app_assoc in H.
  apply app_inj_tail in H. destruct H as [H1 H2]. subst x. exists r'. split; [reflexivity|].
  rewrite H1. reflexivity.
Qed.

Theorem parse_tokensE_local : forall u t rest, parse_tokensE (u ++ t :: rest) = ErrE (t :: rest) ->
  forall rest', parse_tokensE (u ++ t :: rest') = ErrE (t :: rest').
Proof.
  intros u t rest H rest'.
  set (F := S (2 * (length (u ++ t :: rest) + length (u ++ t :: rest')))).
  rewrite <- (docE_fuel (u ++ t :: rest) F) in H by (unfold F; lia).
  rewrite <- (docE_fuel (u ++ t :: rest') F) by (unfold F; lia).
  exact (sim_lerr _ _ (WB_parse_documentE F) u (t :: rest) (t :: rest') H eq_refl).
Qed.

Lemma no_failure_inside : forall u rest,
  (forall r0, parse_tokensE (u ++ rest) = ErrE r0 -> (length r0 <= length rest)%nat) ->
  forall rest' r, parse_tokensE (u ++ rest') = ErrE r -> (length r <= length rest')%nat.
Proof.
  intros u rest H0 rest' r H.
  destruct (Nat.le_gt_cases (length r) (length rest')) as [Hle|Hgt]; [exact Hle|exfalso].
  destruct (sim_err _ _ (WB_parse_documentE _) _ _ H) as [u2 Hu].
  apply app_eq_app in Hu. destruct Hu as [l [[E1 E2]|[E1 E2]]].
  - (* u = u2 ++ l, r = l ++ rest' *)
    subst u r. destruct l as [|x u3]; [cbn in Hgt; lia|].
    rewrite <- app_assoc in H. cbn [app] in H.
    pose proof (parse_tokensE_local u2 x (u3 ++ rest') H (u3 ++ rest)) as X.
    specialize (H0 (x :: u3 ++ rest)).
    rewrite <- app_assoc in H0. cbn [app] in H0. specialize (H0 X).
    cbn [length] in H0. rewrite app_length in H0. lia.
  - subst rest'. rewrite app_length in Hgt. lia.
Qed.

Lemma lex_all_shape : forall fuel s pos ts mb, lex_all fuel s pos = Ok (ts, mb) ->
  exists body e, ts = body ++ [e] /\ tk e = EOF /\ Forall (fun t => tk t <> EOF) body.
Proof.
  induction fuel as [|f IH]; intros s pos ts mb H; [discriminate H|]. rewrite lex_all_S in H.
  destruct (skip_ws (S f) s pos false) as [[[s1 p1] m]| |]; try discriminate H.
  destruct (read_token (S f) s1 p1) as [[[t s2] p2]| |]; try discriminate H.
  destruct (tkind_beq (tk t) EOF) eqn:K.
  - injection H as <- <-. exists [], t. repeat split; [apply tkind_beq_eq, K|constructor].
  - destruct (lex_all f s2 p2) as [[ts' fl]| |] eqn:L; try discriminate H. injection H as <- <-.
    destruct (IH _ _ _ _ L) as (body & e & -> & Ke & Fb). exists (t :: body), e. repeat split; [exact Ke|].
    constructor; [intro E; apply tkind_beq_eq in E; congruence|exact Fb].
Qed.

Lemma eof_is_last : forall body e u t rest, body ++ [e] = u ++ t :: rest ->
  Forall (fun t => tk t <> EOF) body -> tk t = EOF -> rest = [] /\ u = body /\ t = e.
Proof.
  intros body e u t rest H Fb Kt. destruct rest as [|x rest].
  - apply app_inj_tail in H. destruct H as [-> ->]. auto.
  - exfalso. destruct (app_last_split _ _ _ _ _ H ltac:(discriminate)) as (r' & _ & ->).
    apply Forall_app in Fb. destruct Fb as [_ Fb]. inversion Fb; subst. contradiction.
Qed.

Definition no_extension (u : list token) (t : token) : Prop :=
  forall src' rest' mb', lex src' = Ok (u ++ t :: rest', mb') -> parse src' = Err.
Definition prefix_consumed (u : list token) : Prop :=
  forall rest' r, parse_tokensE (u ++ rest') = ErrE r -> (length r <= length rest')%nat.

Lemma no_extension_of_local : forall u t rest, parse_tokensE (u ++ t :: rest) = ErrE (t :: rest) -> no_extension u t.
Proof.
  intros u t rest H src' rest' mb' L. unfold parse. rewrite L.
  pose proof (parse_tokensE_local _ _ _ H rest') as X.
  assert (P : parse_tokens (u ++ t :: rest') = Err) by (apply parse_tokens_err_iff; eauto).
  rewrite P. reflexivity.
Qed.

Lemma lex_shape : forall src ts mb, lex src = Ok (ts, mb) ->
  exists body e, ts = body ++ [e] /\ tk e = EOF /\ Forall (fun t => tk t <> EOF) body.
Proof. intros src ts mb H. unfold lex, lex_src in H. cbn [snd] in H. exact (lex_all_shape _ _ _ _ _ H). Qed.

Lemma no_extension_eof : forall body e r, tk e = EOF -> Forall (fun t => tk t <> EOF) body ->
  parse_tokensE (body ++ [e]) = ErrE r -> no_extension body e.
Proof.
  intros body e r Ke Fb P src' rest' mb' L'. unfold parse. rewrite L'.
  destruct (lex_shape _ _ _ L') as (body' & e' & E' & Ke' & Fb').
  destruct (eof_is_last _ _ _ _ _ (eq_sym E') Fb' Ke) as [-> _].
  rewrite (proj2 (parse_tokens_err_iff _) (ex_intro _ r P)). reflexivity.
Qed.

(* Languages of token lists and the two facts that carry the "viable prefix" argument through the
   recogniser's combinators:

     SoundL g L   when g succeeds, the tokens it consumed are in L;
     CompL g L    when g fails, the tokens it consumed before the reported token can be
                  continued to something in L.

   Through the combinators the two travel together, with Inh L, as Rec g L, one lemma per combinator
   (hint database [lang]); a production gets its Rec by a walk over its definition and an inclusion of
   the resulting language in the grammar's. *)
From Coq Require Import String List NArith Bool.
From GQL Require Import Base.Bytes Syntax.Lexer Syntax.Ast Syntax.Parser Syntax.Grammar SynErr.LexErr SynErr.ParseErr.
From GQL Require Import Proofs.SyntaxSound Proofs.SynErrWB Proofs.SynErrErase.
Import ListNotations.
Open Scope N_scope.

Definition lang := list token -> Prop.
Definition SoundL (g : R) (L : lang) : Prop := forall ts r, g ts = OkE r -> exists u, ts = u ++ r /\ L u.
Definition CompL (g : R) (L : lang) : Prop := forall ts r, g ts = ErrE r -> exists u, ts = u ++ r /\ exists cont, L (u ++ cont).
Definition Inh (L : lang) : Prop := exists w, L w.

Definition EpsL : lang := fun p => p = [].
Definition TokL (q : token -> bool) : lang := fun l => exists t, l = [t] /\ q t = true.
Definition CatL (A B : lang) : lang := fun p => exists a b, p = a ++ b /\ A a /\ B b.
Definition AltL (A B : lang) : lang := fun p => A p \/ B p.
Inductive StarL (A : lang) : lang :=
| StarL_nil : StarL A []
| StarL_cons : forall a p, A a -> StarL A p -> StarL A (a ++ p).
Inductive SepL (A : lang) (sep : tkind) : lang :=
| SepL_one : forall a, A a -> SepL A sep a
| SepL_cons : forall a s p, A a -> tk s = sep -> SepL A sep p -> SepL A sep (a ++ s :: p).
Definition Plus (A : lang) : lang := CatL A (StarL A).
Definition DelimL (A : lang) (open close : tkind) (ne : bool) : lang :=
  CatL (TokL (is_k open)) (CatL (if ne then Plus A else StarL A) (TokL (is_k close))).
Definition LangOf {X} (I : list token -> X -> Prop) : lang := fun p => exists a, I p a.

Definition Rec (g : R) (L : lang) : Prop :=
  Inh L /\ forall ts b r, out (g ts) = Some (b, r) ->
    exists u, ts = u ++ r /\ if b then L u else exists cont, L (u ++ cont).

Lemma Rec_intro : forall g L, SoundL g L -> CompL g L -> Inh L -> Rec g L.
Proof. intros g L S C I. split; [exact I|]. intros ts [|] r H; [apply S, out_ok, H | apply C, out_err, H]. Qed.
Lemma Rec_sound : forall g L, Rec g L -> SoundL g L.
Proof. intros g L [_ H] ts r E. apply (H ts true). rewrite E. reflexivity. Qed.
Lemma Rec_comp : forall g L, Rec g L -> CompL g L.
Proof. intros g L [_ H] ts r E. apply (H ts false). rewrite E. reflexivity. Qed.
Lemma Rec_mono : forall g (L L' : lang), (forall p, L p -> L' p) -> Rec g L -> Rec g L'.
Proof.
  intros g L L' M [[w Hw] H]. split; [exists w; auto|].
  intros ts b r E. destruct (H ts b r E) as (u & -> & X). exists u. split; [reflexivity|].
  destruct b; [auto | destruct X as [cont X]; eauto].
Qed.
Lemma CompL_within : forall g (L L' : lang), Rec g L -> (forall p, L p -> L' p) -> CompL g L'.
Proof. intros g L L' H M. exact (Rec_comp _ _ (Rec_mono _ _ _ M H)). Qed.

Lemma SoundL_of : forall X (f : pst -> res (X * pst)) g I, Er f g -> Sound f I -> SoundL g (LangOf I).
Proof.
  intros X f g I E S ts r H. destruct (Er_okE _ _ _ E 0 _ _ H) as (a & p1 & E1).
  destruct (S _ _ _ E1) as (p & [C _] & D). exists p. split; [exact C | exists a; exact D].
Qed.

Definition ctok (k : tkind) : token := mktok k 0 0 [].
Lemma Inh_TokL_k : forall k, Inh (TokL (is_k k)).
Proof. intro k. exists [ctok k], (ctok k). split; [reflexivity|]. unfold is_k. destruct k; reflexivity. Qed.
Definition kwtok (w : bytes) : token := mktok NAME 0 0 w.
Lemma Inh_kwd : forall w, Inh (TokL (is_kwd w)).
Proof. intro w. exists [kwtok w], (kwtok w). split; [reflexivity|]. unfold is_kwd. cbn. apply bytes_eqb_eq. reflexivity. Qed.
Lemma Inh_optype : Inh (TokL is_optype).
Proof. exists [kwtok (kw "query")], (kwtok (kw "query")). split; reflexivity. Qed.
Lemma Inh_EpsL : Inh EpsL.
Proof. exists []. reflexivity. Qed.
Lemma Inh_StarL : forall A, Inh (StarL A).
Proof. intro A. exists []. constructor. Qed.
Lemma Inh_CatL : forall A B, Inh A -> Inh B -> Inh (CatL A B).
Proof. intros A B [a Ha] [b Hb]. exists (a ++ b), a, b. auto. Qed.
Lemma Inh_Plus : forall A, Inh A -> Inh (Plus A).
Proof. intros A H. apply Inh_CatL; [exact H|apply Inh_StarL]. Qed.
Lemma Inh_SepL : forall A sep, Inh A -> Inh (SepL A sep).
Proof. intros A sep [w Hw]. exists w. constructor. exact Hw. Qed.

(* the recogniser's definitions stay folded during the search: a named production is met by its lemmas *)
Create HintDb lang.
#[export] Hint Constants Opaque : lang.
#[export] Hint Resolve Inh_TokL_k Inh_StarL Inh_CatL Inh_Plus : lang.

Lemma Rec_okE : Rec okE EpsL.
Proof. split; [apply Inh_EpsL|]. intros ts b r [= <- <-]. exists []. split; reflexivity. Qed.
Lemma Rec_fuelE : forall L, Inh L -> Rec fuelE L.
Proof. intros L I. split; [exact I|]. intros ts b r [=]. Qed.
Lemma Rec_failE : forall L, Inh L -> Rec failE L.
Proof. intros L [w Hw]. split; [exists w; exact Hw|]. intros ts b r [= <- <-]. exists []. eauto. Qed.

Lemma Rec_tokE : forall q, Inh (TokL q) -> Rec (tokE q) (TokL q).
Proof.
  intros q [w Hw]. split; [exists w; exact Hw|].
  intros [|t ts] b r H; cbn in H; [|destruct (q t) eqn:Q]; injection H as <- <-.
  - exists []. eauto.
  - exists [t]. split; [reflexivity|]. exists t. auto.
  - exists []. eauto.
Qed.
Lemma Rec_endE : Rec endE EpsL.
Proof.
  split; [apply Inh_EpsL|]. intros [|t ts] b r [= <- <-]; exists []; (split; [reflexivity|]); [|exists []]; reflexivity.
Qed.
Lemma Rec_expectE : forall k, Rec (expectE k) (TokL (is_k k)).
Proof. intro k. apply Rec_tokE, Inh_TokL_k. Qed.
Lemma Rec_expect_kwE : forall w, Rec (expect_kwE w) (TokL (is_kwd w)).
Proof. intro w. apply Rec_tokE, Inh_kwd. Qed.
Lemma Rec_nameE : Rec parse_nameE (TokL (is_k NAME)).
Proof. apply Rec_expectE. Qed.
Lemma Rec_optypeE : Rec parse_optypeE (TokL is_optype).
Proof. apply Rec_tokE, Inh_optype. Qed.

Lemma Rec_seqE : forall g1 g2 A B, Rec g1 A -> Rec g2 B -> Rec (g1 ;;; g2) (CatL A B).
Proof.
  intros g1 g2 A B [I1 R1] [[w Hw] R2]. split; [apply Inh_CatL; [exact I1|exists w; exact Hw]|].
  intros ts b r H. unfold seqE in H.
  destruct (g1 ts) as [m|a|] eqn:E1; [| |discriminate H].
  - destruct (R1 ts true m) as (u1 & -> & L1); [rewrite E1; reflexivity|].
    destruct (R2 m b r H) as (u2 & -> & L2). exists (u1 ++ u2). split; [apply app_assoc|].
    destruct b; [exists u1, u2; auto|]. destruct L2 as [cont L2].
    exists cont, u1, (u2 ++ cont). split; [symmetry; apply app_assoc|auto].
  - injection H as <- <-. destruct (R1 ts false a) as (u & -> & cont & L1); [rewrite E1; reflexivity|].
    exists u. split; [reflexivity|]. exists (cont ++ w), (u ++ cont), w. split; [apply app_assoc|auto].
Qed.

Lemma SoundL_caseE : forall sel L, (forall o, SoundL (sel o) L) -> SoundL (caseE sel) L.
Proof. intros sel L S ts r H. exact (S _ _ _ H). Qed.
Lemma CompL_caseE : forall sel L, (forall o, CompL (sel o) L) -> CompL (caseE sel) L.
Proof. intros sel L C ts r H. exact (C _ _ _ H). Qed.
Lemma CompL_ifE : forall q g1 g2 L, CompL g1 L -> CompL g2 L -> CompL (ifE q g1 g2) L.
Proof. intros q g1 g2 L C1 C2. apply CompL_caseE. intros [t|]; [destruct (q t)|]; assumption. Qed.

Lemma Rec_caseE : forall sel L, (forall o, Rec (sel o) L) -> Rec (caseE sel) L.
Proof. intros sel L H. split; [exact (proj1 (H None))|]. intros ts. apply H. Qed.
Lemma Rec_if : forall (c : bool) g1 g2 L, Rec g1 L -> Rec g2 L -> Rec (if c then g1 else g2) L.
Proof. intros [|]; trivial. Qed.
Lemma Rec_ifE : forall q g1 g2 L, Rec g1 L -> Rec g2 L -> Rec (ifE q g1 g2) L.
Proof. intros q g1 g2 L R1 R2. apply Rec_caseE. intros [t|]; [apply Rec_if|]; assumption. Qed.
Lemma Rec_ifE_alt : forall q g1 g2 A B, Rec g1 A -> Rec g2 B -> Rec (ifE q g1 g2) (AltL A B).
Proof.
  intros q g1 g2 A B R1 R2.
  apply Rec_ifE; [eapply Rec_mono; [|exact R1]|eapply Rec_mono; [|exact R2]]; intros p H; [left|right]; exact H.
Qed.
Lemma Rec_fail_if : forall q g A, Rec g A -> Rec (ifE q failE g) A.
Proof. intros q g A H. apply Rec_ifE; [apply Rec_failE, H|exact H]. Qed.
Lemma Rec_if_fail : forall q g A, Rec g A -> Rec (ifE q g failE) A.
Proof. intros q g A H. apply Rec_ifE; [exact H|apply Rec_failE, H]. Qed.

Lemma CompL_okE : forall L, CompL okE L.
Proof. intros L ts r H. discriminate H. Qed.
Lemma CompL_start : forall q L, Inh L -> CompL (tokE q) L.
Proof.
  intros q L [w Hw] ts r H. exists []. split; [|exists w; exact Hw].
  destruct ts as [|t ts]; cbn in H; [|destruct (q t)]; inversion H; reflexivity.
Qed.
Lemma CompL_failE : forall L, Inh L -> CompL failE L.
Proof. intros L I. exact (Rec_comp _ _ (Rec_failE _ I)). Qed.
Lemma CompL_if : forall (c : bool) g1 g2 L, CompL g1 L -> CompL g2 L -> CompL (if c then g1 else g2) L.
Proof. intros [|]; trivial. Qed.
Lemma CompL_if_ok : forall q g A, CompL g A -> CompL (ifE q g okE) A.
Proof. intros q g A C. apply CompL_ifE; [exact C|apply CompL_okE]. Qed.
Lemma CompL_if_fail : forall q g A, CompL g A -> Inh A -> CompL (ifE q g failE) A.
Proof. intros q g A C I. apply CompL_ifE; [exact C|apply CompL_failE; exact I]. Qed.
Lemma optE_no_fail : forall k ts r, optE k ts <> ErrE r.
Proof.
  intros k [|t ts] r; unfold optE, ifE, caseE; cbn [hd_error]; [discriminate|].
  destruct (is_k k t); discriminate.
Qed.
Lemma seqE_err_l : forall g1 g2 ts r, (forall ts' r', g2 ts' <> ErrE r') -> (g1 ;;; g2) ts = ErrE r -> g1 ts = ErrE r.
Proof.
  intros g1 g2 ts r N H. unfold seqE in H. destruct (g1 ts) as [m|a|]; [destruct (N _ _ H)|exact H|discriminate H].
Qed.

(* "if the current token satisfies q, consume it and go on with g, else h"; g1 is [anyE ;;; g],
   or [anyE] for skip(k) *)
Lemma Rec_if_tok : forall q g1 g h A B, (forall t ts, g1 (t :: ts) = g ts) -> Rec g A -> Rec h B ->
  Rec (ifE q g1 h) (AltL (CatL (TokL q) A) B).
Proof.
  intros q g1 g h A B E [_ Rg] Rh.
  destruct (Rec_mono _ _ (AltL (CatL (TokL q) A) B) (fun p => @or_intror _ _) Rh) as [I Rh']. split; [exact I|].
  intros [|t ts] b r H; unfold ifE, caseE in H; cbn [hd_error] in H; [exact (Rh' _ _ _ H)|].
  destruct (q t) eqn:Q; [|exact (Rh' _ _ _ H)]. rewrite E in H.
  destruct (Rg _ _ _ H) as (u & -> & X). exists (t :: u). split; [reflexivity|].
  assert (T : TokL q [t]) by (exists t; auto).
  destruct b; [left; exists [t], u; auto|]. destruct X as [c X]. exists c. left. exists [t], (u ++ c). auto.
Qed.
Lemma Rec_if_skip : forall q h B, Rec h B -> Rec (ifE q anyE h) (AltL (CatL (TokL q) EpsL) B).
Proof. intros q h B. apply (Rec_if_tok _ _ okE); [reflexivity|apply Rec_okE]. Qed.
Lemma Rec_if_any : forall q g h A B, Rec g A -> Rec h B -> Rec (ifE q (anyE ;;; g) h) (AltL (CatL (TokL q) A) B).
Proof. intros q g h A B. apply Rec_if_tok. reflexivity. Qed.
Lemma Rec_optE : forall k, Rec (optE k) (AltL (CatL (TokL (is_k k)) EpsL) EpsL).
Proof. intro k. apply Rec_if_skip, Rec_okE. Qed.

#[export] Hint Resolve Rec_okE Rec_tokE Rec_expectE Rec_expect_kwE Rec_nameE Rec_optypeE Rec_seqE Rec_if_any Rec_if_skip Rec_optE Rec_fail_if Rec_if_fail : lang.
#[export] Hint Resolve Rec_ifE_alt | 4 : lang.

Lemma Rec_manyE : forall item A close, Rec item A ->
  forall fuel, Rec (manyE fuel item close) (CatL (StarL A) (TokL (is_k close))).
Proof.
  intros item A close Ri. induction fuel as [|f IH]; cbn [manyE]; [apply Rec_fuelE; auto with lang|].
  eapply Rec_mono; [|apply (Rec_if_tok _ _ okE); [reflexivity|apply Rec_okE|apply Rec_seqE; [exact Ri|exact IH]]].
  intros p [(a & b & -> & Ha & ->)|(a & b & -> & Ha & (s & c & -> & Hs & Hc))].
  - exists [], a. rewrite app_nil_r. split; [reflexivity|split; [constructor|exact Ha]].
  - exists (a ++ s), c. split; [apply app_assoc|]. split; [constructor; assumption|exact Hc].
Qed.
Lemma Rec_many1E : forall item A close, Rec item A ->
  forall fuel, Rec (many1E fuel item close) (CatL (Plus A) (TokL (is_k close))).
Proof.
  intros item A close Ri [|f]; cbn [many1E]; [apply Rec_fuelE; destruct Ri; auto with lang|].
  eapply Rec_mono; [|apply Rec_fail_if, Rec_seqE; [exact Ri|apply Rec_manyE, Ri]].
  intros p (a & b & -> & Ha & (s & c & -> & Hs & Hc)).
  exists (a ++ s), c. split; [apply app_assoc|]. split; [exists a, s; auto|exact Hc].
Qed.
Lemma Rec_reverseE : forall item A open close ne fuel, Rec item A ->
  Rec (reverseE fuel open item close ne) (DelimL A open close ne).
Proof.
  intros item A open close ne fuel Ri. unfold reverseE, DelimL.
  apply Rec_seqE; [apply Rec_expectE|]. destruct ne; [apply Rec_many1E|apply Rec_manyE]; exact Ri.
Qed.

(* "for peek(k) { item }" *)
Lemma Rec_whileE : forall k item A, Rec item A -> forall fuel, Rec (whileE fuel k item) (StarL A).
Proof.
  intros k item A Ri. induction fuel as [|f IH]; cbn [whileE]; [apply Rec_fuelE, Inh_StarL|].
  eapply Rec_mono; [|apply Rec_ifE_alt; [apply Rec_seqE; [exact Ri|exact IH]|apply Rec_okE]].
  intros p [(a & b & -> & Ha & Hb)| ->]; constructor; assumption.
Qed.

(* "for { item; if !skip(sep) break }" *)
Lemma Rec_sep_byE : forall sep item A, Rec item A -> forall fuel, Rec (sep_byE fuel sep item) (SepL A sep).
Proof.
  intros sep item A Ri. induction fuel as [|f IH]; cbn [sep_byE]; [apply Rec_fuelE, Inh_SepL, Ri|].
  eapply Rec_mono; [|apply Rec_seqE; [exact Ri|apply Rec_if_any; [exact IH|apply Rec_okE]]].
  intros p (a & b & -> & Ha & [(s & c & -> & (t & -> & Ht) & Hc)| ->]).
  - apply SepL_cons; [exact Ha|apply tkind_beq_eq, Ht|exact Hc].
  - rewrite app_nil_r. constructor. exact Ha.
Qed.
#[export] Hint Resolve Rec_reverseE Rec_whileE Rec_sep_byE : lang.

Lemma StarL_DStar : forall X (I : list token -> X -> Prop) p, StarL (LangOf I) p -> exists l, DStar I p l.
Proof.
  intros X I p S. induction S as [|a p [x Hx] _ [l IH]]; [exists []; constructor|].
  exists (x :: l). constructor; assumption.
Qed.
Lemma Plus_DStar : forall X (I : list token -> X -> Prop) p, Plus (LangOf I) p -> exists l, DStar I p l /\ l <> [].
Proof.
  intros X I p (a & b & -> & [x Hx] & S). destruct (StarL_DStar _ _ _ S) as [l Dl].
  exists (x :: l). split; [constructor; assumption|discriminate].
Qed.
Lemma DelimL_DDelim : forall X (I : list token -> X -> Prop) o c ne p, DelimL (LangOf I) o c ne p -> exists l, DDelim I o c ne p l.
Proof.
  intros X I o c ne p (a & b & -> & (to & -> & Ko) & (m & e & -> & M & (tc & -> & Kc))).
  unfold is_k in Ko, Kc. apply tkind_beq_eq in Ko, Kc. cbn [app].
  destruct ne.
  - destruct (Plus_DStar _ _ _ M) as (l & Dl & Ne). exists l. constructor; auto.
  - destruct (StarL_DStar _ _ _ M) as (l & Dl). exists l. constructor; auto. discriminate.
Qed.
Lemma OptL_DOpt : forall X (I : list token -> X -> Prop) (A : lang), (forall p, A p -> LangOf I p) ->
  forall p, AltL A EpsL p -> exists o, DOpt I p o.
Proof.
  intros X I A M p [H| ->]; [destruct (M _ H) as [x Hx]; exists (Some x); constructor; exact Hx|exists None; constructor].
Qed.
Lemma SepL_DSep : forall X (I : list token -> X -> Prop) sep p, SepL (LangOf I) sep p -> exists l, DSep I sep p l.
Proof.
  intros X I sep p S. induction S as [a [x Hx]|a s p [x Hx] Ks _ [l IH]].
  - exists [x]. constructor; exact Hx.
  - exists (x :: l). constructor; assumption.
Qed.

(* Soundness and termination of the parser model with respect to the grammar
   (Syntax/Grammar.v): whatever a parse function returns is derivable, the tokens it
   consumed are exactly the derivation's tokens, and it runs out of fuel only on an
   input at least as long as its fuel.  Both are read off one specification per parse
   function ([Spec]), proved by one walk along its chain of sub-parsers. *)
From Coq Require Import String List NArith Bool Lia.
From GQL Require Import Base.Bytes Syntax.Lexer Syntax.Ast Syntax.Parser Syntax.Grammar.
Import ListNotations.
Open Scope N_scope.

(* stated so that each of the 400 cases is closed by computation alone *)
Lemma tkind_beq_sel : forall a b, (if tkind_beq a b then a else b) = b.
Proof. destruct a, b; reflexivity. Qed.

Lemma tkind_beq_eq : forall a b, tkind_beq a b = true <-> a = b.
Proof.
  intros a b; split; [intro H; rewrite <- (tkind_beq_sel a b), H; reflexivity | intros ->; destruct b; reflexivity].
Qed.

Lemma endof_app : forall p q pe, endof pe (p ++ q) = endof (endof pe p) q.
Proof. intros p q pe. unfold endof. apply fold_left_app. Qed.

Lemma endof_cons_any : forall t p pe pe', endof pe (t :: p) = endof pe' (t :: p).
Proof. reflexivity. Qed.

Definition consumes (st : pst) (p : list token) (st' : pst) : Prop :=
  snd st = p ++ snd st' /\ fst st' = endof (fst st) p.

Definition Sound {A} (P : pst -> res (A * pst)) (I : list token -> A -> Prop) : Prop :=
  forall st a st', P st = Ok (a, st') -> exists p, consumes st p st' /\ I p a.

Definition len (st : pst) : nat := List.length (snd st).

(* What a call started in st0 may return: a value derived from the tokens consumed since
   st0, a refusal, or exhausted fuel -- the last only if st0 holds at least n tokens. *)
Definition Post {A} (st0 : pst) (n : nat) (I : list token -> A -> Prop) (r : res (A * pst)) : Prop :=
  match r with
  | Ok (a, st') => exists p, consumes st0 p st' /\ I p a
  | Err => True
  | OutOfFuel => (n <= len st0)%nat
  end.

Definition Spec {A} (P : pst -> res (A * pst)) (I : list token -> A -> Prop) (n : nat) : Prop :=
  forall st, Post st n I (P st).

Lemma Spec_sound : forall A (P : pst -> res (A * pst)) I n, Spec P I n -> Sound P I.
Proof. intros A P I n S st a st' H. specialize (S st). rewrite H in S. exact S. Qed.
Arguments Spec_sound {A P I n}.

Lemma Post_impl : forall A st m n (I J : list token -> A -> Prop) r,
  (m <= n)%nat -> (forall p a, I p a -> J p a) -> Post st n I r -> Post st m J r.
Proof.
  intros A st m n I J [[a st']| |] L IJ H; simpl in *; [|exact H|lia].
  destruct H as (p & C & D). exists p. split; [exact C|exact (IJ _ _ D)].
Qed.
Arguments Post_impl {A st m n I J r}.

Lemma Spec_weaken : forall A (P : pst -> res (A * pst)) I m n, (m <= n)%nat -> Spec P I n -> Spec P I m.
Proof. intros A P I m n L S st. exact (Post_impl L (fun _ _ D => D) (S st)). Qed.
Arguments Spec_weaken {A P I m n}.

Lemma consumes_refl : forall st, consumes st [] st.
Proof. intros [pe ts]; split; reflexivity. Qed.

Lemma consumes_trans : forall st p st1 q st2, consumes st p st1 -> consumes st1 q st2 -> consumes st (p ++ q) st2.
Proof.
  intros st p st1 q st2 [H1 H2] [H3 H4]. split.
  - rewrite H1, H3. apply app_assoc.
  - rewrite H4, H2. symmetry. apply endof_app.
Qed.
Arguments consumes_trans {st p st1 q st2}.

Lemma consumes_one : forall st t r, snd st = t :: r -> consumes st [t] (tend t, r).
Proof. intros [pe ts] t r H; simpl in *; subst; split; reflexivity. Qed.
Arguments consumes_one {st t r}.

Lemma consumes_head : forall st t p st', consumes st (t :: p) st' -> exists r, snd st = t :: r.
Proof. intros st t p st' [H _]. rewrite H. eexists; reflexivity. Qed.
Arguments consumes_head {st t p st'}.

Lemma consumes_len : forall st p st', consumes st p st' -> len st = (List.length p + len st')%nat.
Proof. intros st p st' [H _]. unfold len. rewrite H, app_length. reflexivity. Qed.
Arguments consumes_len {st p st'}.

Lemma consumes_mkl : forall st p st', consumes st p st' -> p <> [] -> mkl (cur_start st) st' = span p.
Proof.
  intros [pe ts] [|t p] st' [H1 H2] N; [contradiction|]. unfold cur_start, mkl, span. simpl in *. rewrite H1, H2. reflexivity.
Qed.
Arguments consumes_mkl {st p st'}.

Lemma post_ret : forall A st0 n (I : list token -> A -> Prop) p a st', consumes st0 p st' -> I p a -> Post st0 n I (Ok (a, st')).
Proof. intros A st0 n I p a st' C D. exists p. split; assumption. Qed.
Arguments post_ret {A st0 n I p a st'}.

(* One step along a chain: e was run in st, reached from st0 by consuming p0; the rest of
   the chain goes on from wherever e stopped. *)
Lemma post_bind_gen : forall A B (e : res (A * pst)) (k : A * pst -> res (B * pst)) I J m n st0 p0 st,
  consumes st0 p0 st -> Post st m I e -> ((m <= len st)%nat -> (n <= len st0)%nat) ->
  (forall a p st1, I p a -> consumes st0 (p0 ++ p) st1 -> Post st0 n J (k (a, st1))) ->
  Post st0 n J (match e with Ok x => k x | Err => Err | OutOfFuel => OutOfFuel end).
Proof.
  intros A B e k I J m n st0 p0 st C He Hm Hk. destruct e as [[a st1]| |]; [|exact Logic.I|exact (Hm He)].
  destruct He as (p & C1 & D). exact (Hk a p st1 D (consumes_trans C C1)).
Qed.

Lemma post_bind : forall A B (e : res (A * pst)) (k : A * pst -> res (B * pst)) I J n st0 p0 st,
  consumes st0 p0 st -> Post st n I e ->
  (forall a p st1, I p a -> consumes st0 (p0 ++ p) st1 -> Post st0 n J (k (a, st1))) ->
  Post st0 n J (match e with Ok x => k x | Err => Err | OutOfFuel => OutOfFuel end).
Proof. intros A B e k I J n st0 p0 st C He. apply (post_bind_gen _ _ _ _ _ _ _ _ _ _ _ C He). rewrite (consumes_len C). lia. Qed.

Lemma post_tail : forall A (e : res (A * pst)) (I J : list token -> A -> Prop) m n st0 p0 st,
  consumes st0 p0 st -> Post st m I e -> (n <= m)%nat -> (forall p a, I p a -> J (p0 ++ p) a) -> Post st0 n J e.
Proof.
  intros A [[a st1]| |] I J m n st0 p0 st C He L IJ; simpl in *; [|exact He|rewrite (consumes_len C); lia].
  destruct He as (p & C1 & D). exists (p0 ++ p). split; [exact (consumes_trans C C1)|exact (IJ _ _ D)].
Qed.

Definition first_in (ks : list tkind) (p : list token) : Prop := exists t p', p = t :: p' /\ In (tk t) ks.

Lemma first_in_nonnil : forall ks p, first_in ks p -> p <> [].
Proof. intros ks p (t & p' & -> & _). discriminate. Qed.
Arguments first_in_nonnil {ks p}.

Lemma first_in_incl : forall ks ks' p, first_in ks p -> incl ks ks' -> first_in ks' p.
Proof. intros ks ks' p (t & p' & -> & H) S. exists t, p'. split; [reflexivity|exact (S _ H)]. Qed.
Arguments first_in_incl {ks ks' p}.

Lemma delim_first : forall A (I : list token -> A -> Prop) o c ne p l, DDelim I o c ne p l -> first_in [o] p.
Proof. intros A I o c ne p l D. destruct D as [o0 ps c0 l Ho _ _ _]. exists o0, (ps ++ [c0]). split; [reflexivity|left; auto]. Qed.
Arguments delim_first {A I o c ne p l}.

Lemma selset_first : forall p ss, DSelSet p ss -> first_in [BRACE_L] p.
Proof. intros p ss D. destruct D as [p l D]. exact (delim_first D). Qed.
Arguments selset_first {p ss}.

Lemma delim_nonnil : forall A (I : list token -> A -> Prop) o c ne p l, DDelim I o c ne p l -> p <> [].
Proof. intros A I o c ne p l D. exact (first_in_nonnil (delim_first D)). Qed.

Lemma selset_nonnil : forall p ss, DSelSet p ss -> p <> [].
Proof. intros p ss D. exact (first_in_nonnil (selset_first D)). Qed.

(* [bind S C]: the chain's next call satisfies S, and C says what was consumed so far *)
Ltac bind S C := eapply post_bind; [exact C | apply S | cbv beta iota zeta].
Ltac nonnil :=
  first [ discriminate | apply not_eq_sym, app_cons_not_nil | eapply delim_nonnil; eassumption | eapply selset_nonnil; eassumption ].
(* [ret C]: the chain ends having consumed what C says; what is left is the derivation *)
Ltac ret C := cbn [app] in C; rewrite <- ?app_assoc in C; cbn [app] in C;
  rewrite ?(consumes_mkl C) by nonnil; apply (post_ret C).

Definition TokOf (k : tkind) (p : list token) (t : token) : Prop := p = [t] /\ tk t = k.
Definition KwOf (w : bytes) (p : list token) (t : token) : Prop := p = [t] /\ tk t = NAME /\ tval t = w.

Lemma peek_true : forall k st, peek k st = true -> exists t r, snd st = t :: r /\ tk t = k.
Proof.
  intros k [pe ts]; unfold peek; simpl. destruct ts as [|t r]; [discriminate|].
  intro H. apply tkind_beq_eq in H. eauto.
Qed.

Lemma expect_spec : forall k n, Spec (expect k) (TokOf k) n.
Proof.
  intros k n st. unfold expect. destruct (snd st) as [|t r] eqn:Hs; [exact I|].
  destruct (tkind_beq (tk t) k) eqn:E; [|exact I]. apply tkind_beq_eq in E.
  exact (post_ret (consumes_one Hs) (conj eq_refl E)).
Qed.

Lemma expect_kw_spec : forall w n, Spec (expect_kw w) (KwOf w) n.
Proof.
  intros w n st. unfold expect_kw. destruct (snd st) as [|t r] eqn:Hs; [exact I|].
  destruct (tkind_beq (tk t) NAME && bytes_eqb (tval t) w) eqn:E; [|exact I].
  apply andb_true_iff in E. destruct E as [E1 E2]. apply tkind_beq_eq in E1. apply bytes_eqb_eq in E2.
  exact (post_ret (consumes_one Hs) (conj eq_refl (conj E1 E2))).
Qed.

Definition Skipped (k : tkind) (p : list token) (b : bool) : Prop :=
  if b then exists t, TokOf k p t else p = [].

Lemma skip_spec : forall k n, Spec (skip k) (Skipped k) n.
Proof.
  intros k n st. unfold skip. destruct (peek k st) eqn:E.
  - apply peek_true in E. destruct E as (t & r & Hs & K). unfold advance. rewrite Hs.
    apply (post_ret (a := true) (consumes_one Hs)). exists t. split; [reflexivity|exact K].
  - exact (post_ret (a := false) (consumes_refl st) eq_refl).
Qed.

Section ListSpecs.
  Context {A : Type}.
  Variable item : pst -> res (A * pst).
  Variable I : list token -> A -> Prop.
  Variable n : nat.
  Variable ks : list tkind.
  Hypothesis item_spec : Spec item I n.
  Hypothesis item_first : forall p a, I p a -> first_in ks p.

  Lemma consumes_item_len : forall st p a st', I p a -> consumes st p st' -> (len st' < len st)%nat.
  Proof.
    intros st p a st' D C. rewrite (consumes_len C). destruct (item_first _ _ D) as (t & p' & -> & _). simpl; lia.
  Qed.

  Definition Many (close : tkind) (p : list token) (l : list A) : Prop :=
    exists ps c, p = ps ++ [c] /\ tk c = close /\ DStar I ps l.

  Lemma many_spec : forall close fuel st, Post st (Nat.min fuel n) (Many close) (many fuel item close st).
  Proof.
    intros close fuel; induction fuel as [|f IH]; intro st; [apply le_0_n|].
    cbn [many]. destruct (peek close st) eqn:P.
    - apply peek_true in P. destruct P as (t & r & Hs & K). unfold advance. rewrite Hs.
      apply (post_ret (consumes_one Hs)). exists [], t. split; [reflexivity|split; [exact K|constructor]].
    - eapply post_bind_gen; [apply consumes_refl|apply item_spec|lia|]. cbv beta iota. intros a p st1 D C.
      eapply post_bind_gen; [exact C|apply IH|pose proof (consumes_item_len _ _ _ _ D C); lia|]. cbv beta iota.
      intros l q st2 (ps & c & -> & K & Ds) C2. cbn [app] in C2. rewrite app_assoc in C2.
      apply (post_ret C2). exists (p ++ ps), c. split; [reflexivity|split; [exact K|constructor; assumption]].
  Qed.

  Lemma reverse_spec : forall open close ne fuel, (n <= fuel)%nat -> Spec (reverse fuel open item close ne) (DDelim I open close ne) (S n).
  Proof.
    intros open close ne fuel L st. unfold reverse.
    eapply post_bind_gen; [apply consumes_refl|apply (expect_spec open (S n))|exact (fun H => H)|]. cbv beta iota.
    intros o p st1 [-> Ko] C.
    eapply post_bind_gen; [exact C|apply many_spec|rewrite (consumes_len C); simpl; lia|]. cbv beta iota.
    intros l q st2 (ps & c & -> & Kc & Ds) C2. destruct (ne && is_nil l) eqn:N; [exact Logic.I|].
    apply (post_ret C2). constructor; auto. intros -> ->. discriminate N.
  Qed.

  Lemma while_peek_spec : forall k fuel st, Post st (Nat.min fuel n) (DStar I) (while_peek fuel k item st).
  Proof.
    intros k fuel; induction fuel as [|f IH]; intro st; [apply le_0_n|].
    cbn [while_peek]. destruct (peek k st).
    - eapply post_bind_gen; [apply consumes_refl|apply item_spec|lia|]. cbv beta iota. intros a p st1 D C.
      eapply post_bind_gen; [exact C|apply IH|pose proof (consumes_item_len _ _ _ _ D C); lia|]. cbv beta iota.
      intros l q st2 Ds C2. apply (post_ret C2). constructor; assumption.
    - exact (post_ret (consumes_refl st) (DStar_nil I)).
  Qed.

  Lemma sep_by_spec : forall sep fuel st, Post st (Nat.min fuel n) (DSep I sep) (sep_by fuel sep item st).
  Proof.
    intros sep fuel; induction fuel as [|f IH]; intro st; [apply le_0_n|].
    cbn [sep_by]. eapply post_bind_gen; [apply consumes_refl|apply item_spec|lia|]. cbv beta iota. intros a p st1 D C.
    bind (skip_spec sep) C. intros [|] q st2 Hq C2.
    - destruct Hq as (s & -> & Ks).
      eapply post_bind_gen; [exact C2|apply IH|rewrite (consumes_len C2), app_length; cbn [length]; lia|].
      cbv beta iota. intros l ps st3 Ds C3. cbn [app] in C3. rewrite <- !app_assoc in C3.
      apply (post_ret C3). constructor; assumption.
    - rewrite Hq, app_nil_r in C2. apply (post_ret C2). constructor; exact D.
  Qed.
End ListSpecs.
Arguments many_spec {A item I n ks}.
Arguments reverse_spec {A item I n ks}.

Lemma while_peek_Spec : forall A (item : pst -> res (A * pst)) I ks k fuel, Spec item I fuel -> (forall p a, I p a -> first_in ks p) ->
  Spec (while_peek fuel k item) (DStar I) fuel.
Proof. intros A item I ks k fuel S N st. rewrite <- (PeanoNat.Nat.min_id fuel) at 1. apply (while_peek_spec _ _ _ ks); assumption. Qed.
Arguments while_peek_Spec {A item I ks}.

Lemma sep_by_Spec : forall A (item : pst -> res (A * pst)) I sep fuel, Spec item I fuel -> Spec (sep_by fuel sep item) (DSep I sep) fuel.
Proof. intros A item I sep fuel S st. rewrite <- (PeanoNat.Nat.min_id fuel) at 1. apply sep_by_spec; assumption. Qed.
Arguments sep_by_Spec {A item I}.

Lemma reverse_Spec : forall A (item : pst -> res (A * pst)) I ks open close ne fuel, Spec item I fuel -> (forall p a, I p a -> first_in ks p) ->
  Spec (reverse fuel open item close ne) (DDelim I open close ne) fuel.
Proof. intros A item I ks open close ne fuel S N. exact (Spec_weaken (le_S _ _ (le_n _)) (reverse_spec S N open close ne fuel (le_n _))). Qed.
Arguments reverse_Spec {A item I ks}.

Lemma Sound_ext : forall A (P Q : pst -> res (A * pst)) I, (forall st, P st = Q st) -> Sound Q I -> Sound P I.
Proof. intros A P Q I E S st a st' H. rewrite E in H. exact (S st a st' H). Qed.

Lemma parse_name_spec : forall n, Spec parse_name DName n.
Proof.
  intros n st. unfold parse_name. bind (expect_spec NAME) (consumes_refl st). intros t p st1 [-> K] C.
  ret C. constructor; exact K.
Qed.

Lemma parse_named_spec : forall n, Spec parse_named DNamed n.
Proof.
  intros n st. unfold parse_named. bind parse_name_spec (consumes_refl st). intros x p st1 [t K] C.
  ret C. exact (DNamed_intro t K).
Qed.

Lemma parse_variable_spec : forall n, Spec parse_variable (DValue false) n.
Proof.
  intros n st. unfold parse_variable.
  bind (expect_spec DOLLAR) (consumes_refl st). intros d p s1 [-> Kd] C1.
  bind parse_name_spec C1. intros x p s2 [t Kt] C2.
  ret C2. constructor; auto.
Qed.

Lemma objfield_spec : forall pv V n, Spec pv V n -> Spec (parse_objfield_with pv) (DObjFieldOf V) n.
Proof.
  intros pv V n S st. unfold parse_objfield_with.
  bind parse_name_spec (consumes_refl st). intros x p s1 [t Kt] C1.
  bind (expect_spec COLON) C1. intros c p2 s2 [-> Kc] C2.
  bind S C2. intros v q s3 Dv C3.
  ret C3. constructor; assumption.
Qed.

Lemma bytes_eqb_neq : forall a b, bytes_eqb a b = false -> a <> b.
Proof. intros a b H E. apply bytes_eqb_eq in E. congruence. Qed.

Lemma cur_start_cons : forall st t r, snd st = t :: r -> cur_start st = tstart t.
Proof. intros st t r H. unfold cur_start. rewrite H. reflexivity. Qed.
Arguments cur_start_cons {st t r}.

Definition value_first : list tkind := [DOLLAR; INT; FLOAT; STRING; BLOCK_STRING; NAME; BRACKET_L; BRACE_L].

Lemma DValue_first_in : forall c p v, DValue c p v -> first_in value_first p.
Proof.
  intros c p v D. destruct D as [d n _ K _|t K|t K|t [K|K]|t K _|t K _|t K _ _ _|p l [o ps c0 l' K _ _ _]|p l [o ps c0 l' K _ _ _]];
    eexists; eexists; (split; [reflexivity|]); rewrite K; simpl; tauto.
Qed.

Lemma DObjField_first : forall V p f, DObjFieldOf V p f -> first_in [NAME] p.
Proof. intros V p f [n cl pv v Kn _ _]. exists n, (cl :: pv). split; [reflexivity|left; auto]. Qed.

Lemma parse_value_spec : forall fuel c, Spec (parse_value fuel c) (DValue c) fuel.
Proof.
  induction fuel as [|f IH]; intros c st; [apply le_0_n|].
  cbn [parse_value]. destruct (snd st) as [|t r] eqn:Hs; [exact I|].
  rewrite <- (cur_start_cons Hs). pose proof (consumes_one Hs) as C1.
  destruct (tk t) eqn:K; try exact I; try (apply (post_ret C1); constructor; auto; fail).
  - destruct c; [exact I|apply parse_variable_spec].
  - bind (reverse_spec (IH c) (DValue_first_in c) BRACKET_L BRACKET_R false f (le_n f)) (consumes_refl st).
    intros l p s1 D C. ret C. constructor; exact D.
  - bind (reverse_spec (objfield_spec _ _ _ (IH c)) (DObjField_first _) BRACE_L BRACE_R false f (le_n f)) (consumes_refl st).
    intros l p s1 D C. ret C. constructor; exact D.
  - destruct (bytes_eqb (tval t) (kw "true")) eqn:B1.
    { apply bytes_eqb_eq in B1. apply (post_ret C1). constructor; assumption. }
    destruct (bytes_eqb (tval t) (kw "false")) eqn:B2.
    { apply bytes_eqb_eq in B2. apply (post_ret C1). apply DV_false; assumption. }
    destruct (bytes_eqb (tval t) (kw "null")) eqn:B3; [exact I|].
    apply (post_ret C1). apply DV_enum; auto using bytes_eqb_neq.
Qed.

Lemma parse_type_spec : forall fuel, Spec (parse_type fuel) DType fuel.
Proof.
  induction fuel as [|f IH]; intro st; [apply le_0_n|].
  cbn [parse_type]. destruct (snd st) as [|t r] eqn:Hs; [exact I|].
  rewrite <- (cur_start_cons Hs). pose proof (consumes_one Hs) as C1.
  eapply post_bind with (I := fun p ty => DType p ty /\ is_nonnull ty = false); [apply consumes_refl| |].
  - destruct (tk t) eqn:K; try exact I.
    + unfold advance. rewrite Hs.
      eapply post_bind_gen; [exact C1|apply IH|rewrite (consumes_len C1); simpl; lia|]. cbv beta iota.
      intros inner p s1 D C2. bind (expect_spec BRACKET_R) C2. intros c q s2 [-> Kc] C3.
      ret C3. split; [constructor; assumption|reflexivity].
    + bind parse_named_spec (consumes_refl st). intros x p s1 [n Kn] C.
      ret C. split; [constructor; exact Kn|reflexivity].
  - cbv beta iota. intros ty0 p s1 [D NN] C. bind (skip_spec BANG) C. intros [|] q s2 Hq C2.
    + destruct Hq as (b & -> & Kb). ret C2. constructor; assumption.
    + rewrite Hq, app_nil_r in C2. ret C2. exact D.
Qed.

Lemma opt_delim_spec : forall A (item : pst -> res (A * pst)) I ks open close fuel, Spec item I fuel -> (forall p a, I p a -> first_in ks p) ->
  Spec (fun st => if peek open st then reverse fuel open item close true st else Ok ([], st)) (DOptDelim I open close) fuel.
Proof.
  intros A item I ks open close fuel S N st. cbv beta. destruct (peek open st).
  - exact (Post_impl (le_n _) (DOptDelim_some I open close) (reverse_Spec open close true fuel S N st)).
  - exact (post_ret (consumes_refl st) (DOptDelim_none I open close)).
Qed.
Arguments opt_delim_spec {A item I ks open close fuel}.

Lemma DArgument_first : forall p a, DArgument p a -> first_in [NAME] p.
Proof. intros p a [n c pv v Kn _ _]. exists n, (c :: pv). split; [reflexivity|left; auto]. Qed.

Lemma parse_argument_spec : forall fuel, Spec (parse_argument fuel) DArgument fuel.
Proof.
  intros fuel st. unfold parse_argument.
  bind parse_name_spec (consumes_refl st). intros x p1 s1 [n Kn] C1.
  bind (expect_spec COLON) C1. intros c p2 s2 [-> Kc] C2.
  bind (parse_value_spec fuel false) C2. intros v pv s3 Dv C3.
  ret C3. constructor; assumption.
Qed.

Lemma parse_arguments_spec : forall fuel, Spec (parse_arguments fuel) DArguments fuel.
Proof. intro fuel. exact (opt_delim_spec (parse_argument_spec fuel) DArgument_first). Qed.

Lemma parse_directive_spec : forall fuel, Spec (parse_directive fuel) DDirec fuel.
Proof.
  intros fuel st. unfold parse_directive.
  bind (expect_spec AT) (consumes_refl st). intros a p1 s1 [-> Ka] C1.
  bind parse_name_spec C1. intros x p2 s2 [n Kn] C2.
  bind (parse_arguments_spec fuel) C2. intros args pa s3 Da C3.
  ret C3. constructor; assumption.
Qed.

Lemma direc_first : forall p d, DDirec p d -> first_in [AT] p.
Proof. intros p d D. destruct D as [a n pa args Ka _ _]. exists a, (n :: pa). split; [reflexivity|left; auto]. Qed.

Lemma parse_directives_spec : forall fuel, Spec (parse_directives fuel) DDirecs fuel.
Proof. intro fuel. exact (while_peek_Spec AT fuel (parse_directive_spec fuel) direc_first). Qed.

Lemma cur_is_kw_true : forall w st, cur_is_kw w st = true -> exists t r, snd st = t :: r /\ tk t = NAME /\ tval t = w.
Proof.
  intros w [pe ts]; unfold cur_is_kw; simpl. destruct ts as [|t r]; [discriminate|]. intro H.
  apply andb_true_iff in H. destruct H as [H1 H2]. apply tkind_beq_eq in H1. apply bytes_eqb_eq in H2. eauto.
Qed.
Lemma cur_is_kw_false : forall w st t r, cur_is_kw w st = false -> snd st = t :: r -> tk t = NAME -> tval t <> w.
Proof.
  intros w [pe ts] t r; unfold cur_is_kw; simpl. intros H -> K E. rewrite K in H. simpl in H.
  apply bytes_eqb_neq in H. contradiction.
Qed.

Lemma parse_fragment_name_spec : forall n, Spec parse_fragment_name DFragName n.
Proof.
  intros n st. unfold parse_fragment_name. destruct (cur_is_kw (kw "on") st) eqn:K; [exact I|].
  pose proof (parse_name_spec n st) as S. destruct (parse_name st) as [[x s1]| |]; [|exact S|exact S].
  destruct S as (p & C & D). revert C. destruct D as [t Kt]. intro C. destruct (consumes_head C) as [r Hr].
  exists [t]. split; [exact C|]. constructor; [exact Kt|exact (cur_is_kw_false _ _ _ _ K Hr Kt)].
Qed.

Section Selections.
  Variable psel : pst -> res (selset * pst).
  Variable fuel : nat.
  Hypothesis psel_spec : Spec psel DSelSet fuel.

  Lemma parse_field_spec : Spec (parse_field_with psel fuel) (DSelectionOf DSelSet) fuel.
  Proof.
    intro st. unfold parse_field_with.
    bind parse_name_spec (consumes_refl st). intros x p1 s1 [n0 K0] C1.
    bind (skip_spec COLON) C1. intros b p2 s2 Hb C2.
    eapply post_bind with (I := fun p an => DAlias (n0 :: p2 ++ p) an); [exact C2| |].
    - destruct b.
      + destruct Hb as (c & -> & Kc). bind parse_name_spec (consumes_refl s2). intros y p3 s3 [n1 K1] C3.
        ret C3. constructor; assumption.
      + rewrite Hb. exact (post_ret (consumes_refl s2) (DAlias_no _ K0)).
    - cbv beta iota. intros [al nm] p3 s3 Dn C3. cbn [app] in C3. revert Dn C3. generalize (p2 ++ p3). intros q Dn C3.
      bind (parse_arguments_spec fuel) C3. intros ar pa s4 Da C4.
      bind (parse_directives_spec fuel) C4. intros ds pd s5 Dd C5.
      destruct (peek BRACE_L s5).
      + bind psel_spec C5. intros ss ps s6 Ds C6.
        ret C6. exact (DS_field _ _ _ _ _ _ _ _ _ _ Dn Da Dd (DOpt_some _ _ _ Ds)).
      + rewrite <- (app_nil_r pd) in C5.
        ret C5. exact (DS_field _ _ _ _ _ _ _ _ _ _ Dn Da Dd (DOpt_none _)).
  Qed.

  Lemma parse_fragment_spec : Spec (parse_fragment_with psel fuel) (DSelectionOf DSelSet) fuel.
  Proof.
    intro st. unfold parse_fragment_with.
    bind (expect_spec SPREAD) (consumes_refl st). intros sp p1 s1 [-> Ks] C1.
    destruct (peek NAME s1 && negb (cur_is_kw (kw "on") s1)).
    - bind parse_fragment_name_spec C1. intros nm pn s2 Dn C2.
      bind (parse_directives_spec fuel) C2. intros ds pd s3 Dd C3.
      ret C3. constructor; assumption.
    - eapply post_bind with (I := DOpt DTypeCond); [exact C1| |].
      + destruct (cur_is_kw (kw "on") s1) eqn:K; [|exact (post_ret (consumes_refl s1) (DOpt_none _))].
        apply cur_is_kw_true in K. destruct K as (o & r & Hs & Ko & Vo). unfold advance. rewrite Hs.
        bind parse_named_spec (consumes_one Hs). intros x p s2 [t Kt] C.
        ret C. constructor. constructor; assumption.
      + cbv beta iota. intros tc pt s2 Dt C2.
        bind (parse_directives_spec fuel) C2. intros ds pd s3 Dd C3.
        bind psel_spec C3. intros ss ps s4 Ds C4.
        ret C4. constructor; assumption.
  Qed.

  Lemma parse_selection_spec : Spec (parse_selection_with psel fuel) (DSelectionOf DSelSet) fuel.
  Proof. intro st. unfold parse_selection_with. destruct (peek SPREAD st); [apply parse_fragment_spec|apply parse_field_spec]. Qed.
End Selections.

Lemma selection_first : forall p s, DSelectionOf DSelSet p s -> first_in [NAME; SPREAD] p.
Proof.
  intros p s D. destruct D as [pn al nm pa args pd dirs ps sub Dn _ _ _ | sp pn nmm pd dirs Ks _ _ | sp pt tc pd dirs ps ss Ks _ _ _].
  - inversion Dn; subst; eexists; eexists; (split; [reflexivity|]); simpl; auto.
  - eexists; eexists; split; [reflexivity|]; simpl; auto.
  - eexists; eexists; split; [reflexivity|]; simpl; auto.
Qed.

Lemma parse_selset_spec : forall fuel, Spec (parse_selset fuel) DSelSet fuel.
Proof.
  induction fuel as [|f IH]; intro st; [apply le_0_n|]. cbn [parse_selset].
  bind (reverse_spec (parse_selection_spec _ f IH) selection_first BRACE_L BRACE_R true f (le_n f)) (consumes_refl st).
  intros l p s1 D C. ret C. constructor; exact D.
Qed.

Definition OpType (p : list token) (op : optype) : Prop := exists k, p = [k] /\ tk k = NAME /\ optype_of (tval k) = Some op.

Lemma parse_optype_spec : forall n, Spec parse_optype OpType n.
Proof.
  intros n st. unfold parse_optype. bind (expect_spec NAME) (consumes_refl st). intros k p s1 [-> Kk] C.
  assert (H : forall op, optype_of (tval k) = Some op -> Post st n OpType (Ok (op, s1))) by (intros op H; ret C; exists k; auto).
  unfold optype_of in H.
  destruct (bytes_eqb (tval k) (kw "query")); [exact (H _ eq_refl)|].
  destruct (bytes_eqb (tval k) (kw "mutation")); [exact (H _ eq_refl)|].
  destruct (bytes_eqb (tval k) (kw "subscription")); [exact (H _ eq_refl)|exact I].
Qed.

Lemma parse_vardef_spec : forall fuel, Spec (parse_vardef fuel) DVarDef fuel.
Proof.
  intros fuel st. unfold parse_vardef.
  bind (expect_spec DOLLAR) (consumes_refl st). intros d p1 s1 [-> Kd] C1.
  bind parse_name_spec C1. intros x p2 s2 [n Kn] C2.
  cbn [app] in C2. rewrite (consumes_mkl C2) by discriminate.
  bind (expect_spec COLON) C2. intros c p3 s3 [-> Kc] C3.
  bind (parse_type_spec fuel) C3. intros ty pt s4 Dt C4.
  bind (skip_spec EQUALS) C4. intros [|] pe s5 He C5.
  - destruct He as (e & -> & Ke). bind (parse_value_spec fuel true) C5. intros v pv s6 Dv C6.
    ret C6. constructor; try assumption. constructor. constructor; assumption.
  - rewrite He in C5. ret C5. constructor; try assumption. constructor.
Qed.

Lemma DVarDef_first : forall p a, DVarDef p a -> first_in [DOLLAR] p.
Proof. intros p a [d n c pt t pv dv Kd _ _ _ _]. eexists; eexists; split; [reflexivity|]; simpl; auto. Qed.

Lemma parse_vardefs_spec : forall fuel, Spec (parse_vardefs fuel) DVarDefs fuel.
Proof. intro fuel. exact (opt_delim_spec (parse_vardef_spec fuel) DVarDef_first). Qed.

Lemma parse_operation_spec : forall fuel, Spec (parse_operation fuel) DDefinition fuel.
Proof.
  intros fuel st. unfold parse_operation. destruct (peek BRACE_L st).
  - bind (parse_selset_spec fuel) (consumes_refl st). intros ss p s1 D C.
    ret C. apply DD_op. constructor; exact D.
  - bind parse_optype_spec (consumes_refl st). intros op p1 s1 (k & -> & Kk & Ho) C1.
    eapply post_bind with (I := DOpt DName); [exact C1| |].
    + destruct (peek NAME s1); [|exact (post_ret (consumes_refl s1) (DOpt_none _))].
      bind parse_name_spec (consumes_refl s1). intros x p s2 Dn C. ret C. constructor; exact Dn.
    + cbv beta iota. intros nm pn s2 Dn C2.
      bind (parse_vardefs_spec fuel) C2. intros vds pv s3 Dv C3.
      bind (parse_directives_spec fuel) C3. intros ds pd s4 Dd C4.
      bind (parse_selset_spec fuel) C4. intros ss ps s5 Ds C5.
      ret C5. apply DD_op. econstructor; eassumption.
Qed.

Lemma parse_fragment_definition_spec : forall fuel, Spec (parse_fragment_definition fuel) DDefinition fuel.
Proof.
  intros fuel st. unfold parse_fragment_definition.
  bind (expect_kw_spec (kw "fragment")) (consumes_refl st). intros f p1 s1 (-> & Kf & Vf) C1.
  bind parse_fragment_name_spec C1. intros nm pn s2 Dn C2.
  bind (expect_kw_spec (kw "on")) C2. intros o p3 s3 (-> & Ko & Vo) C3.
  bind parse_named_spec C3. intros x p4 s4 [t Kt] C4.
  bind (parse_directives_spec fuel) C4. intros ds pd s5 Dd C5.
  bind (parse_selset_spec fuel) C5. intros ss ps s6 Ds C6.
  ret C6. apply DD_frag. constructor; assumption.
Qed.

Lemma parse_description_spec : forall n, Spec parse_description DDescr n.
Proof.
  intros n st. unfold parse_description.
  destruct (snd st) as [|t r] eqn:Hs; [exact (post_ret (consumes_refl st) DDescr_none)|].
  destruct (peek_description st) eqn:P; [|exact (post_ret (consumes_refl st) DDescr_none)].
  apply (post_ret (consumes_one Hs)). constructor.
  unfold peek_description, peek in P. rewrite Hs in P. apply orb_true_iff in P.
  destruct P as [P|P]; apply tkind_beq_eq in P; auto.
Qed.

Lemma parse_ivdef_spec : forall fuel, Spec (parse_ivdef fuel) DIVDef fuel.
Proof.
  intros fuel st. unfold parse_ivdef.
  bind parse_description_spec (consumes_refl st). intros dsc pdsc s1 Ddsc C1.
  bind parse_name_spec C1. intros x p2 s2 [n Kn] C2.
  bind (expect_spec COLON) C2. intros c p3 s3 [-> Kc] C3.
  bind (parse_type_spec fuel) C3. intros ty pt s4 Dt C4.
  bind (skip_spec EQUALS) C4. intros b pe s5 He C5.
  eapply post_bind with (I := fun p dv => DOpt DDefault (pe ++ p) dv); [exact C5| |].
  - destruct b.
    + destruct He as (e & -> & Ke). bind (parse_value_spec fuel true) (consumes_refl s5). intros v pv s6 Dv C.
      ret C. constructor. constructor; assumption.
    + rewrite He. exact (post_ret (consumes_refl s5) (DOpt_none _)).
  - cbv beta iota. intros dv pv s6 Dv C6. rewrite <- app_assoc in C6. revert Dv C6. generalize (pe ++ pv). intros q Dv C6.
    bind (parse_directives_spec fuel) C6. intros ds pd s7 Dd C7.
    ret C7. constructor; assumption.
Qed.

Definition descr_name : list tkind := [NAME; STRING; BLOCK_STRING].

Lemma descr_name_first : forall pdsc dsc n r, DDescr pdsc dsc -> tk n = NAME -> first_in descr_name (pdsc ++ n :: r).
Proof.
  intros pdsc dsc n r D K. destruct D as [|t [Kt|Kt]]; eexists; eexists; (split; [reflexivity|]); rewrite ?K, ?Kt; simpl; auto.
Qed.

Lemma ivdef_first : forall p v, DIVDef p v -> first_in descr_name p.
Proof. intros p v [pdsc dsc n c pt t pv dv pd dirs Ddsc Kn _ _ _ _]. eapply descr_name_first; eassumption. Qed.

Lemma parse_argdefs_spec : forall fuel, Spec (parse_argdefs fuel) DArgDefs fuel.
Proof. intro fuel. exact (opt_delim_spec (parse_ivdef_spec fuel) ivdef_first). Qed.

Lemma parse_fielddef_spec : forall fuel, Spec (parse_fielddef fuel) DFieldDef fuel.
Proof.
  intros fuel st. unfold parse_fielddef.
  bind parse_description_spec (consumes_refl st). intros dsc pdsc s1 Ddsc C1.
  bind parse_name_spec C1. intros x p2 s2 [n Kn] C2.
  bind (parse_argdefs_spec fuel) C2. intros ar pa s3 Da C3.
  bind (expect_spec COLON) C3. intros c p4 s4 [-> Kc] C4.
  bind (parse_type_spec fuel) C4. intros ty pt s5 Dt C5.
  bind (parse_directives_spec fuel) C5. intros ds pd s6 Dd C6.
  ret C6. constructor; assumption.
Qed.

Lemma fielddef_first : forall p v, DFieldDef p v -> first_in descr_name p.
Proof. intros p v [pdsc dsc n pa args c pt t pd dirs Ddsc Kn _ _ _ _]. eapply descr_name_first; eassumption. Qed.

Lemma parse_optypedef_spec : forall n, Spec parse_optypedef DOpTypeDef n.
Proof.
  intros n st. unfold parse_optypedef.
  bind parse_optype_spec (consumes_refl st). intros op p1 s1 (k & -> & Kk & Ho) C1.
  bind (expect_spec COLON) C1. intros c p2 s2 [-> Kc] C2.
  bind parse_named_spec C2. intros x p3 s3 [t Kt] C3.
  ret C3. constructor; assumption.
Qed.

Lemma optypedef_first : forall p v, DOpTypeDef p v -> first_in [NAME] p.
Proof. intros p v [k op c t Kk _ _ _]. exists k, [c; t]. split; [reflexivity|left; auto]. Qed.
Lemma named_first : forall p a, DNamed p a -> first_in [NAME] p.
Proof. intros p a [t K]. exists t, []. split; [reflexivity|left; auto]. Qed.
Lemma name_first : forall p a, DName p a -> first_in [NAME] p.
Proof. intros p a [t K]. exists t, []. split; [reflexivity|left; auto]. Qed.

Lemma parse_implements_spec : forall fuel, Spec (parse_implements fuel) DImplements fuel.
Proof.
  intros fuel st. unfold parse_implements.
  destruct (cur_is_kw (kw "implements") st) eqn:K; [|exact (post_ret (consumes_refl st) DImpl_none)].
  apply cur_is_kw_true in K. destruct K as (i & r & Hs & Ki & Vi). unfold advance. rewrite Hs.
  bind (skip_spec AMP) (consumes_one Hs). intros b pa s2 Ha C2.
  eapply post_tail; [exact C2|apply (sep_by_Spec AMP fuel (parse_named_spec fuel))|apply le_n|].
  intros p l Ds. apply (DImpl_some i pa p l Ki Vi); [|exact Ds].
  destruct b; [destruct Ha as (a & -> & Ka); right; eauto|left; exact Ha].
Qed.

Lemma parse_objdef_spec : forall fuel, Spec (parse_objdef fuel) DObjDef fuel.
Proof.
  intros fuel st. unfold parse_objdef.
  bind parse_description_spec (consumes_refl st). intros dsc pdsc s1 Ddsc C1.
  bind (expect_kw_spec (kw "type")) C1. intros k p2 s2 (-> & Kk & Vk) C2.
  bind parse_name_spec C2. intros x p3 s3 [n Kn] C3.
  bind (parse_implements_spec fuel) C3. intros ifs pi s4 Di C4.
  bind (parse_directives_spec fuel) C4. intros ds pd s5 Dd C5.
  bind (reverse_Spec BRACE_L BRACE_R false fuel (parse_fielddef_spec fuel) fielddef_first) C5.
  intros fs pf s6 Df C6.
  ret C6. constructor; assumption.
Qed.

Lemma parse_enumvaldef_spec : forall fuel, Spec (parse_enumvaldef fuel) DEnumValDef fuel.
Proof.
  intros fuel st. unfold parse_enumvaldef.
  bind parse_description_spec (consumes_refl st). intros dsc pdsc s1 Ddsc C1.
  bind parse_name_spec C1. intros x p2 s2 [n Kn] C2.
  bind (parse_directives_spec fuel) C2. intros ds pd s3 Dd C3.
  ret C3. constructor; assumption.
Qed.

Lemma enumvaldef_first : forall p v, DEnumValDef p v -> first_in descr_name p.
Proof. intros p v [pdsc dsc n pd dirs Ddsc Kn _]. eapply descr_name_first; eassumption. Qed.

Lemma parse_schema_definition_spec : forall fuel, Spec (parse_schema_definition fuel) DTypeSystem fuel.
Proof.
  intros fuel st. unfold parse_schema_definition.
  bind (expect_kw_spec (kw "schema")) (consumes_refl st). intros k p1 s1 (-> & Kk & Vk) C1.
  bind (parse_directives_spec fuel) C1. intros ds pd s2 Dd C2.
  bind (reverse_Spec BRACE_L BRACE_R true fuel (parse_optypedef_spec fuel) optypedef_first) C2.
  intros ots po s3 Do C3.
  ret C3. constructor; assumption.
Qed.

Lemma parse_scalar_definition_spec : forall fuel, Spec (parse_scalar_definition fuel) DTypeSystem fuel.
Proof.
  intros fuel st. unfold parse_scalar_definition.
  bind parse_description_spec (consumes_refl st). intros dsc pdsc s1 Ddsc C1.
  bind (expect_kw_spec (kw "scalar")) C1. intros k p2 s2 (-> & Kk & Vk) C2.
  bind parse_name_spec C2. intros x p3 s3 [n Kn] C3.
  bind (parse_directives_spec fuel) C3. intros ds pd s4 Dd C4.
  ret C4. constructor; assumption.
Qed.

(* interface, enum and input definitions: description, keyword, name, directives, { item* } *)
Definition parse_braced {A} (w : bytes) (item : pst -> res (A * pst))
    (mk : descr -> name -> list directive -> list A -> loc -> definition) (fuel : nat) (st : pst) : res (definition * pst) :=
  let start := cur_start st in
  ' (d, st1) <- parse_description st ;;
  ' (_, st2) <- expect_kw w st1 ;;
  ' (n, st3) <- parse_name st2 ;;
  ' (dirs, st4) <- parse_directives fuel st3 ;;
  ' (fs, st5) <- reverse fuel BRACE_L item BRACE_R false st4 ;;
  Ok (mk d n dirs fs (mkl start st5), st5).

Lemma parse_braced_spec : forall A w (item : pst -> res (A * pst)) I ks mk fuel,
  Spec item I fuel -> (forall p a, I p a -> first_in ks p) ->
  (forall pdsc dsc k n pd dirs pf fs, DDescr pdsc dsc -> tk k = NAME -> tval k = w -> tk n = NAME -> DDirecs pd dirs ->
     DDelim I BRACE_L BRACE_R false pf fs ->
     DTypeSystem (pdsc ++ k :: n :: pd ++ pf) (mk dsc (tok_name n) dirs fs (span (pdsc ++ k :: n :: pd ++ pf)))) ->
  Spec (parse_braced w item mk fuel) DTypeSystem fuel.
Proof.
  intros A w item I ks mk fuel S N Hmk st. unfold parse_braced.
  bind parse_description_spec (consumes_refl st). intros dsc pdsc s1 Ddsc C1.
  bind (expect_kw_spec w) C1. intros k p2 s2 (-> & Kk & Vk) C2.
  bind parse_name_spec C2. intros x p3 s3 [n Kn] C3.
  bind (parse_directives_spec fuel) C3. intros ds pd s4 Dd C4.
  bind (reverse_Spec BRACE_L BRACE_R false fuel S N) C4.
  intros fs pf s5 Df C5.
  ret C5. apply Hmk; assumption.
Qed.
Arguments parse_braced_spec {A w item I ks mk fuel}.

Lemma parse_union_definition_spec : forall fuel, Spec (parse_union_definition fuel) DTypeSystem fuel.
Proof.
  intros fuel st. unfold parse_union_definition.
  bind parse_description_spec (consumes_refl st). intros dsc pdsc s1 Ddsc C1.
  bind (expect_kw_spec (kw "union")) C1. intros k p2 s2 (-> & Kk & Vk) C2.
  bind parse_name_spec C2. intros x p3 s3 [n Kn] C3.
  bind (parse_directives_spec fuel) C3. intros ds pd s4 Dd C4.
  bind (expect_spec EQUALS) C4. intros e p5 s5 [-> Ke] C5.
  bind (sep_by_Spec PIPE fuel (parse_named_spec fuel)) C5. intros ms pm s6 Dm C6.
  ret C6. apply DTS_union; assumption.
Qed.

Lemma parse_extend_definition_spec : forall fuel, Spec (parse_extend_definition fuel) DTypeSystem fuel.
Proof.
  intros fuel st. unfold parse_extend_definition.
  bind (expect_kw_spec (kw "extend")) (consumes_refl st). intros k p1 s1 (-> & Kk & Vk) C1.
  bind (parse_objdef_spec fuel) C1. intros o p s2 Do C2.
  ret C2. apply DTS_extend; assumption.
Qed.

Lemma parse_directive_definition_spec : forall fuel, Spec (parse_directive_definition fuel) DTypeSystem fuel.
Proof.
  intros fuel st. unfold parse_directive_definition.
  bind parse_description_spec (consumes_refl st). intros dsc pdsc s1 Ddsc C1.
  bind (expect_kw_spec (kw "directive")) C1. intros k p2 s2 (-> & Kk & Vk) C2.
  bind (expect_spec AT) C2. intros a p3 s3 [-> Ka] C3.
  bind parse_name_spec C3. intros x p4 s4 [n Kn] C4.
  bind (parse_argdefs_spec fuel) C4. intros ar pa s5 Da C5.
  bind (expect_kw_spec (kw "on")) C5. intros o p6 s6 (-> & Ko & Vo) C6.
  bind (sep_by_Spec PIPE fuel (parse_name_spec fuel)) C6. intros locs pl s7 Dl C7.
  ret C7. apply DTS_directive; assumption.
Qed.

Lemma parse_type_system_definition_spec : forall fuel, Spec (parse_type_system_definition fuel) DDefinition fuel.
Proof.
  intros fuel st. unfold parse_type_system_definition.
  destruct (keyword_token st) as [k|]; [|exact I]. destruct (negb (tkind_beq (tk k) NAME)); [exact I|]. cbv zeta.
  assert (T : forall P, Spec P DTypeSystem fuel -> Post st fuel DDefinition (P st))
    by (intros P S; exact (Post_impl (le_n _) DD_ts (S st))).
  destruct (bytes_eqb (tval k) (kw "fragment")); [apply parse_fragment_definition_spec|].
  destruct (bytes_eqb (tval k) (kw "query") || bytes_eqb (tval k) (kw "mutation") || bytes_eqb (tval k) (kw "subscription"));
    [apply parse_operation_spec|].
  destruct (bytes_eqb (tval k) (kw "schema")); [exact (T _ (parse_schema_definition_spec fuel))|].
  destruct (bytes_eqb (tval k) (kw "scalar")); [exact (T _ (parse_scalar_definition_spec fuel))|].
  destruct (bytes_eqb (tval k) (kw "type")).
  { bind (parse_objdef_spec fuel) (consumes_refl st). intros o p s1 D C. ret C. exact (DD_ts _ _ (DTS_object _ _ D)). }
  destruct (bytes_eqb (tval k) (kw "interface"));
    [exact (T _ (parse_braced_spec (parse_fielddef_spec fuel) fielddef_first DTS_interface))|].
  destruct (bytes_eqb (tval k) (kw "union")); [exact (T _ (parse_union_definition_spec fuel))|].
  destruct (bytes_eqb (tval k) (kw "enum"));
    [exact (T _ (parse_braced_spec (parse_enumvaldef_spec fuel) enumvaldef_first DTS_enum))|].
  destruct (bytes_eqb (tval k) (kw "input"));
    [exact (T _ (parse_braced_spec (parse_ivdef_spec fuel) ivdef_first DTS_input))|].
  destruct (bytes_eqb (tval k) (kw "extend")); [exact (T _ (parse_extend_definition_spec fuel))|].
  destruct (bytes_eqb (tval k) (kw "directive")); [exact (T _ (parse_directive_definition_spec fuel))|exact I].
Qed.

Lemma parse_definition_spec : forall fuel, Spec (parse_definition fuel) DDefinition fuel.
Proof.
  intros fuel st. unfold parse_definition. destruct (peek BRACE_L st); [apply parse_operation_spec|].
  destruct (peek NAME st || peek STRING st || peek BLOCK_STRING st); [apply parse_type_system_definition_spec|exact I].
Qed.

Lemma operation_first : forall p o, DOperation p o -> first_in [BRACE_L; NAME] p.
Proof.
  intros p o [p0 ss Ds|k op pn nm pv vds pd dirs ps ss Kk _ _ _ _ _].
  - apply (first_in_incl (selset_first Ds)). intros k [<-|[]]. left; reflexivity.
  - eexists; eexists; split; [reflexivity|]; simpl; auto.
Qed.

Lemma fragment_first : forall p f, DFragment p f -> first_in [BRACE_L; NAME] p.
Proof. intros p f [fk pn n o t pd dirs ps ss Kf _ _ _ _ _ _ _]. eexists; eexists; split; [reflexivity|]; simpl; auto. Qed.

Lemma definition_first : forall p d, DDefinition p d -> first_in (BRACE_L :: descr_name) p.
Proof.
  intros p d [p0 o Do|p0 f Df|p0 d0 Dt].
  - apply (first_in_incl (operation_first _ _ Do)). intros k [<-|[<-|[]]]; simpl; auto.
  - apply (first_in_incl (fragment_first _ _ Df)). intros k [<-|[<-|[]]]; simpl; auto.
  - apply (first_in_incl (ks := descr_name)); [|intros k H; right; exact H].
    destruct Dt as [k pd dirs po ots Kk| | p1 o [pdsc dsc k n pi ifs pd dirs pf fs Ddsc Kk]| | | | |k p1 o Kk|];
      try (eapply descr_name_first; eassumption); eexists; eexists; (split; [reflexivity|]); rewrite Kk; simpl; auto.
Qed.

Lemma parse_document_spec : forall fuel ts,
  match parse_document fuel ts with Ok d => Derives ts d | Err => True | OutOfFuel => (fuel <= List.length ts)%nat end.
Proof.
  intros fuel ts. unfold parse_document.
  pose proof (many_spec (parse_definition_spec fuel) definition_first EOF fuel (0, ts)) as M.
  destruct (many fuel (parse_definition fuel) EOF (0, ts)) as [[defs s]| |]; [|exact I|cbv beta iota delta [Post len snd] in M; lia].
  destruct M as (p & C & ps & c & -> & K & D). cbv beta iota zeta.
  destruct (is_nil defs) eqn:N; [exact I|]. destruct (snd s) as [|t' r'] eqn:Hs; [|exact I].
  rewrite (consumes_mkl C) by nonnil.
  destruct C as [C _]. simpl in C. rewrite Hs, app_nil_r in C. subst ts.
  constructor; [exact D| |exact K]. intros ->. discriminate N.
Qed.

Theorem parse_document_sound : forall fuel ts d, parse_document fuel ts = Ok d -> Derives ts d.
Proof. intros fuel ts d H. pose proof (parse_document_spec fuel ts) as S. rewrite H in S. exact S. Qed.

Theorem parse_tokens_sound : forall ts d, parse_tokens ts = Ok d -> Derives ts d.
Proof. intros ts d. apply parse_document_sound. Qed.

Theorem parse_document_terminates : forall fuel ts, (List.length ts < fuel)%nat -> parse_document fuel ts <> OutOfFuel.
Proof. intros fuel ts L H. pose proof (parse_document_spec fuel ts) as S. rewrite H in S. lia. Qed.

Theorem parse_tokens_terminates : forall ts, parse_tokens ts <> OutOfFuel.
Proof. intro ts. apply parse_document_terminates. lia. Qed.

(* isValidLiteralValue as an inductive relation, and the model vlit decides it. *)
From Coq Require Import List Bool String NArith.
From GQL Require Import Exec.Syntax Validate.VSyntax Validate.Overlap Validate.Rules Proofs.ValidateRules.
Import ListNotations.
Open Scope string_scope.
Open Scope list_scope.

Section Lit.
Variable S : schema.

Definition is_list_lit (v : wvalue) : bool := match v with WList _ _ => true | _ => false end.

(* a literal is acceptable where a value of type t is expected *)
Inductive ValidLit : wvalue -> tyref -> Prop :=
| VL_var : forall v t, is_var v = true -> ValidLit v t
| VL_nonnull : forall v t, is_var v = false -> ValidLit v t -> ValidLit v (TNonNull t)
| VL_list : forall id l it, (forall e, In e l -> ValidLit e it) -> ValidLit (WList id l) (TList it)
| VL_list_one : forall v it, is_var v = false -> is_list_lit v = false -> ValidLit v it -> ValidLit v (TList it)
| VL_obj : forall id l n fs, lookup_type S n = Some (TInputObject fs) ->
    (forall p, In p l -> In (fst (snd p)) (map a_name fs)) ->                      (* every provided field is defined *)
    (forall fd v, In fd fs -> find_ofield (a_name fd) l = Some v -> ValidLit v (a_type fd)) ->   (* the last one of a name counts *)
    (forall fd, In fd fs -> find_ofield (a_name fd) l = None -> is_nonnull (a_type fd) = false) ->  (* a missing field is nullable *)
    ValidLit (WObj id l) (TNamed n)
| VL_scalar : forall v n k, is_var v = false -> lookup_type S n = Some (TScalar k) -> scalar_lit k v = true ->
    ValidLit v (TNamed n)
| VL_enum : forall id e n vals, lookup_type S n = Some (TEnum vals) -> amem e vals = true ->
    ValidLit (WEnum id e) (TNamed n)
| VL_other : forall v n, is_var v = false ->
    match lookup_type S n with Some (TInputObject _) | Some (TScalar _) | Some (TEnum _) => False | _ => True end ->
    ValidLit v (TNamed n).

Lemma vlit_var : forall v t, is_var v = true -> vlit S v t = true.
Proof. intros v t H. destruct v; try discriminate. reflexivity. Qed.

Lemma vlit_nonnull : forall v t, vlit S v (TNonNull t) = vlit S v t.
Proof. intros v t. destruct v; reflexivity. Qed.

Lemma vlit_list_lit : forall id l it, vlit S (WList id l) (TList it) = forallb (fun e => vlit S e it) l.
Proof. reflexivity. Qed.

Lemma vlit_list_one : forall v it, is_var v = false -> is_list_lit v = false -> vlit S v (TList it) = vlit S v it.
Proof. intros v it H1 H2. destruct v; try discriminate; reflexivity. Qed.

Definition pickf (fd : argdef) : list (N * (name * wvalue)) -> option bool -> bool :=
  fix pick (l : list (N * (name * wvalue))) (acc : option bool) : bool :=
    match l with
    | [] => match acc with Some b => b | None => negb (is_nonnull (a_type fd)) end
    | p :: r => pick r (if String.eqb (a_name fd) (fst (snd p)) then Some (vlit S (snd (snd p)) (a_type fd)) else acc)
    end.

Lemma vlit_named : forall v n, is_var v = false ->
  vlit S v (TNamed n) =
  match lookup_type S n with
  | Some (TInputObject fs) =>
    match v with
    | WObj _ l =>
      forallb (fun p => match find_argdef (fst (snd p)) fs with Some _ => true | None => false end) l &&
      forallb (fun fd => pickf fd l None) fs
    | _ => false
    end
  | Some (TScalar k) => scalar_lit k v
  | Some (TEnum vals) => match v with WEnum _ e => amem e vals | _ => false end
  | _ => true
  end.
Proof. intros v n H. destruct v; try discriminate; reflexivity. Qed.

Lemma pickf_spec : forall fd l accv,
  pickf fd l (option_map (fun v => vlit S v (a_type fd)) accv) =
  match fold_left (fun (acc : option wvalue) (p : N * (name * wvalue)) => if String.eqb (a_name fd) (fst (snd p)) then Some (snd (snd p)) else acc) l accv with
  | Some v => vlit S v (a_type fd)
  | None => negb (is_nonnull (a_type fd))
  end.
Proof.
  intros fd l. induction l as [|p r IH]; intro accv; simpl; [destruct accv; reflexivity|].
  destruct (String.eqb (a_name fd) (fst (snd p))); [apply (IH (Some (snd (snd p)))) | apply IH].
Qed.

Lemma pickf_find : forall fd l,
  pickf fd l None = match find_ofield (a_name fd) l with
                    | Some v => vlit S v (a_type fd)
                    | None => negb (is_nonnull (a_type fd))
                    end.
Proof. intros fd l. apply (pickf_spec fd l None). Qed.

Lemma find_ofield_in : forall n l v, find_ofield n l = Some v -> exists p, In p l /\ snd (snd p) = v.
Proof.
  intros n l v H. apply fold_last_some in H. destruct H as [H|(p & Hp & _ & E)]; [discriminate | eauto].
Qed.

Lemma find_argdef_in : forall n fs, (exists d, find_argdef n fs = Some d) <-> In n (map a_name fs).
Proof.
  intros n fs. pose proof (find_argdef_none n fs) as N. destruct (find_argdef n fs) as [d|].
  - split; [intros _ | eauto]. destruct (in_dec string_dec n (map a_name fs)) as [Y|K]; [exact Y | apply N in K; discriminate].
  - split; [intros [d H]; discriminate | intro H; destruct (proj1 N eq_refl H)].
Qed.

Lemma vlit_complete : forall v t, ValidLit v t -> vlit S v t = true.
Proof.
  induction 1 as [v t Hv|v t Hv _ IH|id l it _ IH|v it Hv Hl _ IH|id l n fs El Hk _ IHf Hm
                 |v n k Hv El Hk|id e n vals El Hk|v n Hv Hk].
  - apply vlit_var, Hv.
  - rewrite vlit_nonnull. exact IH.
  - rewrite vlit_list_lit. apply forallb_forall, IH.
  - rewrite (vlit_list_one v it Hv Hl). exact IH.
  - rewrite vlit_named, El by reflexivity. apply andb_true_iff. split; apply forallb_forall.
    + intros p Hp. destruct (proj2 (find_argdef_in _ fs) (Hk p Hp)) as [d ->]. reflexivity.
    + intros fd Hfd. rewrite pickf_find. destruct (find_ofield (a_name fd) l) as [v|] eqn:Ef;
        [exact (IHf fd v Hfd Ef) | apply negb_true_iff, (Hm fd Hfd Ef)].
  - rewrite (vlit_named v n Hv), El. exact Hk.
  - rewrite vlit_named, El by reflexivity. exact Hk.
  - rewrite (vlit_named v n Hv). destruct (lookup_type S n) as [[| | | | |]|]; try contradiction; reflexivity.
Qed.

Definition subvals (v : wvalue) : list wvalue :=
  match v with WList _ l => l | WObj _ l => map (fun p => snd (snd p)) l | _ => [] end.

Lemma vlit_sound_step : forall v, is_var v = false ->
  (forall e, In e (subvals v) -> forall t, vlit S e t = true -> ValidLit e t) ->
  forall t, vlit S v t = true -> ValidLit v t.
Proof.
  intros v Hv IH. induction t as [n|it IHt|t' IHt]; intro H.
  - rewrite (vlit_named v n Hv) in H.
    destruct (lookup_type S n) as [[k|vals|fs ifs|fs|ms|fs]|] eqn:El;
      try (apply VL_other; [exact Hv | rewrite El; exact I]).
    + exact (VL_scalar v n k Hv El H).
    + destruct v; try discriminate H. exact (VL_enum _ _ n vals El H).
    + destruct v as [| | | | | | |id l]; try discriminate H.
      apply andb_true_iff in H. destruct H as [H1 H2]. rewrite forallb_forall in H1, H2.
      apply (VL_obj id l n fs El).
      * intros p Hp. apply find_argdef_in. specialize (H1 p Hp).
        destruct (find_argdef (fst (snd p)) fs) as [d|]; [exists d; reflexivity | discriminate].
      * intros fd v Hfd Ef. specialize (H2 fd Hfd). rewrite pickf_find, Ef in H2.
        destruct (find_ofield_in _ _ _ Ef) as (p & Hp & <-). apply (IH _ (in_map _ _ _ Hp)), H2.
      * intros fd Hfd Ef. specialize (H2 fd Hfd). rewrite pickf_find, Ef in H2. apply negb_true_iff, H2.
  - destruct (is_list_lit v) eqn:Hl.
    + destruct v as [| | | | | |id l|]; try discriminate Hl. rewrite vlit_list_lit, forallb_forall in H.
      apply VL_list. intros e He. apply (IH e He), H, He.
    + rewrite (vlit_list_one v it Hv Hl) in H. apply VL_list_one; auto.
  - rewrite vlit_nonnull in H. apply VL_nonnull; auto.
Qed.

Theorem vlit_iff : forall v t, vlit S v t = true <-> ValidLit v t.
Proof.
  intros v t. split; [revert t | apply vlit_complete].
  induction v as [id x|id z|id n d|id s|id b|id e|id l IHl|id l IHl] using wvalue_ind';
    try (apply vlit_sound_step; [reflexivity | intros x []]).
  - intros t _. apply VL_var. reflexivity.
  - apply vlit_sound_step; [reflexivity | exact (proj1 (Forall_forall _ _) IHl)].
  - apply vlit_sound_step; [reflexivity|]. intros e He. apply in_map_iff in He. destruct He as (p & <- & Hp).
    rewrite Forall_forall in IHl. exact (IHl p Hp).
Qed.
End Lit.

Section LitRules.
Variable S : schema.
Variable W : wdoc.

Definition Violates_arguments_of_correct_type_decl : Prop :=
  exists ow ad a, In (IArg ow (Some ad) a) (doc_items S W) /\ ~ ValidLit S (wa_val a) (a_type ad).

Theorem arguments_of_correct_type_decl_iff :
  rule_arguments_of_correct_type S W <> [] <-> Violates_arguments_of_correct_type_decl.
Proof.
  etransitivity; [apply arguments_of_correct_type_iff|].
  split; intros (ow & ad & a & Hi & H); exists ow, ad, a; (split; [exact Hi|]);
    apply (not_true_iff _ _ (vlit_iff S _ _)); exact H.
Qed.

Definition Violates_default_values_of_correct_type_decl : Prop :=
  exists o v d t, In o (w_ops W) /\ In v (wo_vars o) /\ wv_default v = Some d /\
    type_from_ast S (erase_type (wv_type v)) = Some t /\ (is_nonnull t = true \/ ~ ValidLit S d t).

Theorem default_values_of_correct_type_decl_iff :
  rule_default_values_of_correct_type S W <> [] <-> Violates_default_values_of_correct_type_decl.
Proof.
  etransitivity; [apply default_values_of_correct_type_iff|].
  split; intros (o & v & d & t & Ho & Hv & Ed & Et & [H|H]); exists o, v, d, t; repeat (split; [assumption|]);
    [left; exact H | right | left; exact H | right]; apply (not_true_iff _ _ (vlit_iff S _ _)); exact H.
Qed.
End LitRules.

(* C02_accept_iff: the validator's model accepts a document iff no rule is violated,
   assembled from the per-rule theorems. *)
From Coq Require Import List Lia Bool String NArith ListDec.
From GQL Require Import Exec.Syntax Validate.VSyntax Validate.Overlap Validate.OverlapSpec Validate.Rules Validate.All
     Validate.OverlapWf
     Proofs.ValidateRules Proofs.ValidateInputFields Proofs.ValidateCycles Proofs.ValidateUnused Proofs.ValidateRun
     Proofs.ValidateMemoHard Proofs.ValidateWf Proofs.ValidateWfDoc Proofs.ValidateFuel Proofs.ValidateClosure Proofs.ValidateRulesDecl Proofs.ValidateLiteral.
Import ListNotations.
Open Scope N_scope.

Definition Violates (r : N) (S : schema) (W : wdoc) : Prop :=
  match r with
  | 0 => Violates_arguments_of_correct_type_decl S W
  | 1 => Violates_default_values_of_correct_type_decl S W
  | 2 => Violates_fields_on_correct_type S W
  | 3 => Violates_fragments_on_composite S W
  | 4 => Violates_known_argument_names S W
  | 5 => Violates_known_directives S W
  | 6 => Violates_known_fragment_names S W
  | 7 => Violates_known_type_names S W
  | 8 => Violates_lone_anonymous W
  | 9 => Violates_no_fragment_cycles W
  | 10 => Violates_no_undefined_variables_decl S W
  | 11 => Violates_no_unused_fragments W
  | 12 => Violates_no_unused_variables_decl S W
  | 13 => ~ L1_accepts S (erase W)
  | 14 => Violates_possible_fragment_spreads_decl S W
  | 15 => Violates_provided_non_null_arguments S W
  | 16 => Violates_scalar_leafs S W
  | 17 => Violates_unique_argument_names S W
  | 18 => Violates_unique_fragment_names W
  | 19 => Violates_unique_input_field_names S W
  | 20 => Violates_unique_operation_names W
  | 21 => Violates_unique_variable_names W
  | 22 => Violates_variables_are_input_types S W
  | 23 => Violates_variables_in_allowed_position_decl S W
  | _ => False
  end.

Lemma nil_iff : forall {A} (l : list A) (P : Prop), (l <> [] <-> P) -> (l = [] <-> ~ P).
Proof.
  intros A l P H. split.
  - intros E HP. apply H in HP. contradiction.
  - intro HN. destruct l; [reflexivity|]. destruct HN. apply H. discriminate.
Qed.

Lemma flat_map_nil : forall {A B} (f : A -> list B) l, flat_map f l = [] <-> forall x, In x l -> f x = [].
Proof.
  intros A B f l. induction l as [|y r IH]; simpl.
  - split; [intros _ x [] | reflexivity].
  - split.
    + intros H x [Hx|Hx]; apply app_eq_nil in H; destruct H as [H1 H2]; [subst; exact H1 | apply IH; assumption].
    + intro H. rewrite (H y (or_introl eq_refl)). simpl. apply IH. intros x Hx. apply H. right. exact Hx.
Qed.

Lemma in_all_rules : forall r, In r all_rules <-> r < 24.
Proof.
  intro r. change all_rules with (map N.of_nat (List.seq 0 24)). rewrite in_map_iff. split.
  - intros [n [E H]]. apply in_seq in H. lia.
  - intro H. exists (N.to_nat r). rewrite in_seq. lia.
Qed.

Section Accept.
Variables (fuel : nat) (S : schema) (W : wdoc).

Lemma Violates_in : forall r, Violates r S W -> In r all_rules.
Proof.
  intros r H. apply in_all_rules. destruct r as [|p]; [reflexivity|].
  (* five binary digits decide r < 24; from 24 on Violates r is False *)
  do 5 (try destruct p as [p|p|]); try reflexivity; destruct H.
Qed.

(* every rule but NoFragmentCycles (9) and the overlap rule (13), unconditionally *)
Lemma rule_iff : forall r, In r all_rules -> r <> 9 -> r <> 13 ->
  (run_rule_f fuel r S W <> [] <-> Violates r S W).
Proof.
  intros r Hr N9 N13. repeat destruct Hr as [<-|Hr]; try contradiction.
  - apply arguments_of_correct_type_decl_iff.
  - apply default_values_of_correct_type_decl_iff.
  - apply fields_on_correct_type_iff.
  - apply fragments_on_composite_iff.
  - apply known_argument_names_iff.
  - apply known_directives_iff.
  - apply known_fragment_names_iff.
  - apply known_type_names_iff.
  - apply lone_anonymous_iff.
  - apply no_undefined_variables_decl_iff.
  - apply no_unused_fragments_iff.
  - apply no_unused_variables_decl_iff.
  - apply possible_fragment_spreads_decl_iff.
  - apply provided_non_null_arguments_iff.
  - apply scalar_leafs_iff.
  - apply unique_argument_names_iff.
  - apply unique_fragment_names_iff.
  - apply unique_input_field_names_iff.
  - apply unique_operation_names_iff.
  - apply unique_variable_names_iff.
  - apply variables_are_input_types_iff.
  - apply variables_in_allowed_position_decl_iff.
Qed.

(* The remaining hypotheses are decidable and hold for every parsed document over a schema
   the library accepts (the runner checks them on every case):
   - ids_ok: node ids (byte offsets) of selections are distinct and non-zero;
   - meta_ok: the schema does not redefine __typename / the type String as composite;
   - the fuel of the overlap model is at least fuel_of (erase W).
   Unique fragment names, acyclicity and unique argument names -- needed by the
   NoFragmentCycles DFS and by the overlap rule -- are obtained from the verdicts of
   UniqueFragmentNames, NoFragmentCycles and UniqueArgumentNames themselves. *)
Theorem accept_iff :
  ids_ok (erase W) = true ->
  meta_ok S = true ->
  (fuel_of (erase W) <= fuel)%nat ->
  (validate_model fuel S W = [] <-> forall r, ~ Violates r S W).
Proof.
  intros Hids Hmeta Hfuel. unfold validate_model. rewrite flat_map_nil.
  assert (R : forall r, In r all_rules -> r <> 9 -> r <> 13 -> (run_rule_f fuel r S W = [] <-> ~ Violates r S W))
    by (intros; apply nil_iff, rule_iff; assumption).
  assert (In9 : In 9 all_rules) by (apply in_all_rules; reflexivity).
  assert (In13 : In 13 all_rules) by (apply in_all_rules; reflexivity).
  assert (In17 : In 17 all_rules) by (apply in_all_rules; reflexivity).
  assert (In18 : In 18 all_rules) by (apply in_all_rules; reflexivity).
  (* rule 18 gives unique fragment names, with these rule 9 decides acyclicity *)
  assert (C : ~ Violates 18 S W -> (rule_no_fragment_cycles W = [] <-> ~ Violates_no_fragment_cycles W)).
  { intro H. apply nil_iff, no_fragment_cycles_iff.
    destruct (NoDup_dec string_dec (map wf_name (w_frags W))) as [Y|N]; [exact Y | destruct (H N)]. }
  split.
  - intros H.
    assert (NV9 : ~ Violates_no_fragment_cycles W).
    { apply C; [apply R; try discriminate; auto | apply (H 9 In9)]. }
    assert (L : L1_accepts S (erase W)).
    { apply (exec_decides_L1 S (erase W) true fuel (acyclic_of_W S W NV9) (ids_ok_distinct S _ Hids)
               (args_ok_unique S _ (args_ok_of_W S W (H 17 In17))) Hmeta Hfuel).
      apply (H 13 In13). }
    intros r HV. pose proof (Violates_in r HV) as Hin.
    destruct (N.eq_dec r 9) as [->|N9]; [exact (NV9 HV)|].
    destruct (N.eq_dec r 13) as [->|N13]; [exact (HV L)|].
    apply (R r Hin N9 N13); auto.
  - intros H r Hr.
    assert (NV9 : ~ Violates_no_fragment_cycles W) by apply (H 9).
    destruct (N.eq_dec r 9) as [->|N9]; [apply C; auto|].
    destruct (N.eq_dec r 13) as [->|N13]; [|apply R; auto].
    simpl. destruct (run_overlap S (erase W) true fuel) eqn:E; [reflexivity|].
    destruct (H 13). intro HL. rewrite (L1_accepts_exec S (erase W) true fuel (acyclic_of_W S W NV9) HL) in E. discriminate.
Qed.
End Accept.

From Coq Require Import List NArith ZArith Lia Bool.
From GQL Require Import Base.Bytes Lang.Location.
Import ListNotations.
Open Scope N_scope.

Lemma scan_stop : forall ms position line column,
  (forall m l, In (m,l) ms -> position <= m) -> scan ms position line column = (line, column).
Proof.
  intros [|[m l] r] position line column H; simpl; auto.
  destruct (m <? position) eqn:E; auto.
  apply N.ltb_lt in E. specialize (H m l (or_introl eq_refl)). lia.
Qed.

(* matches and spec_go step over one or two bytes: induction on a bound for the length *)
Lemma matches_lb : forall n s i m l, (length s <= n)%nat -> In (m,l) (matches s i) -> i <= m.
Proof.
  induction n as [|n IH]; intros [|c r] i m l Hn H; cbn [matches length In] in *; try contradiction; [lia|].
  destruct (c =? 13); [destruct r as [|d r']; [|destruct (d =? 10)]|destruct (c =? 10)]; cbv iota in H; cbn [length In] in *;
    try (destruct H as [H|H]; [inversion H; lia|]); try contradiction; apply IH in H; cbn [length] in *; lia.
Qed.

Lemma model_is_spec_gen : forall n s i position line lstart,
  (length s <= n)%nat -> lstart <= i ->
  scan (matches s i) position line (Z.of_N position + 1 - Z.of_N lstart)%Z
  = spec_go s i position line lstart.
Proof.
  induction n as [|n IH]; intros [|c r] i position line lstart Hn Hl; try reflexivity; [simpl in Hn; lia|].
  cbn [spec_go]. destruct (N.leb_spec position i) as [Ep|Ep].
  - apply scan_stop. intros m l H. apply (matches_lb (S n)) in H; [lia|exact Hn].
  - (* a terminator at i is a match that starts before the position *)
    assert (T : (i <? position) = true) by (apply N.ltb_lt; exact Ep).
    cbn [matches].
    destruct (c =? 13); [destruct r as [|d r']; [|destruct (d =? 10)]|destruct (c =? 10)];
      cbn [scan]; rewrite ?T; try reflexivity; apply IH; simpl in *; lia.
Qed.

Lemma location_model_is_spec : forall s position, get_location s position = spec_location s position.
Proof.
  intros. unfold get_location, spec_location.
  replace (Z.of_N position + 1)%Z with (Z.of_N position + 1 - Z.of_N 0)%Z by lia.
  apply (model_is_spec_gen (length s)); lia.
Qed.

(* What the specification says in the simplest cases, so that it is not only "another program":
   no terminator before the position means line 1 and column position+1; passing one terminator
   adds one line and restarts the column. *)

Definition is_term (c : N) : bool := (c =? 10) || (c =? 13).

Lemma spec_go_cons : forall c r i position line lstart,
  spec_go (c :: r) i position line lstart =
    if position <=? i then (line, (Z.of_N position + 1 - Z.of_N lstart)%Z)
    else if c =? 13 then
      match r with
      | d :: r' => if d =? 10 then spec_go r' (i + 2) position (line + 1) (i + 2)
                   else spec_go r (i + 1) position (line + 1) (i + 1)
      | [] => (line + 1, (Z.of_N position + 1 - Z.of_N (i + 1))%Z)
      end
    else if c =? 10 then spec_go r (i + 1) position (line + 1) (i + 1)
    else spec_go r (i + 1) position line lstart.
Proof. reflexivity. Qed.

Lemma spec_go_step : forall c s i position line lstart, is_term c = false -> i < position ->
  spec_go (c :: s) i position line lstart = spec_go s (i + 1) position line lstart.
Proof.
  intros c s i position line lstart Hc Hi. apply orb_false_iff in Hc. destruct Hc as [H10 H13].
  cbn [spec_go]. rewrite (proj2 (N.leb_gt _ _) Hi), H13, H10. reflexivity.
Qed.

Lemma spec_go_no_term : forall s i position line lstart,
  (forall k c, nth_error s k = Some c -> i + N.of_nat k < position -> is_term c = false) ->
  spec_go s i position line lstart = (line, (Z.of_N position + 1 - Z.of_N lstart)%Z).
Proof.
  induction s as [|c r IH]; intros i position line lstart H; [reflexivity|].
  destruct (N.leb_spec position i) as [Ep|Ep]; [cbn [spec_go]; rewrite (proj2 (N.leb_le _ _) Ep); reflexivity|].
  rewrite spec_go_step; [|apply (H 0%nat c); [reflexivity|simpl; lia]|exact Ep].
  apply IH. intros k c' Hk Hlt. apply (H (S k) c'); [exact Hk|lia].
Qed.

Lemma spec_first_line : forall s position,
  (forall k c, nth_error s k = Some c -> N.of_nat k < position -> is_term c = false) ->
  spec_location s position = (1, (Z.of_N position + 1)%Z).
Proof.
  intros s position H. unfold spec_location.
  rewrite spec_go_no_term.
  - f_equal. lia.
  - intros k c Hk Hlt. apply (H k c Hk). lia.
Qed.

Lemma spec_go_skip : forall p s i position line lstart,
  (forall c, In c p -> is_term c = false) -> i + nlen p < position ->
  spec_go (p ++ s) i position line lstart = spec_go s (i + nlen p) position line lstart.
Proof.
  induction p as [|c p IH]; intros s i position line lstart Hp Hlt; unfold nlen in *; cbn [length app] in *.
  - rewrite N.add_0_r. reflexivity.
  - rewrite Nat2N.inj_succ in *. rewrite spec_go_step; [|apply Hp; left; reflexivity|lia].
    rewrite IH; [f_equal; lia|intros c' Hc'; apply Hp; right; exact Hc'|lia].
Qed.

(* One terminator [term] after a first line [p] without any: the position k bytes into the next line
   is reported one line further, at column k+1. *)
Lemma spec_second_line : forall p term r k, 0 < nlen term ->
  (forall c, In c p -> is_term c = false) ->
  (forall j c, nth_error r j = Some c -> N.of_nat j < k -> is_term c = false) ->
  (forall i position line lstart, i < position ->
     spec_go (term ++ r) i position line lstart = spec_go r (i + nlen term) position (line + 1) (i + nlen term)) ->
  spec_location (p ++ term ++ r) (nlen p + nlen term + k) = (2, (Z.of_N k + 1)%Z).
Proof.
  intros p term r k Hn Hp Hr Ht. unfold spec_location.
  rewrite spec_go_skip, Ht, spec_go_no_term; try exact Hp; try lia.
  - f_equal. lia.
  - intros j c Hj Hlt. apply (Hr j c Hj). lia.
Qed.

Lemma spec_after_lf : forall p r k,
  (forall c, In c p -> is_term c = false) ->
  (forall j c, nth_error r j = Some c -> N.of_nat j < k -> is_term c = false) ->
  spec_location (p ++ 10 :: r) (nlen p + 1 + k) = (2, (Z.of_N k + 1)%Z).
Proof.
  intros p r k Hp Hr. apply (spec_second_line p [10] r k eq_refl Hp Hr).
  intros i position line lstart Hi. cbn [app spec_go]. rewrite (proj2 (N.leb_gt _ _) Hi). reflexivity.
Qed.

Lemma spec_after_crlf : forall p r k,
  (forall c, In c p -> is_term c = false) ->
  (forall j c, nth_error r j = Some c -> N.of_nat j < k -> is_term c = false) ->
  spec_location (p ++ 13 :: 10 :: r) (nlen p + 2 + k) = (2, (Z.of_N k + 1)%Z).
Proof.
  intros p r k Hp Hr. apply (spec_second_line p [13; 10] r k eq_refl Hp Hr).
  intros i position line lstart Hi. cbn [app spec_go]. rewrite (proj2 (N.leb_gt _ _) Hi). reflexivity.
Qed.

Lemma spec_after_cr : forall p d r k,
  (forall c, In c p -> is_term c = false) ->
  is_term d = false ->
  (forall j c, nth_error (d :: r) j = Some c -> N.of_nat j < k -> is_term c = false) ->
  spec_location (p ++ 13 :: d :: r) (nlen p + 1 + k) = (2, (Z.of_N k + 1)%Z).
Proof.
  intros p d r k Hp Hd Hr. apply (spec_second_line p [13] (d :: r) k eq_refl Hp Hr).
  intros i position line lstart Hi. apply orb_false_iff in Hd. destruct Hd as [Hd _].
  cbn [app spec_go]. rewrite (proj2 (N.leb_gt _ _) Hi), Hd. reflexivity.
Qed.

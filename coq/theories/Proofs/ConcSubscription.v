(* Proofs about the subscription LTS (Conc/SubscriptionLts.v). *)
From Coq Require Import List Arith Bool Lia.
From GQL Require Import Conc.SubscriptionLts Proofs.ConcLts.
Import ListNotations.

Section Proofs.
Variable ev res : Type.
Variable exec : ev -> res.
Variable sel : site -> bool.
Variable cap : nat.

Notation st := (st ev res).
Notation mk := (mk ev res).
Notation step := (step ev res exec sel cap).
Notation step_fn := (step_fn ev res exec sel cap).
Notation run := (run ev res exec sel cap).
Notation reach := (reach ev res exec sel cap).
Notation init := (init ev res).
Notation measure := (measure ev res).
Notation lib_enabled := (lib_enabled ev res exec sel cap).
Notation fwd_done := (fwd_done ev res).
Notation has_chan := (has_chan ev res).
Notation ok_for := (ok_for ev res exec).
Notation pending := (pending ev res).
Notation inexec := (inexec ev res).

(* The transitions as rules, one for each way `step_fn` answers `Some`.  Proofs by cases on a step
   go through `step_rule`: the states come apart into their fields and every projection computes. *)
Inductive rule : st -> label -> st -> Prop :=
| RCancel q i sc p b rc o se sp c :
    rule (mk q i sc p b rc o se sp c) LCancel (mk q i sc p b rc o se sp true)
| REmit e q i p b rc o se sp c :
    rule (mk (e :: q) i false p b rc o se sp c) LEmit (mk q (i ++ [e]) false p b rc o se sp c)
| RCloseSrc q i p b rc o se sp c :
    rule (mk q i false p b rc o se sp c) LCloseSrc (mk q i true p b rc o se sp c)
| RStop q i sc p b rc o se sp c :
    rule (mk q i sc p b rc o se sp c) LStop (mk q i sc p b rc o se true c)
| RDeliver q i sc v k b rc o se c :
    rule (mk q i sc (PSend v k) b rc o se false c) LDeliver
         (mk q i sc (after_send ev res k) b rc (o ++ [v]) se false c)
| RRecvBuf q i sc p v b rc o se c (C : has_chan (mk q i sc p (v :: b) rc o se false c) = true) :
    rule (mk q i sc p (v :: b) rc o se false c) LRecvBuf (mk q i sc p b rc (o ++ [v]) se false c)
| RObsClosed q i sc p o se c (C : has_chan (mk q i sc p [] true o se false c) = true) :
    rule (mk q i sc p [] true o se false c) LObsClosed (mk q i sc p [] true o true false c)
| RSetChan q i sc b rc o se sp c :
    rule (mk q i sc (PStart SetChan) b rc o se sp c) LSetup (mk q i sc PRecv b rc o se sp c)
| RSetErr q i sc b rc o se sp c :
    rule (mk q i sc (PStart SetErr) b rc o se sp c) LSetup (mk q i sc (PSend ErrRes SErr) b rc o se sp c)
| RSetValue v q i sc b rc o se sp c :
    rule (mk q i sc (PStart (SetValue v)) b rc o se sp c) LSetup (mk q i sc (PExec v SValue) b rc o se sp c)
| RSetSilent q i sc b rc o se sp c :
    rule (mk q i sc (PStart SetSilent) b rc o se sp c) LSetup (mk q i sc (PClosing ExitSilent) b rc o se sp c)
| RTake q e i sc b rc o se sp c :
    rule (mk q (e :: i) sc PRecv b rc o se sp c) LTake (mk q i sc (PExec e SLoop) b rc o se sp c)
| REnd q b rc o se sp c :
    rule (mk q [] true PRecv b rc o se sp c) LEnd (mk q [] true (PClosing ExitEnd) b rc o se sp c)
| RQuitRecv q i sc b rc o se sp :
    rule (mk q i sc PRecv b rc o se sp true) LQuitRecv (mk q i sc (PClosing ExitCancel) b rc o se sp true)
| RExec q i sc e k b rc o se sp c :
    rule (mk q i sc (PExec e k) b rc o se sp c) LExec (mk q i sc (PSend (Normal (exec e)) k) b rc o se sp c)
| RExecCtx q i sc e k b rc o se sp :
    rule (mk q i sc (PExec e k) b rc o se sp true) LExecCtx (mk q i sc (PSend CtxErr k) b rc o se sp true)
| RQuitSend q i sc v k b rc o se sp (S : sel k = true) :
    rule (mk q i sc (PSend v k) b rc o se sp true) LQuitSend (mk q i sc (PClosing ExitCancel) b rc o se sp true)
| RCloseRes q i sc w b rc o se sp c :
    rule (mk q i sc (PClosing w) b rc o se sp c) LCloseRes (mk q i sc (PDone w) b true o se sp c)
| ROneSend q i sc b rc o se sp c (L : length b < cap) :
    rule (mk q i sc POneSend b rc o se sp c) LOneSend (mk q i sc POneClose (b ++ [ErrRes]) rc o se sp c)
| ROneClose q i sc b rc o se sp c :
    rule (mk q i sc POneClose b rc o se sp c) LOneClose (mk q i sc (PDone ExitOneShot) b true o se sp c).

Lemma step_rule : forall s l s', step s l s' -> rule s l s'.
Proof.
  intros [q i sc p b rc o se sp c] l s' H.
  unfold SubscriptionLts.step, SubscriptionLts.step_fn, set_fwd in H.
  cbn [srcq inch sclosed fwd buf rclosed out seen_closed stopped cancelled] in H.
  destruct l;
    repeat match type of H with
           | context [match ?x with _ => _ end] => (is_var x; destruct x) || destruct x eqn:?; try discriminate H
           end;
    injection H as <-; constructor; try assumption.
  apply Nat.ltb_lt. assumption.
Qed.


Lemma run_ok : is_run step_fn run.
Proof.
  intros s ls s'. split.
  - destruct 1; eauto.
  - destruct ls; [intros ->; apply run_nil|intros (s1 & H1 & H2); eapply run_cons; eauto].
Qed.

Lemma reach_refl : forall s, reach s s.
Proof. intros s. exists []. apply run_nil. Qed.

Lemma reach_step : forall s0 s l s', reach s0 s -> step s l s' -> reach s0 s'.
Proof. intros s0 s l s' (ls & R) Hs. exists (ls ++ [l]). eapply (run_snoc _ _ run_ok); eauto. Qed.

Lemma reach_run : forall s0 s ls s', reach s0 s -> run s ls s' -> reach s0 s'.
Proof. intros s0 s ls s' (l0 & R) R2. exists (l0 ++ ls). eapply (run_app _ _ run_ok); eauto. Qed.

Lemma reach_ind : forall (P : st -> Prop) s0,
  P s0 -> (forall s l s', P s -> step s l s' -> P s') -> forall s, reach s0 s -> P s.
Proof. intros P s0 H0 HS s (ls & H). exact (run_invariant _ _ run_ok P HS ls s0 s H H0). Qed.

Lemma exec_trace_run : forall ls s s', exec_trace ev res exec sel cap s ls = Some s' <-> run s ls s'.
Proof. exact (exec_run _ _ run_ok). Qed.

Lemma accepts_iff_run : forall s0 ls, accepts ev res exec sel cap s0 ls = true <-> exists s, run s0 ls s.
Proof. exact (accepts_run _ _ run_ok). Qed.

Definition lib_or_deliver (l : label) : bool := lib l || match l with LDeliver => true | _ => false end.

Lemma measure_decreases : forall s l s', lib_or_deliver l = true -> step s l s' -> measure s' < measure s.
Proof.
  intros s l s' L H. destruct (step_rule _ _ _ H); try discriminate L;
    unfold SubscriptionLts.measure; cbn [srcq inch sclosed fwd buf rclosed out seen_closed stopped cancelled pc_weight length];
    rewrite ?app_length; cbn [length]; try lia.
  destruct k; cbn; lia.
Qed.

Lemma lib_decreases : forall s l s', lib l = true -> step s l s' -> measure s' < measure s.
Proof. intros s l s' L. apply measure_decreases. unfold lib_or_deliver. rewrite L. reflexivity. Qed.

Lemma lib_run_bounded : forall s ls s', run s ls s' -> Forall (fun l => lib l = true) ls ->
  length ls + measure s' <= measure s.
Proof. intros s ls s'. exact (run_bounded _ _ run_ok _ _ lib_decreases ls s s'). Qed.

Lemma step_frame : forall s l s', step s l s' ->
  (cancelled s = true -> cancelled s' = true) /\ (sclosed s = true -> sclosed s' = true) /\
  (lib_or_deliver l = true -> stopped s' = stopped s) /\ (lib l = true -> out s' = out s).
Proof. intros s l s' H. destruct (step_rule _ _ _ H); cbn; repeat split; auto; discriminate. Qed.

Definition chan_inv (s : st) : Prop :=
  rclosed s = fwd_done s /\ (seen_closed s = true -> rclosed s = true) /\ (fwd s = POneSend -> buf s = []).

Lemma chan_inv_step : forall s l s', chan_inv s -> step s l s' -> chan_inv s'.
Proof.
  intros s l s' (I1 & I2 & I3) H. destruct (step_rule _ _ _ H); unfold chan_inv; cbn in *; repeat split; auto; try discriminate.
  - destruct k; exact I1.
  - destruct k; discriminate.
  - intros ->. discriminate.
Qed.


Lemma chan_inv_reach : forall f su es s, reach (init f su es) s -> chan_inv s.
Proof.
  intros f su es. apply reach_ind; [|exact chan_inv_step].
  destruct f; repeat split; discriminate.
Qed.

Lemma fwd_progress : 1 <= cap -> forall s, chan_inv s -> fwd_done s = false ->
  lib_enabled s \/ fwd s = PRecv \/ exists v k, fwd s = PSend v k.
Proof.
  intros C [q i sc p b rc o se sp c] (_ & _ & I) D. cbn in I, D |- *.
  destruct p as [| |su| |e k|v k|w|w]; try discriminate D; eauto; left.
  - exists LOneSend. rewrite (I eq_refl). unfold SubscriptionLts.step. cbn.
    destruct cap; [lia|]. eexists. split; reflexivity.
  - exists LOneClose. eexists. split; reflexivity.
  - exists LSetup. destruct su; eexists; split; reflexivity.
  - exists LExec. eexists. split; reflexivity.
  - exists LCloseRes. eexists. split; reflexivity.
Qed.

Definition all_sel : Prop := forall k, sel k = true.

Theorem no_stuck_after_cancel : all_sel -> 1 <= cap ->
  forall f su es s, reach (init f su es) s -> cancelled s = true ->
  exists ls s', run s ls s' /\ Forall (fun l => lib l = true) ls /\ fwd_done s' = true /\ rclosed s' = true.
Proof.
  intros A C f su es s R Hc.
  apply (terminates _ _ run_ok _ _ lib_decreases (fun s => chan_inv s /\ cancelled s = true)).
  - intros s1 l s2 (I & Hc1) _ Hs. split; [eapply chan_inv_step; eauto|apply (step_frame _ _ _ Hs), Hc1].
  - intros s1 (I & Hc1). destruct (fwd_done s1) eqn:D.
    + left. split; [reflexivity|]. rewrite <- D. apply I.
    + right. destruct (fwd_progress C s1 I D) as [P|[E|(v & k & E)]]; [exact P| |].
      * exists LQuitRecv. unfold SubscriptionLts.step, SubscriptionLts.step_fn. rewrite E, Hc1. eexists. split; reflexivity.
      * exists LQuitSend. unfold SubscriptionLts.step, SubscriptionLts.step_fn. rewrite E, Hc1, (A k). eexists. split; reflexivity.
  - split; [eapply chan_inv_reach; eauto|exact Hc].
Qed.

Theorem closes_after_source_close : 1 <= cap ->
  forall f su es s, reach (init f su es) s -> sclosed s = true -> stopped s = false ->
  exists ls s', run s ls s' /\ Forall (fun l => lib_or_deliver l = true) ls /\ fwd_done s' = true /\ rclosed s' = true.
Proof.
  intros C f su es s R Hc Hst.
  apply (terminates _ _ run_ok _ _ measure_decreases (fun s => chan_inv s /\ sclosed s = true /\ stopped s = false)).
  - intros s1 l s2 (I & Hc1 & Hs1) Hl Hs. destruct (step_frame _ _ _ Hs) as (_ & F2 & F3 & _).
    split; [eapply chan_inv_step; eauto|]. split; [apply F2, Hc1|]. rewrite (F3 Hl). exact Hs1.
  - intros s1 (I & Hc1 & Hs1). destruct (fwd_done s1) eqn:D.
    + left. split; [reflexivity|]. rewrite <- D. apply I.
    + right. destruct (fwd_progress C s1 I D) as [(l & s2 & Hl & Hs)|[E|(v & k & E)]].
      * exists l, s2. unfold lib_or_deliver. rewrite Hl. split; [reflexivity|exact Hs].
      * destruct (inch s1) as [|e r] eqn:Ei.
        -- exists LEnd. unfold SubscriptionLts.step, SubscriptionLts.step_fn. rewrite E, Ei, Hc1. eexists. split; reflexivity.
        -- exists LTake. unfold SubscriptionLts.step, SubscriptionLts.step_fn. rewrite E, Ei. eexists. split; reflexivity.
      * exists LDeliver. unfold SubscriptionLts.step, SubscriptionLts.step_fn. rewrite E, Hs1. eexists. split; reflexivity.
  - split; [eapply chan_inv_reach; eauto|split; assumption].
Qed.


Definition live (p : pc ev res) : Prop :=
  match p with PClosing ExitCancel | PDone ExitCancel => False | _ => True end.
Definition ended (p : pc ev res) : Prop :=
  match p with PClosing ExitEnd | PDone ExitEnd => True | _ => False end.
Definition stream_pc (p : pc ev res) : Prop :=
  match p with
  | PStart SetChan | PRecv | PExec _ SLoop | PSend _ SLoop => True
  | PClosing w | PDone w => w = ExitEnd \/ w = ExitCancel
  | _ => False
  end.

Definition sent (o : list (dres res)) (p : pc ev res) : list (dres res) :=
  match p with PSend v SLoop => o ++ [v] | _ => o end.

Lemma sent_pending : forall o p, sent o p = o ++ pending p.
Proof. intros o [| | | | |v []| |]; cbn; rewrite ?app_nil_r; reflexivity. Qed.

Definition stream_inv (es : list ev) (s : st) : Prop :=
  buf s = [] /\ stream_pc (fwd s) /\
  (ended (fwd s) -> inch s = [] /\ sclosed s = true) /\
  exists taken rest, es = taken ++ rest /\
    Forall2 ok_for taken (sent (out s) (fwd s)) /\
    (cancelled s = false -> sent (out s) (fwd s) = map (fun e => Normal (exec e)) taken) /\
    (live (fwd s) -> rest = inexec (fwd s) ++ inch s ++ srcq s).

Lemma Forall2_snoc : forall A B (R : A -> B -> Prop) l1 l2 a b,
  Forall2 R l1 l2 -> R a b -> Forall2 R (l1 ++ [a]) (l2 ++ [b]).
Proof. intros. apply Forall2_app; [assumption|constructor; [assumption|constructor]]. Qed.

Lemma stream_inv_step : forall es s l s', stream_inv es s -> step s l s' -> stream_inv es s'.
Proof.
  intros es s l s' (Ib & Ipc & Iend & taken & rest & Ees & If2 & Inc & Ilive) H.
  destruct (step_rule _ _ _ H); cbn in Ipc; try contradiction; try discriminate Ib;
    try (destruct k; try contradiction); unfold stream_inv; cbn in *;
    (split; [exact Ib|]; split; [auto|]; split;
     [exact Iend || (intros X; try destruct X; try destruct (Iend X) as (X1 & X2); split; congruence)|]);
    try (exists taken, rest; rewrite <- ?app_assoc; repeat split; auto; (discriminate || contradiction)).
  (* LExec, LExecCtx: the event being executed joins the taken ones *)
  1, 2: exists (taken ++ [e]), (i ++ q); rewrite <- app_assoc, map_app;
    (split; [rewrite Ees, (Ilive I); reflexivity|]);
    (split; [apply Forall2_snoc; [exact If2|red; auto]|]);
    (split; [intros X; try discriminate X; rewrite (Inc X)|]; reflexivity).
  (* LQuitSend: the pending result is dropped *)
  destruct (Forall2_app_inv_r _ _ If2) as (t1 & t2 & F1 & F2 & ->).
  exists t1, (t2 ++ rest). rewrite app_assoc. repeat split; auto; (discriminate || contradiction).
Qed.

Lemma stream_inv_reach : forall es s, reach (init FrontOk SetChan es) s -> stream_inv es s.
Proof.
  intros es. apply reach_ind; [|apply stream_inv_step].
  repeat split; auto. exists [], es. repeat split; auto. constructor.
Qed.

(* parse / validate failure: sendOneResultAndClose *)
Definition oneshot_inv (s : st) : Prop :=
  match fwd s with
  | POneSend => buf s = [] /\ out s = [] /\ rclosed s = false
  | POneClose => buf s = [ErrRes] /\ out s = [] /\ rclosed s = false
  | PDone ExitOneShot => out s ++ buf s = [ErrRes] /\ rclosed s = true
  | _ => False
  end /\ (seen_closed s = true -> out s = [ErrRes] /\ buf s = []).

Lemma oneshot_inv_reach : forall su es s, reach (init FrontFail su es) s -> oneshot_inv s.
Proof.
  intros su es. apply reach_ind.
  - cbn. repeat split; try discriminate.
  - intros s l s' I H. destruct (step_rule _ _ _ H); try exact I; destruct I as (I1 & I2); unfold oneshot_inv; cbn in *; try contradiction.
    1, 2: destruct p as [| | | | | |w|[]]; try discriminate C; try contradiction.
    3, 4: destruct I1 as (-> & -> & ->); repeat split; (destruct I2 as (X & _); [assumption|discriminate X]).
    + rewrite <- app_assoc. split; [exact I1|]. intros X. destruct (I2 X) as (_ & X2). discriminate X2.
    + rewrite app_nil_r in *. repeat split; apply I1.
Qed.

(* failure inside the forwarder (no operation, unknown field, Subscribe resolver error or nil result) *)
Definition seterr_inv (s : st) : Prop :=
  buf s = [] /\
  match fwd s with
  | PStart SetErr | PSend ErrRes SErr => out s = []
  | PClosing ExitOnce | PDone ExitOnce => out s = [ErrRes]
  | PClosing ExitCancel | PDone ExitCancel => out s = [] /\ cancelled s = true /\ sel SErr = true
  | _ => False
  end.

Lemma seterr_inv_reach : forall es s, reach (init FrontOk SetErr es) s -> seterr_inv s.
Proof.
  intros es. apply reach_ind.
  - cbn. split; reflexivity.
  - intros s l s' I H. destruct (step_rule _ _ _ H); try exact I; destruct I as (I1 & I2); unfold seterr_inv; cbn in *; try contradiction; try discriminate I1.
    + split; [exact I1|]. destruct p as [| | | | | |[]|[]]; try exact I2; tauto.
    + destruct v, k; try contradiction. subst o. split; [exact I1|reflexivity].
    + destruct v, k; try contradiction. auto.
Qed.

Lemma Forall2_length_eq : forall A B (R : A -> B -> Prop) l1 l2, Forall2 R l1 l2 -> length l1 = length l2.
Proof. intros A B R l1 l2 F. induction F; simpl; congruence. Qed.

Lemma app_eq_len : forall A (a b c d : list A), a ++ b = c ++ d -> length a = length c -> a = c /\ b = d.
Proof.
  induction a as [|x a IH]; intros b c d E L; destruct c as [|y c]; try discriminate L.
  - split; [reflexivity|exact E].
  - cbn in E, L. inversion E; subst. destruct (IH b c d H1) as (X & Y); [congruence|]. subst. tauto.
Qed.

Theorem delivery_prefix : forall es s, reach (init FrontOk SetChan es) s ->
  exists taken rest, es = taken ++ rest /\ Forall2 ok_for taken (out s) /\
    (cancelled s = false -> out s = map (fun e => Normal (exec e)) taken).
Proof.
  intros es s R. destruct (stream_inv_reach es s R) as (_ & _ & _ & taken & rest & Ees & F & Inc & _).
  rewrite sent_pending in F, Inc.
  destruct (Forall2_app_inv_r _ _ F) as (t1 & t2 & F1 & F2 & Et).
  exists t1, (t2 ++ rest). split; [subst taken; rewrite app_assoc; exact Ees|]. split; [exact F1|].
  intros X. specialize (Inc X). subst taken. rewrite map_app in Inc.
  apply app_eq_len in Inc.
  - tauto.
  - rewrite map_length. symmetry. eapply Forall2_length_eq; exact F1.
Qed.

Theorem delivery_complete : forall es s, reach (init FrontOk SetChan es) s ->
  fwd s = PDone ExitEnd \/ fwd s = PClosing ExitEnd ->
  exists emitted, es = emitted ++ srcq s /\ Forall2 ok_for emitted (out s) /\
    (cancelled s = false -> out s = map (fun e => Normal (exec e)) emitted).
Proof.
  intros es s R E. destruct (stream_inv_reach es s R) as (_ & _ & Iend & taken & rest & Ees & F & Inc & Il).
  exists taken. destruct E as [E|E]; rewrite E in *; cbn in *; destruct (Iend I) as (Ei & _);
    rewrite (Il I), Ei in Ees; auto.
Qed.

Lemma close_inv_reach : forall f su es s, reach (init f su es) s ->
  (rclosed s = true -> fwd_done s = true) /\ (seen_closed s = true -> fwd_done s = true).
Proof.
  intros f su es s R. destruct (chan_inv_reach f su es s R) as (I1 & I2 & _). rewrite <- I1. split; [auto|exact I2].
Qed.

Theorem one_error_front : forall su es s, reach (init FrontFail su es) s ->
  (exists n, out s = firstn n [ErrRes]) /\ (seen_closed s = true -> out s = [ErrRes]).
Proof.
  intros su es s R. destruct (oneshot_inv_reach su es s R) as (I1 & I2). split; [|intros X; apply I2; exact X].
  destruct (fwd s); try contradiction.
  - exists 0. tauto.
  - exists 0. tauto.
  - destruct w; try contradiction. destruct I1 as (I1 & _).
    destruct (out s) as [|a [|b o]]; [exists 0; reflexivity| |].
    + exists 1. cbn in *. congruence.
    + cbn in I1. inversion I1.
Qed.

Theorem one_error_setup : forall es s, reach (init FrontOk SetErr es) s ->
  (out s = [] \/ out s = [ErrRes]) /\
  (seen_closed s = true -> out s = [ErrRes] \/ (out s = [] /\ cancelled s = true /\ sel SErr = true)).
Proof.
  intros es s R. destruct (seterr_inv_reach es s R) as (I1 & I2).
  destruct (close_inv_reach _ _ _ s R) as (_ & C2). unfold SubscriptionLts.fwd_done in C2.
  split.
  - destruct (fwd s) as [| |su| |e k|v k|w|w]; try contradiction.
    + destruct su; try contradiction. left; exact I2.
    + destruct v; try contradiction. destruct k; try contradiction. left; exact I2.
    + destruct w; try contradiction; tauto.
    + destruct w; try contradiction; tauto.
  - intros X. specialize (C2 X). destruct (fwd s) as [| |su| |e k|v k|w|w]; try discriminate C2.
    destruct w; try contradiction; tauto.
Qed.


Definition stuck (s : st) : Prop := cancelled s = true /\ fwd_done s = false /\ ~ lib_enabled s.

Lemma reach_exec : forall s0 ls s, exec_trace ev res exec sel cap s0 ls = Some s -> reach s0 s.
Proof. intros s0 ls s E. exists ls. apply exec_trace_run. exact E. Qed.

Lemma no_lib_at_send : forall s v k, fwd s = PSend v k -> sel k = false -> ~ lib_enabled s.
Proof.
  intros s v k E Hs (l & s' & L & H).
  destruct (step_rule _ _ _ H); try discriminate L; try discriminate E. injection E as _ ->. congruence.
Qed.

(* event loop: take an event, the consumer stops, cancel *)
Theorem stuck_without_loop_select : sel SLoop = false -> forall e,
  exists s, reach (init FrontOk SetChan [e]) s /\ stuck s.
Proof.
  intros Hs e. exists (mk [] [] false (PSend (Normal (exec e)) SLoop) [] false [] false true true).
  split; [apply (reach_exec _ [LSetup; LEmit; LTake; LExec; LStop; LCancel]); reflexivity|].
  split; [reflexivity|]. split; [reflexivity|]. eapply no_lib_at_send; [reflexivity|exact Hs].
Qed.

(* error path: the Subscribe resolver fails, the consumer never reads, cancel *)
Theorem stuck_without_error_select : sel SErr = false -> forall es,
  exists s, reach (init FrontOk SetErr es) s /\ stuck s.
Proof.
  intros Hs es. exists (mk es [] false (PSend ErrRes SErr) [] false [] false true true).
  split; [apply (reach_exec _ [LSetup; LStop; LCancel]); reflexivity|].
  split; [reflexivity|]. split; [reflexivity|]. eapply no_lib_at_send; [reflexivity|exact Hs].
Qed.

(* the code before fix C15-2: a Subscribe resolver panicking with a non-error value ends the
   goroutine silently, the consumer sees the close without any result and without cancellation *)
Theorem silent_exit_delivers_nothing : forall es,
  exists s, reach (init FrontOk SetSilent es) s /\ seen_closed s = true /\ out s = [] /\ cancelled s = false.
Proof.
  intros es. exists (mk es [] false (PDone ExitSilent) [] true [] true false false).
  split; [apply (reach_exec _ [LSetup; LCloseRes; LObsClosed]); reflexivity|]. repeat split; reflexivity.
Qed.

(* a one-shot channel without buffer would block the caller of Subscribe before it returns *)
Theorem stuck_without_buffer : cap = 0 -> forall su es,
  ~ lib_enabled (init FrontFail su es) /\ fwd_done (init FrontFail su es) = false.
Proof.
  intros Hc su es. split; [|reflexivity].
  intros (l & s' & L & H). unfold SubscriptionLts.step in H.
  destruct l; try discriminate L; cbn in H; try discriminate H. rewrite Hc in H. discriminate H.
Qed.


Variable res_eqb : res -> res -> bool.
Variable ev_eqb : ev -> ev -> bool.
Hypothesis res_eqb_eq : forall a b, res_eqb a b = true -> a = b.

Notation orun := (orun ev res exec sel cap).
Notation obs_run := (obs_run ev res exec sel cap res_eqb ev_eqb).
Notation lib_closure := (lib_closure ev res exec sel cap res_eqb ev_eqb).
Notation dedup := (dedup ev res res_eqb ev_eqb).

Lemma dres_eqb_eq : forall a b, dres_eqb res res_eqb a b = true -> a = b.
Proof. intros [x| |] [y| |] H; try discriminate H; try reflexivity. cbn in H. f_equal. apply res_eqb_eq. exact H. Qed.

Lemma last_is_sound : forall l v, last_is res res_eqb l v = true -> exists pre, l = pre ++ [v].
Proof.
  intros l v H. unfold last_is in H. destruct (rev l) as [|x r] eqn:E; [discriminate H|].
  apply dres_eqb_eq in H. subst x. exists (rev r). rewrite <- (rev_involutive l), E. reflexivity.
Qed.

Lemma labels_lib : forall l, In l lib_labels <-> lib l = true.
Proof.
  intros l. split; intros H; [apply filter_In in H; apply H|].
  destruct l; try discriminate H; cbv; auto 12.
Qed.

Definition vis (s : st) (o : obs res) (s1 : st) : Prop :=
  (exists l, step s l s1 /\ shows ev res l s1 o) \/ (o = OQuiet /\ fwd_done s = true /\ s1 = s).

Lemma orun_ok : is_orun step_fn lib (obs res) vis orun.
Proof.
  split.
  - apply or_nil.
  - intros. eapply or_lib; eauto.
  - intros s o s1 os s2 [(l & H & Sh)|(-> & D & ->)] Or; [eapply or_vis; eauto|apply or_quiet; assumption].
  - intros P Pn Pl Pv s os s' Or. induction Or as [s|s l s1 os s2 Hl H Or IH|s l s1 o os s2 H Sh Or IH|s os s2 D Or IH].
    + apply Pn.
    + exact (Pl _ _ _ _ _ Hl H IH).
    + apply (Pv s o s1); [left; exists l; split; assumption|exact IH].
    + apply (Pv s OQuiet s); [right; repeat split; assumption|exact IH].
Qed.

Lemma vis_run : forall s o s1, vis s o s1 -> exists ls, run s ls s1.
Proof.
  intros s o s1 [(l & H & _)|(_ & _ & ->)]; [exists [l]; eapply run_cons; [exact H|apply run_nil]|exists []; apply run_nil].
Qed.

Lemma orun_is_run : forall s os s', orun s os s' -> exists ls, run s ls s'.
Proof. exact (orun_is_run _ _ run_ok _ _ _ vis_run _ orun_ok). Qed.

Lemma obs_step_sound : forall s o s1, In s1 (obs_step ev res exec sel cap res_eqb s o) -> vis s o s1.
Proof.
  intros s o s1 H. destruct o; cbn [obs_step] in H;
    try (apply in_opt_list in H; left; eexists; split; [exact H|exact I]).
  - apply filter_In in H. destruct H as (H & L). apply last_is_sound in L. left.
    apply in_app_or in H. destruct H as [H|H]; apply in_opt_list in H; eexists; split; eassumption.
  - destruct (fwd_done s) eqn:D; [|contradiction]. destruct H as [<-|[]]. right. repeat split. exact D.
Qed.

Theorem accepts_obs_sound : forall s0 os, accepts_obs ev res exec sel cap res_eqb ev_eqb s0 os = true ->
  exists s, orun s0 os s.
Proof.
  exact (acceptor_sound _ _ run_ok _ _ labels_lib (st_eqb ev res res_eqb ev_eqb) _ _ _ obs_step_sound (closure_fuel ev res) _ orun_ok).
Qed.

(* what the consumer has received is exactly the values of the ORecv observations, in order *)
Fixpoint recvd (os : list (obs res)) : list (dres res) :=
  match os with
  | [] => []
  | ORecv v :: r => v :: recvd r
  | _ :: r => recvd r
  end.

Lemma shows_out : forall s l s1 o, step s l s1 -> shows ev res l s1 o -> out s1 = out s ++ recvd [o].
Proof.
  intros s l s1 o Hs Sh. destruct (step_rule _ _ _ Hs); cbn in Sh; try contradiction;
    destruct o; try contradiction; cbn; rewrite ?app_nil_r; try reflexivity.
  all: destruct Sh as (pre & E); apply app_inj_tail in E; destruct E as (_ & ->); reflexivity.
Qed.

Lemma orun_out : forall s os s', orun s os s' -> out s' = out s ++ recvd os.
Proof.
  intros s os s' O. induction O as [s|s l s1 os s2 Hl Hs O IH|s l s1 o os s2 Hs Sh O IH|s os s2 D O IH].
  - cbn. rewrite app_nil_r. reflexivity.
  - rewrite IH. apply (step_frame _ _ _ Hs) in Hl. rewrite Hl. reflexivity.
  - rewrite IH, (shows_out _ _ _ _ Hs Sh), <- app_assoc. destruct o; reflexivity.
  - exact IH.
Qed.

Hypothesis res_eqb_refl : forall a, res_eqb a a = true.
Hypothesis ev_eqb_eq : forall a b, ev_eqb a b = true -> a = b.

Lemma list_eqb_eq : forall A (eqb : A -> A -> bool), (forall a b, eqb a b = true -> a = b) ->
  forall x y, list_eqb eqb x y = true -> x = y.
Proof.
  intros A eqb E. induction x as [|a x IH]; destruct y as [|b y]; cbn; intros H; try discriminate H; [reflexivity|].
  apply andb_true_iff in H. destruct H as (H1 & H2). f_equal; [apply E; exact H1|apply IH; exact H2].
Qed.

Lemma site_eqb_eq : forall a b, site_eqb a b = true -> a = b.
Proof. intros [] []; cbn; intros H; try discriminate H; reflexivity. Qed.
Lemma exit_eqb_eq : forall a b, exit_eqb a b = true -> a = b.
Proof. intros [] []; cbn; intros H; try discriminate H; reflexivity. Qed.

Lemma pc_eqb_eq : forall a b, pc_eqb ev res res_eqb ev_eqb a b = true -> a = b.
Proof.
  intros a b H. destruct a as [| |su| |e k|v k|w|w], b as [| |su'| |e' k'|v' k'|w'|w']; cbn in H; try discriminate H; try reflexivity.
  - f_equal. destruct su, su'; cbn in H; try discriminate H; try reflexivity. f_equal. apply ev_eqb_eq. exact H.
  - apply andb_true_iff in H. destruct H as (H1 & H2). f_equal; [apply ev_eqb_eq; exact H1|apply site_eqb_eq; exact H2].
  - apply andb_true_iff in H. destruct H as (H1 & H2). f_equal; [apply dres_eqb_eq; exact H1|apply site_eqb_eq; exact H2].
  - f_equal. apply exit_eqb_eq. exact H.
  - f_equal. apply exit_eqb_eq. exact H.
Qed.

Lemma st_eqb_eq : forall a b, st_eqb ev res res_eqb ev_eqb a b = true -> a = b.
Proof.
  intros [a1 a2 a3 a4 a5 a6 a7 a8 a9 a10] [b1 b2 b3 b4 b5 b6 b7 b8 b9 b10] H. unfold st_eqb in H. cbn [srcq inch sclosed fwd buf rclosed out seen_closed stopped cancelled] in H.
  repeat (apply andb_true_iff in H; let H' := fresh "E" in destruct H as (H & H')).
  apply (list_eqb_eq _ _ ev_eqb_eq) in H. apply (list_eqb_eq _ _ ev_eqb_eq) in E7.
  apply eqb_prop in E6. apply pc_eqb_eq in E5. apply (list_eqb_eq _ _ dres_eqb_eq) in E4. apply eqb_prop in E3.
  apply (list_eqb_eq _ _ dres_eqb_eq) in E2. apply eqb_prop in E1. apply eqb_prop in E0. apply eqb_prop in E.
  subst. reflexivity.
Qed.

Lemma closure_fuel_bound : forall ss s, In s ss -> measure s <= closure_fuel ev res ss.
Proof.
  intros ss s I. unfold closure_fuel. apply Nat.le_le_succ_r.
  induction ss as [|y ss IH]; [contradiction|]. cbn [fold_right]. destruct I as [I|I]; [subst y; apply Nat.le_max_l|].
  eapply Nat.le_trans; [apply IH; exact I|apply Nat.le_max_r].
Qed.

Lemma last_is_complete : forall pre v, last_is res res_eqb (pre ++ [v]) v = true.
Proof.
  intros pre v. unfold last_is. rewrite rev_app_distr. cbn. destruct v; cbn; [apply res_eqb_refl|reflexivity|reflexivity].
Qed.

Lemma obs_step_complete : forall s o s1, vis s o s1 -> In s1 (obs_step ev res exec sel cap res_eqb s o).
Proof.
  intros s o s1 [(l & H & Sh)|(-> & D & ->)]; [|cbn; rewrite D; left; reflexivity].
  unfold SubscriptionLts.step in H.
  destruct l, o; cbn in Sh; try contradiction; cbn [obs_step]; try (apply in_opt_list; exact H);
    destruct Sh as (pre & E); apply filter_In; (split; [apply in_or_app|rewrite E; apply last_is_complete]).
  - left. apply in_opt_list. exact H.
  - right. apply in_opt_list. exact H.
Qed.

Theorem accepts_obs_complete : forall s0 os s, orun s0 os s -> accepts_obs ev res exec sel cap res_eqb ev_eqb s0 os = true.
Proof.
  exact (acceptor_complete _ _ run_ok _ _ lib_decreases _ labels_lib _ st_eqb_eq _ _ _ obs_step_complete _ closure_fuel_bound _ orun_ok).
Qed.

End Proofs.

(* Every entry of the type map built by NewSchema/AppendType is a definition
   that passed its constructor and lazy-initialisation checks, entered under
   its own name, and names are unique.  Hence the map never holds more entries
   than there are definitions, and the fuel new_schema runs with is enough. *)
From Coq Require Import List NArith Bool Lia.
From GQL Require Import Base.Bytes Types.Schema Types.Consistent Proofs.TypesReduce.
Import ListNotations.
Open Scope N_scope.

Lemma memN_in i l : memN i l = true <-> In i l.
Proof.
  unfold memN. rewrite existsb_exists. split.
  - intros (x & Hx & E). apply N.eqb_eq in E. subst. exact Hx.
  - intros H. exists i. split; auto. apply N.eqb_refl.
Qed.

Lemma mem_name_in n l : mem_name n l = true <-> In n l.
Proof.
  unfold mem_name. rewrite existsb_exists. split.
  - intros (x & Hx & E). apply bytes_eqb_eq in E. subst. exact Hx.
  - intros H. exists n. split; auto. apply bytes_eqb_refl.
Qed.

Lemma nodup_names_sound : forall l, nodup_names l = true <-> NoDup l.
Proof.
  induction l as [|n r IH]; simpl; [split; [constructor|reflexivity]|].
  rewrite andb_true_iff, negb_true_iff, IH, <- not_true_iff_false, mem_name_in.
  split; [intros [H1 H2]; constructor; assumption|intro H; inversion H; auto].
Qed.

Lemma nodupN_sound : forall l, nodupN l = true <-> NoDup l.
Proof.
  induction l as [|n r IH]; simpl; [split; [constructor|reflexivity]|].
  rewrite andb_true_iff, negb_true_iff, IH, <- not_true_iff_false, memN_in.
  split; [intros [H1 H2]; constructor; assumption|intro H; inversion H; auto].
Qed.

Lemma nodup_fst_inj {A B} (l : list (A * B)) n x y : NoDup (map fst l) -> In (n, x) l -> In (n, y) l -> x = y.
Proof.
  induction l as [|[m z] r IH]; simpl; intros Hnd Hx Hy; [contradiction|].
  inversion Hnd as [|a b Hni Hnd']; subst.
  destruct Hx as [Hx|Hx]; destruct Hy as [Hy|Hy].
  - congruence.
  - inversion Hx; subst. exfalso. apply Hni. exact (in_map fst _ _ Hy).
  - inversion Hy; subst. exfalso. apply Hni. exact (in_map fst _ _ Hx).
  - exact (IH Hnd' Hx Hy).
Qed.

Lemma assoc_name_notin {A} : forall (l : list (name * A)) n, ~ In n (map fst l) -> assoc_name n l = None.
Proof.
  induction l as [|[m x] r IH]; intros n H; [reflexivity|]. cbn [assoc_name].
  rewrite bytes_eqb_false; [apply IH|]; intro E; apply H; [right|left]; assumption.
Qed.

Lemma vfind_some_in : forall ts i vt, vfind ts i = Some vt -> In vt ts /\ vt_id vt = i.
Proof.
  induction ts as [|t r IH]; simpl; intros i vt H; try discriminate.
  destruct (vt_id t =? i) eqn:E.
  - inversion H; subst. apply N.eqb_eq in E. auto.
  - destruct (IH i vt H). auto.
Qed.

Lemma tm_find_none : forall n tm, tm_find n tm = None -> ~ In n (map fst tm).
Proof.
  induction tm as [|[m i] r IH]; simpl; intros H; auto.
  destruct (bytes_eqb m n) eqn:E; try discriminate.
  intros [Hm|Hr].
  - subst. rewrite bytes_eqb_refl in E. discriminate.
  - exact (IH H Hr).
Qed.

Lemma tm_find_some : forall n tm i, tm_find n tm = Some i -> In (n, i) tm.
Proof.
  induction tm as [|[m j] r IH]; simpl; intros i H; try discriminate.
  destruct (bytes_eqb m n) eqn:E.
  - apply bytes_eqb_eq in E. inversion H; subst. left; reflexivity.
  - right. exact (IH i H).
Qed.

Lemma tm_find_in : forall tm n i, NoDup (map fst tm) -> In (n, i) tm -> tm_find n tm = Some i.
Proof.
  intros tm n i Hnd Hin. destruct (tm_find n tm) as [j|] eqn:E.
  - f_equal. exact (nodup_fst_inj tm n j i Hnd (tm_find_some _ _ _ E) Hin).
  - contradiction (tm_find_none _ _ E (in_map fst _ _ Hin)).
Qed.

Lemma find_def_in : forall defs id d, find_def defs id = Some d -> In id (map fst defs).
Proof.
  induction defs as [|[i e] r IH]; simpl; intros id d H; [discriminate|].
  destruct (i =? id) eqn:E; [left; apply N.eqb_eq; exact E|right; exact (IH id d H)].
Qed.

Definition tm_wf (defs : list (N * tdef)) (Q : tdef -> Prop) (tm : tmap) : Prop :=
  NoDup (map fst tm) /\
  forall n id, In (n, id) tm -> exists d, find_def defs id = Some d /\ def_name d = n /\ Q d.

Definition tm_good (defs : list (N * tdef)) : tmap -> Prop := tm_wf defs (static_ok defs).
Definition tm_ok (defs : list (N * tdef)) : tmap -> Prop := tm_wf defs (fun _ => True).

Lemma tm_wf_nil defs Q : tm_wf defs Q [].
Proof. split; [constructor|intros n id []]. Qed.

Lemma tm_wf_insert defs Q : forall tm id d,
  tm_wf defs Q tm -> find_def defs id = Some d -> Q d -> tm_find (def_name d) tm = None ->
  tm_wf defs Q ((def_name d, id) :: tm).
Proof.
  intros tm id d [Hnd Hall] Hd Hs Hf. split.
  - simpl. constructor; auto. apply tm_find_none; exact Hf.
  - intros n i [Heq|Hin]; [inversion Heq; subst; exists d; auto|exact (Hall n i Hin)].
Qed.

Lemma tm_good_ok defs tm : tm_good defs tm -> tm_ok defs tm.
Proof.
  intros [Hnd Hall]. split; [exact Hnd|].
  intros n id Hin. destruct (Hall n id Hin) as (d & Hd & Hn & _). exists d. auto.
Qed.

Lemma good_name_of defs tm n i : tm_ok defs tm -> In (n, i) tm -> name_of defs i = n.
Proof. intros [_ H] Hin. destruct (H n i Hin) as (d & Hd & Hn & _). unfold name_of. rewrite Hd. exact Hn. Qed.

Lemma good_nodup_ids defs : forall tm, tm_ok defs tm -> NoDup (map snd tm).
Proof.
  induction tm as [|[n i] r IH]; intros Hg; simpl; constructor.
  - intros Hin. apply in_map_iff in Hin. destruct Hin as [[m j] [E Hm]]. simpl in E. subst j.
    pose proof (good_name_of defs _ n i Hg (or_introl eq_refl)) as E1.
    pose proof (good_name_of defs _ m i Hg (or_intror Hm)) as E2.
    destruct Hg as [Hnd _]. inversion Hnd as [|a b Hni _]. apply Hni.
    rewrite <- E1, E2. exact (in_map fst _ _ Hm).
  - apply IH. destruct Hg as [Hnd H]. split; [inversion Hnd; assumption|]. intros m j Hin. apply H. right. exact Hin.
Qed.

Lemma tm_ok_length defs tm : tm_ok defs tm -> (length tm <= length defs)%nat.
Proof.
  intros H. rewrite <- (map_length snd tm), <- (map_length fst defs).
  apply NoDup_incl_length; [exact (good_nodup_ids defs tm H)|].
  intros i Hin. apply in_map_iff in Hin. destruct Hin as [[n j] [Hj Hin]]. simpl in Hj. subst j.
  destruct H as [_ Hall]. destruct (Hall n i Hin) as (d & Hd & _). exact (find_def_in defs i d Hd).
Qed.

Definition config_ok (c : config) : bool :=
  match c_query c with
  | Some _ => negb (root_err (c_defs c) (c_query c) || root_err (c_defs c) (c_mutation c) || root_err (c_defs c) (c_subscription c))
              && negb (existsb (fun d => match d with DirOk => false | _ => true end) (c_dirs c))
  | None => false
  end.

Definition mk (S : schema) (tm : tmap) : schema := Schema (s_defs S) tm (s_query S) (s_mutation S) (s_subscription S).
Definition schema_of (c : config) (tm : tmap) : schema := Schema (c_defs c) tm (c_query c) (c_mutation c) (c_subscription c).

Lemma new_schema_fuel_eq fuel c : new_schema_fuel fuel c =
  if config_ok c then
    match fold_res (add_type (c_defs c) fuel) (initial_types c) [] with
    | OK tm => if check_implementations (schema_of c tm) then OK (schema_of c tm) else Err
    | Err => Err
    | OutOfFuel => OutOfFuel
    end
  else Err.
Proof.
  unfold new_schema_fuel, config_ok, schema_of. destruct (c_query c); [|reflexivity].
  destruct (root_err _ _ || root_err _ _ || root_err _ _); [reflexivity|]. destruct (existsb _ _); reflexivity.
Qed.

Lemma new_schema_fuel_tm fuel c sch : new_schema_fuel fuel c = OK sch <->
  config_ok c = true /\ exists tm, sch = schema_of c tm
    /\ fold_res (add_type (c_defs c) fuel) (initial_types c) [] = OK tm /\ check_implementations (schema_of c tm) = true.
Proof.
  rewrite new_schema_fuel_eq. split.
  - destruct (config_ok c); [|discriminate 1]. destruct (fold_res _ _ _) as [tm| |]; try discriminate 1.
    destruct (check_implementations (schema_of c tm)) eqn:Ec; [|discriminate 1]. intro H. inversion H. eauto.
  - intros (-> & tm & -> & -> & ->). reflexivity.
Qed.

Lemma config_ok_roots c r : config_ok c = true -> In r [c_query c; c_mutation c; c_subscription c] ->
  root_err (c_defs c) r = false.
Proof.
  unfold config_ok. intros H Hr. destruct (c_query c) as [q|]; [|discriminate].
  apply andb_true_iff in H. destruct H as [H _]. apply negb_true_iff in H.
  apply orb_false_iff in H. destruct H as [H H3]. apply orb_false_iff in H. destruct H as [H1 H2].
  destruct Hr as [<-|[<-|[<-|[]]]]; assumption.
Qed.

Lemma append_type_fuel_tm fuel S t S' : append_type_fuel fuel S t = OK S' <->
  exists tm, S' = mk S tm /\ add_type (s_defs S) fuel (s_tm S) t = OK tm /\ check_implementations (mk S tm) = true.
Proof.
  unfold append_type_fuel, mk. split.
  - destruct (add_type _ _ _ _) as [tm| |]; try discriminate 1. cbv zeta.
    destruct (check_implementations _) eqn:Ec; [|discriminate 1]. intro H. inversion H. eauto.
  - intros (tm & -> & -> & Hc). cbv zeta. rewrite Hc. reflexivity.
Qed.

Lemma add_type_good defs fuel tm t tm' : tm_good defs tm -> add_type defs fuel tm t = OK tm' -> tm_good defs tm'.
Proof. exact (add_type_inv0 defs (tm_good defs) (tm_wf_insert defs (static_ok defs)) fuel tm t tm'). Qed.

Lemma add_types_good defs fuel ts tm tm' : tm_good defs tm -> fold_res (add_type defs fuel) ts tm = OK tm' -> tm_good defs tm'.
Proof. apply fold_res_inv. intros tm0 t tm0' _. apply add_type_good. Qed.

Lemma new_schema_fuel_good fuel c sch : new_schema_fuel fuel c = OK sch -> tm_good (s_defs sch) (s_tm sch).
Proof.
  intros H. apply new_schema_fuel_tm in H. destruct H as (_ & tm & -> & Hf & _).
  exact (add_types_good _ _ _ _ _ (tm_wf_nil _ _) Hf).
Qed.

Lemma ctor_ok_valid_name : forall d, ctor_err d = false -> valid_name (def_name d) = true.
Proof.
  intros d H. destruct d; simpl in *;
    repeat (apply orb_false_iff in H; destruct H as [H ?]);
    apply negb_false_iff in H; exact H.
Qed.

Definition view_types (defs : list (N * tdef)) (tm : tmap) : list vtype :=
  map (fun e => VT (fst e) (snd e) (vdef_of defs (snd e))) tm.

Lemma view_of_types S : v_types (view_of S) = view_types (s_defs S) (s_tm S).
Proof. reflexivity. Qed.

Lemma view_names defs tm : map vt_name (view_types defs tm) = map fst tm.
Proof. apply map_map. Qed.

Lemma good_unique_names : forall S, tm_good (s_defs S) (s_tm S) -> NoDup (map vt_name (v_types (view_of S))).
Proof. intros S [Hnd _]. rewrite view_of_types, view_names. exact Hnd. Qed.

Lemma good_valid_names : forall S, tm_good (s_defs S) (s_tm S) ->
  forall vt, In vt (v_types (view_of S)) -> valid_name (vt_name vt) = true.
Proof.
  intros S [_ Hall] vt Hin. rewrite view_of_types in Hin.
  apply in_map_iff in Hin. destruct Hin as [[n i] [Heq Hin]]. subst vt; simpl.
  destruct (Hall n i Hin) as (d & _ & Hn & Hs & _). subst n. apply ctor_ok_valid_name; exact Hs.
Qed.

(* Why the fuel is enough: the reducer descends into a definition only after it has entered the
   definition's name into the map, and only when that name was not there yet:
   every nested call of visit sees a map with one more entry than its caller
   did, and a map holds at most as many entries as there are definitions. *)
Definition grown (defs : list (N * tdef)) (k : nat) (tm : tmap) : Prop := tm_ok defs tm /\ (k <= length tm)%nat.

Lemma grown_insert defs k : forall tm id d,
  grown defs k tm -> find_def defs id = Some d -> static_ok defs d -> tm_find (def_name d) tm = None ->
  grown defs k ((def_name d, id) :: tm).
Proof. intros tm id d [Hok Hk] Hd _ Hf. split; [exact (tm_wf_insert defs _ tm id d Hok Hd I Hf)|simpl; lia]. Qed.

Lemma visit_enough defs : forall fuel tm id, tm_ok defs tm -> (length defs < fuel + length tm)%nat ->
  visit defs fuel tm id <> OutOfFuel.
Proof.
  induction fuel as [|f IH]; intros tm id Hok Hf.
  - pose proof (tm_ok_length defs tm Hok). simpl in Hf. lia.
  - rewrite visit_eq.
    destruct (find_def defs id) as [d|] eqn:Ed; [|discriminate].
    destruct (ctor_err d); [discriminate|].
    destruct (tm_find (def_name d) tm) as [id'|] eqn:Et; [destruct (id' =? id); discriminate|].
    destruct (follow defs d) as [[l ok]|]; [|discriminate].
    assert (H : fold_res (reduce defs f) l ((def_name d, id) :: tm) <> OutOfFuel).
    { apply (fold_res_fuel _ (grown defs (S (length tm)))).
      - intros tm0 t [Hok0 Hlen]. unfold reduce. destruct (target_of defs t); try discriminate. apply IH; [exact Hok0|lia].
      - intros tm0 t tm0'. exact (reduce_inv0 defs _ (grown_insert defs _) f tm0 t tm0').
      - split; [exact (tm_wf_insert defs _ tm id d Hok Ed I Et)|simpl; lia]. }
    destruct (fold_res _ l _); [destruct ok; discriminate|discriminate|contradiction H; reflexivity].
Qed.

Lemma add_type_enough defs fuel tm t : tm_ok defs tm -> (length defs < fuel + length tm)%nat ->
  add_type defs fuel tm t <> OutOfFuel.
Proof.
  intros Hok Hf. rewrite add_type_eq. destruct (type_err defs (norm t)); [discriminate|].
  unfold reduce. destruct (target_of defs (norm t)); try discriminate. apply visit_enough; assumption.
Qed.

Lemma add_types_enough defs fuel l tm : tm_ok defs tm -> (length defs < fuel + length tm)%nat ->
  fold_res (add_type defs fuel) l tm <> OutOfFuel.
Proof.
  intros Hok Hf. apply (fold_res_fuel _ (grown defs (length tm))).
  - intros tm0 t [Hok0 Hlen]. apply add_type_enough; [exact Hok0|lia].
  - intros tm0 t tm0'. exact (add_type_inv0 defs _ (grown_insert defs _) fuel tm0 t tm0').
  - split; [exact Hok|apply le_n].
Qed.

Theorem new_schema_fuel_enough : forall fuel c, (length (c_defs c) < fuel)%nat -> new_schema_fuel fuel c <> OutOfFuel.
Proof.
  intros fuel c Hf. rewrite new_schema_fuel_eq. destruct (config_ok c); [|discriminate].
  pose proof (add_types_enough (c_defs c) fuel (initial_types c) [] (tm_wf_nil _ _)) as H.
  destruct (fold_res _ _ _) as [tm| |]; [destruct (check_implementations _); discriminate|discriminate|].
  contradiction H; [simpl; lia|reflexivity].
Qed.

Theorem new_schema_terminates : forall c, new_schema c <> OutOfFuel.
Proof. intro c. apply new_schema_fuel_enough. unfold fuel_for. lia. Qed.

Theorem new_schema_fuel_irrelevant : forall fuel c, (length (c_defs c) < fuel)%nat ->
  new_schema_fuel fuel c = new_schema c.
Proof.
  intros fuel c Hf. unfold new_schema, fuel_for. rewrite !new_schema_fuel_eq.
  rewrite (fold_res_ext (add_type (c_defs c) (S (length (c_defs c)))) (add_type (c_defs c) fuel)); [reflexivity| |].
  - intros tm x. apply add_type_mono. lia.
  - apply add_types_enough; [apply tm_wf_nil|simpl; lia].
Qed.

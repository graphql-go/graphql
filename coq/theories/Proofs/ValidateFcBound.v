(* C19: a closed-form bound on the number of findConflict calls of the memoised overlap
   algorithm: with M the size (in field nodes) of the largest selection-set tree,
     calls <= M*M * (number of visited selection sets + memo entries),
   by an amortised analysis: every non-memoised body of collectConflictsBetween
   {FieldsAndFragment, Fragments} adds a memo entry that pays for its own field
   comparisons (at most M*M), and the comparisons below two fields are bounded by the
   product of the sizes of their sub-selections. *)
From Coq Require Import List Arith Lia Bool String NArith.
From GQL Require Import Exec.Syntax Validate.Overlap Validate.OverlapSpec Validate.Cost
     Proofs.ValidateRules Proofs.ValidateOverlap Proofs.ValidateRun Proofs.ValidateCost Proofs.ValidateMemoHard.
Import ListNotations.
Open Scope string_scope.
Open Scope list_scope.

Definition w (a : fentry) : nat := Datatypes.S (sels_sz (fe_sub a)).
Definition Wt (l : list fentry) : nat := fold_right (fun a n => w a + n) O l.

Lemma Wt_cons : forall a l, Wt (a :: l) = w a + Wt l.
Proof. reflexivity. Qed.

Lemma Wt_app : forall l1 l2, Wt (l1 ++ l2) = Wt l1 + Wt l2.
Proof. induction l1 as [|a r IH]; intro l2; simpl; [reflexivity|]. rewrite IH. lia. Qed.

Lemma sel_sz_inline : forall id tc ds sub, sel_sz (SInline id tc ds sub) = sels_sz sub.
Proof. intros. simpl. unfold sels_sz. induction sub as [|x r IH]; simpl; [reflexivity | now rewrite IH]. Qed.
Lemma sel_sz_field : forall id al nm args ds sub, sel_sz (SField id al nm args ds sub) = Datatypes.S (sels_sz sub).
Proof. intros. reflexivity. Qed.

Lemma Wt_dfields : forall S pt ss, Wt (dfields S pt ss) = sels_sz ss.
Proof.
  intros S pt ss. revert pt.
  induction ss as [| id al nm args ds sub r _ IHr | id g ds r IHr | id tc ds sub r IHs IHr] using sels_ind;
    intro pt; [reflexivity | | exact (IHr pt) |]; rewrite dfields_cons, Wt_app, IHr;
    change (sels_sz (?x :: r)) with (sel_sz x + sels_sz r).
  - rewrite sel_sz_field. unfold Wt, w. simpl. lia.
  - rewrite dfields_inline, IHs, sel_sz_inline. reflexivity.
Qed.

Lemma Wt_in : forall l a, In a l -> w a <= Wt l.
Proof.
  induction l as [|x r IH]; intros a H; [destruct H|]. rewrite Wt_cons.
  destruct H as [H|H]; [subst x; lia | specialize (IH a H); lia].
Qed.

Lemma Wt_filter : forall (p : fentry -> bool) l, Wt (filter p l) <= Wt l.
Proof. intros p l. induction l as [|x r IH]; simpl; [lia|]. destruct (p x); simpl; lia. Qed.

Lemma Wt_partition_step : forall a r ks, NoDup ks ->
  fold_right (fun k n => Wt (with_key k (a :: r)) + n) O ks =
  fold_right (fun k n => Wt (with_key k r) + n) O ks + (if nmem (fe_key a) ks then w a else 0).
Proof.
  intros a r ks. induction ks as [|k ks' IH]; intro ND; [reflexivity|].
  inversion ND as [|? ? Hnk ND']; subst. cbn [fold_right nmem]. rewrite (IH ND'). unfold with_key at 1. cbn [filter].
  destruct (String.eqb (fe_key a) k) eqn:E; cbn [orb]; fold (with_key k r); [|lia].
  apply String.eqb_eq in E. subst k. rewrite (proj2 (nmem_not_in _ _) Hnk), Wt_cons. lia.
Qed.

Lemma Wt_partition : forall l ks, NoDup ks -> (forall a, In a l -> In (fe_key a) ks) ->
  fold_right (fun k n => Wt (with_key k l) + n) O ks = Wt l.
Proof.
  induction l as [|a r IH]; intros ks ND Hk.
  - clear. induction ks as [|k ks' IHk]; [reflexivity | cbn [fold_right]; rewrite IHk; reflexivity].
  - rewrite (Wt_partition_step a r ks ND), (IH ks ND (fun x Hx => Hk x (or_intror Hx))).
    rewrite (proj2 (nmem_in _ _) (Hk a (or_introl eq_refl))), Wt_cons. lia.
Qed.

Lemma dedup_nodup : forall l seen, NoDup (dedup l seen) /\ forall x, In x (dedup l seen) -> ~ In x seen.
Proof.
  induction l as [|y r IH]; intro seen; simpl; [split; [constructor | intros x []]|].
  destruct (nmem y seen) eqn:E; [apply IH|].
  apply nmem_not_in in E. destruct (IH (y :: seen)) as [ND Hn]. split.
  - constructor; [|exact ND]. intro K. apply (Hn y K). left. reflexivity.
  - intros x [Hx|Hx]; [subst; exact E|]. intro K. apply (Hn x Hx). right. exact K.
Qed.

Lemma keys_partition : forall l, fold_right (fun k n => Wt (with_key k l) + n) O (keys_of l) = Wt l.
Proof.
  intro l. apply Wt_partition; [apply (proj1 (dedup_nodup _ _))|].
  intros a Ha. apply keys_of_mem. exact Ha.
Qed.

Section Bound.
Variable S : schema.
Variable D : document.
Notation F := (fun s : fset => dfields S (fst s) (snd s)).
Notation DS := (DS S D).
Notation M := (max_set_size S D).
Notation K := (max_set_size S D * max_set_size S D).

Definition Phi (st : mst) : nat := List.length (m_ffs st) + List.length (m_pairs st).

Definition am (st st' : mst) (c : nat) : Prop :=
  m_fc st' + K * Phi st <= m_fc st + c + K * Phi st' /\ Phi st <= Phi st'.

Lemma am_refl : forall st, am st st 0.
Proof. intro st. split; lia. Qed.
Lemma am_trans : forall a b c x y, am a b x -> am b c y -> am a c (x + y).
Proof. intros a b c x y [H1 H2] [H3 H4]. split; lia. Qed.
Lemma am_weaken : forall a b x y, x <= y -> am a b x -> am a b y.
Proof. intros a b x y L [H1 H2]. split; lia. Qed.

Lemma seq_am : forall {A} (step : A -> mst -> list N * mst) (c : A -> nat) (l : list A),
  (forall x st, In x l -> am st (snd (step x st)) (c x)) ->
  forall st, am st (snd (seq step l st)) (fold_right (fun x n => c x + n) O l).
Proof.
  intros A step c l. induction l as [|x r IH]; intros H st; [apply am_refl|]. rewrite seq_step.
  exact (am_trans _ _ _ _ _ (H x st (or_introl eq_refl)) (IH (fun y st' Hy => H y st' (or_intror Hy)) _)).
Qed.

Lemma seq_am0 : forall {A} (step : A -> mst -> list N * mst) (l : list A),
  (forall x st, In x l -> am st (snd (step x st)) 0) ->
  forall st, am st (snd (seq step l st)) 0.
Proof.
  intros A step l H st. pose proof (seq_am step (fun _ => 0) l H st) as R.
  assert (Z : fold_right (fun (_ : A) n => 0 + n) 0 l = 0) by (clear; induction l; simpl; auto).
  cbv beta in R. rewrite Z in R. exact R.
Qed.

Lemma am_then0 : forall a b c x, am a b x -> am b c 0 -> am a c x.
Proof. intros a b c x H1 H2. rewrite <- (Nat.add_0_r x). exact (am_trans _ _ _ _ _ H1 H2). Qed.

Lemma am_inc_then : forall st st' c, am (inc_fc st) st' c -> am st st' (1 + c).
Proof. intros st st' c [H1 H2]. change (Phi (inc_fc st)) with (Phi st) in *. simpl in H1. split; lia. Qed.
Lemma am_inc : forall st, am st (inc_fc st) 1.
Proof. intro st. apply (am_inc_then st (inc_fc st) 0). apply am_refl. Qed.

(* a new memo entry pays for up to K comparisons *)
Lemma am_pay : forall st st0 st' c, m_fc st0 = m_fc st -> Phi st < Phi st0 -> c <= K ->
  am st0 st' c -> am st st' 0.
Proof. intros st st0 st' c E. unfold am. rewrite E. generalize K. intros n L C [A1 A2]. split; nia. Qed.

Lemma DS_size : forall s, DS s -> Wt (F s) <= M.
Proof.
  intros s H. cbv beta. rewrite Wt_dfields. induction H as [s Hs | g fr Hf | s e Hs IH He].
  - apply list_max_in_le, (in_map (fun s => sels_sz (snd s))), in_or_app. left. exact Hs.
  - apply list_max_in_le, (in_map (fun s => sels_sz (snd s)) _ (body_of S fr)), in_or_app. right.
    apply (frag_body_in S D g fr Hf).
  - simpl. pose proof (Wt_in _ _ He) as L. rewrite Wt_dfields in L. unfold w in L. simpl in IH. lia.
Qed.

Lemma sum_const_mul : forall (l : list fentry) x,
  fold_right (fun b n => x * w b + n) O l = x * Wt l.
Proof. induction l as [|b r IH]; intro x; [simpl; lia|]. cbn [fold_right]. rewrite IH, Wt_cons. nia. Qed.

Lemma sum_mul_r : forall (l : list fentry) x,
  fold_right (fun a n => w a * x + n) O l = Wt l * x.
Proof. induction l as [|a r IH]; intro x; [simpl; lia|]. cbn [fold_right]. rewrite IH, Wt_cons. nia. Qed.

Lemma sum_keys_le : forall ks l1 l2,
  fold_right (fun k n => Wt (with_key k l1) * Wt (with_key k l2) + n) O ks <=
  fold_right (fun k n => Wt (with_key k l1) + n) O ks * Wt l2.
Proof.
  induction ks as [|k ks' IH]; intros l1 l2; simpl; [lia|].
  specialize (IH l1 l2). pose proof (Wt_filter (fun e => String.eqb (fe_key e) k) l2) as L.
  fold (with_key k l2) in L. nia.
Qed.

Lemma between_am : forall f fl l1 l2 st,
  (forall a b st, In a l1 -> In b l2 -> am st (snd (Overlap.fc S D true f fl a b st)) (w a * w b)) ->
  am st (snd (between S D true (Datatypes.S f) fl l1 l2 st)) (Wt l1 * Wt l2).
Proof.
  intros f fl l1 l2 st H. rewrite between_S.
  eapply am_weaken; [|apply (seq_am _ (fun k => Wt (with_key k l1) * Wt (with_key k l2)))].
  { rewrite <- (keys_partition l1). apply sum_keys_le. }
  intros k st1 _. eapply am_weaken; [|apply (seq_am _ (fun a => w a * Wt (with_key k l2)))].
  { rewrite sum_mul_r. lia. }
  intros a st2 Ha. eapply am_weaken; [|apply (seq_am _ (fun b => w a * w b))].
  { rewrite sum_const_mul. lia. }
  intros b st3 Hb. apply filter_In in Ha, Hb. apply H; [apply Ha | apply Hb].
Qed.

Lemma amortised : forall f,
  (forall fl a b sa sb st, DS sa -> DS sb -> In a (F sa) -> In b (F sb) ->
     am st (snd (Overlap.fc S D true f fl a b st)) (w a * w b)) /\
  (forall fl s1 s2 l1 l2 st, DS s1 -> DS s2 -> incl l1 (F s1) -> incl l2 (F s2) ->
     am st (snd (between S D true f fl l1 l2 st)) (Wt l1 * Wt l2)) /\
  (forall fl s1 s2 st, DS s1 -> DS s2 ->
     am st (snd (Overlap.subsets S D true f fl s1 s2 st)) (Wt (F s1) * Wt (F s2))) /\
  (forall fl s g st, DS s -> am st (snd (ffrag S D true f fl s g st)) 0) /\
  (forall fl g1 g2 st, am st (snd (frfr S D true f fl g1 g2 st)) 0).
Proof.
  induction f as [|f (Ifc & Ibt & Isub & Iff & Ifr)].
  { split; [|split; [|split; [|split]]]; intros; exact (am_weaken st st 0 _ (Nat.le_0_l _) (am_refl st)). }
  assert (Hbt : forall fl s1 s2 st, DS s1 -> DS s2 ->
            am st (snd (between S D true f fl (fields S s1) (fields S s2) st)) (Wt (F s1) * Wt (F s2))).
  { intros fl s1 s2 st H1 H2. apply (Ibt fl s1 s2); auto using incl_refl. }
  assert (Hpay : forall fl s1 s2 st st0 st', DS s1 -> DS s2 -> m_fc st0 = m_fc st -> Phi st < Phi st0 ->
            am (snd (between S D true f fl (fields S s1) (fields S s2) st0)) st' 0 -> am st st' 0).
  { intros fl s1 s2 st st0 st' H1 H2 E L A. apply (am_pay st st0 st' _ E L) with (2 := am_then0 _ _ _ _ (Hbt fl s1 s2 st0 H1 H2) A).
    pose proof (DS_size s1 H1). pose proof (DS_size s2 H2). cbv beta in *. nia. }
  split; [|split; [|split; [|split]]].
  - intros fl a b sa sb st Hsa Hsb Ha Hb. rewrite fc_S.
    assert (W1 : 1 <= w a * w b) by (unfold w; simpl; lia).
    destruct (negb _); [apply (am_weaken _ _ 1 _ W1), am_inc|].
    destruct (has_sub a && has_sub b); [|apply (am_weaken _ _ 1 _ W1), am_inc].
    pose proof (Isub (exf S fl a b) _ _ (inc_fc st) (DS_sub S D sa a Hsa Ha) (DS_sub S D sb b Hsb Hb)) as A.
    cbn [fst snd] in A. rewrite !Wt_dfields in A. apply am_inc_then in A.
    refine (am_weaken _ _ _ _ _ A). unfold w. nia.
  - intros fl s1 s2 l1 l2 st H1 H2 I1 I2. apply between_am.
    intros a b st' Ha Hb. apply (Ifc fl a b s1 s2); auto.
  - intros fl s1 s2 st H1 H2. rewrite subsets_S. unfold andthen. cbn [snd].
    eapply am_then0; [|apply seq_am0; intros ? ? _; apply seq_am0; intros ? ? _; apply Ifr].
    do 2 (eapply am_then0; [|apply seq_am0; intros ? ? _; apply Iff; assumption]). apply Hbt; assumption.
  - intros fl s g st Hs. rewrite ffrag_S. unfold guard. cbn [andb].
    destruct (ff_has _ _ _ _ _); [apply am_refl|].
    assert (L : Phi st < Phi (ff_add st (fst s) (first_id (snd s)) g fl)) by (unfold Phi; simpl; lia).
    set (st0 := ff_add st (fst s) (first_id (snd s)) g fl) in *.
    pose proof (am_pay st st0 st0 0 eq_refl L (Nat.le_0_l _) (am_refl _)) as A0.
    destruct (fbody S D g) as [b|] eqn:Eb; [|exact A0]. destruct (same_set s b); [exact A0|].
    apply (Hpay fl s b st st0 _ Hs (DS_body S D g b Eb) eq_refl L).
    apply seq_am0. intros h st1 _. apply Iff. exact Hs.
  - intros fl g1 g2 st. rewrite frfr_S.
    destruct (fbody S D g1) as [b1|] eqn:E1; [|apply am_refl]. destruct (fbody S D g2) as [b2|] eqn:E2; [|apply am_refl].
    destruct (String.eqb g1 g2); [apply am_refl|]. unfold guard. cbn [andb].
    destruct (pair_has _ _ _ _); [apply am_refl|].
    assert (L : Phi st < Phi (pair_add st g1 g2 fl)) by (unfold Phi; simpl; lia).
    apply (Hpay fl b1 b2 st (pair_add st g1 g2 fl) _ (DS_body S D g1 b1 E1) (DS_body S D g2 b2 E2) eq_refl L).
    eapply am_then0; [|apply seq_am0; intros h st1 _; apply Ifr]. apply seq_am0; intros h st1 _; apply Ifr.
Qed.

Lemma pairs_within_am : forall fuel s l st, DS s -> incl l (F s) ->
  am st (snd (pairs_within S D true fuel l st)) (Wt l * Wt l).
Proof.
  intros fuel s l. induction l as [|a r IH]; intros st Hs Hi; [apply am_refl|]. rewrite pairs_within_cons.
  destruct (amortised fuel) as (Ifc & _).
  pose proof (seq_am (Overlap.fc S D true fuel false a) (fun b => w a * w b) r
               (fun b st0 Hb => Ifc false a b s s st0 Hs Hs (Hi a (or_introl eq_refl)) (Hi b (or_intror Hb))) st) as A1.
  cbv beta in A1. rewrite sum_const_mul in A1.
  refine (am_weaken _ _ _ _ _ (am_trans _ _ _ _ _ A1 (IH _ Hs (fun x Hx => Hi x (or_intror Hx))))).
  change (Wt (a :: r)) with (w a + Wt r). nia.
Qed.

Lemma frags_within_am : forall fuel s gs st, DS s ->
  am st (snd (frags_within S D true fuel s gs st)) 0.
Proof.
  intros fuel s gs st Hs. destruct (amortised fuel) as (_ & _ & _ & Iff & Ifr). revert st.
  induction gs as [|g r IH]; intro st; [apply am_refl|]. rewrite frags_within_cons.
  exact (am_then0 _ _ _ _ (am_then0 _ _ _ _ (Iff false s g st Hs) (seq_am0 _ r (fun h st' _ => Ifr false g h st') _)) (IH _)).
Qed.

Lemma within_set_am : forall fuel s st, DS s -> am st (snd (within_set S D true fuel s st)) K.
Proof.
  intros fuel s st Hs. rewrite within_set_eq. eapply am_then0; [|apply frags_within_am; exact Hs].
  eapply am_weaken; [|apply (seq_am _ (fun k => Wt (with_key k (F s)) * Wt (with_key k (F s))))].
  - pose proof (sum_keys_le (keys_of (F s)) (F s) (F s)) as L. rewrite keys_partition in L.
    pose proof (DS_size s Hs). apply (Nat.le_trans _ _ _ L). cbv beta in *. nia.
  - intros k st0 _. apply (pairs_within_am fuel s); [exact Hs|]. intros x Hx. apply filter_In in Hx. apply Hx.
Qed.

Theorem fc_calls_bound : forall fuel,
  fc_calls S D fuel <=
  K * (List.length (all_sets S D) + List.length (m_ffs (final_state S D true fuel))
       + List.length (m_pairs (final_state S D true fuel))).
Proof.
  intro fuel. unfold fc_calls, final_state.
  pose proof (seq_am (within_set S D true fuel) (fun _ => K) (all_sets S D)
               (fun s st Hs => within_set_am fuel s st (DS_top S D s Hs)) mst0) as [A _].
  assert (Z : forall (l : list fset), fold_right (fun _ n => K + n) 0 l = K * List.length l).
  { induction l as [|x r IHl]; simpl; [lia|]. rewrite IHl. lia. }
  cbv beta in A. rewrite Z in A. change (Phi mst0) with 0 in A. change (m_fc mst0) with 0 in A.
  rewrite Nat.mul_0_r in A. unfold Phi in A.
  set (V := snd (seq (within_set S D true fuel) (all_sets S D) mst0)) in *.
  rewrite <- Nat.add_assoc. rewrite Nat.mul_add_distr_l. rewrite Nat.add_0_r in A. exact A.
Qed.

End Bound.

(* C08: the round-trip theorems in terms of sources. *)
From Coq Require Import List NArith Bool.
From GQL Require Import Base.Bytes Syntax.Lexer Syntax.Ast Syntax.Parser Syntax.Grammar Syntax.Printer
  Proofs.SyntaxSound Proofs.SyntaxComplete Proofs.SyntaxRender Proofs.SyntaxLexemes Proofs.SyntaxRoundTrip Proofs.SyntaxRoundTripSDL.
Import ListNotations.
Open Scope N_scope.

(* the restriction inherited from C08_string_roundtrip: every string or block-string token of the
   source has a value that is valid UTF-8 (str_okb: no byte that utf8.DecodeRune would replace) *)
Definition str_ok_tok (t : token) : bool :=
  match tk t with STRING | BLOCK_STRING => str_ok (tval t) | _ => true end.
Definition strings_ok_toks (ts : list token) : bool := forallb str_ok_tok ts.
Definition src_strings_utf8 (src : bytes) : bool :=
  match lex src with Ok (ts, _) => strings_ok_toks ts | _ => false end.

Lemma toks_wf_of : forall ts, forallb lexeme_ok ts = true -> strings_ok_toks ts = true -> toks_wf ts.
Proof.
  induction ts as [|t ts IH]; intros H1 H2; [reflexivity|]. unfold toks_wf. cbn [forallb] in *.
  apply andb_true_iff in H1. destruct H1 as [L1 H1]. unfold strings_ok_toks in H2. cbn [forallb] in H2.
  apply andb_true_iff in H2. destruct H2 as [A1 H2].
  rewrite (IH H1 H2). rewrite andb_true_r.
  unfold tok_wf, lexeme_ok, str_ok_tok in *. destruct (tk t); try reflexivity; assumption.
Qed.

(* what a parsed source with valid UTF-8 strings provides: a token list with well-formed lexemes *)
Lemma parsed_tokens : forall src d mb, parse src = Ok (d, mb) -> src_strings_utf8 src = true ->
  exists ts, parse_tokens ts = Ok d /\ toks_wf ts.
Proof.
  intros src d mb H A. unfold parse in H. unfold src_strings_utf8 in A.
  destruct (lex src) as [[ts m]| |] eqn:L; try discriminate.
  destruct (parse_tokens ts) as [d0| |] eqn:P; try discriminate. inversion H; subst d0 m.
  exists ts. split; [exact P|]. apply toks_wf_of; [|exact A].
  unfold lex, lex_src in L. cbn [snd] in L. apply (lex_all_lexemes _ _ _ _ _ L).
Qed.

Theorem roundtrip_exec : forall src d mb, parse src = Ok (d, mb) -> exec_only d = true -> src_strings_utf8 src = true ->
  exists d', parse (print_doc d) = Ok (d', false) /\ erase_loc d' = erase_loc d /\ print_doc d' = print_doc d.
Proof. intros src d mb H E A. destruct (parsed_tokens src d mb H A) as (ts & P & W). exact (roundtrip_exec_tokens ts d P E W). Qed.

Theorem value_roundtrip : forall c p v, DValue c p v -> toks_wf p ->
  exists ts v', lex (print_value v) = Ok (ts ++ [eof_tok (nlen (print_value v))], false) /\
    DValue c ts v' /\ gnl (g_value v') = gnl (g_value v) /\ print_value v' = print_value v /\
    forall fuel pe, (length ts < fuel)%nat ->
      parse_value fuel c (pe, ts ++ [eof_tok (nlen (print_value v))]) = Ok (v', (endof pe ts, [eof_tok (nlen (print_value v))])).
Proof.
  intros c p v D W. destruct (value_rt c p v D W) as [Pv Rv].
  destruct (Rv (ptoks 0 (lay_value v)) (sig_ptoks _ _)) as (v' & D' & E').
  exists (ptoks 0 (lay_value v)), v'. split; [|split; [exact D'|split; [exact E'|split]]].
  - unfold print_value. apply lex_flat_layout. specialize (Pv [] (conj eq_refl eq_refl)). rewrite app_nil_r in Pv. exact Pv.
  - unfold print_value. rewrite (value_loc v' v E'). reflexivity.
  - intros fuel pe Hf. apply parse_value_complete; assumption.
Qed.

Theorem value_roundtrip_src : forall src ts mb fuel c v st', lex src = Ok (ts, mb) -> strings_ok_toks ts = true ->
  parse_value fuel c (0, ts) = Ok (v, st') ->
  exists ts' v', lex (print_value v) = Ok (ts' ++ [eof_tok (nlen (print_value v))], false) /\
    gnl (g_value v') = gnl (g_value v) /\
    forall fuel' pe, (length ts' < fuel')%nat ->
      parse_value fuel' c (pe, ts' ++ [eof_tok (nlen (print_value v))]) = Ok (v', (endof pe ts', [eof_tok (nlen (print_value v))])).
Proof.
  intros src ts mb fuel c v st' L A P.
  destruct (Spec_sound (parse_value_spec fuel c) _ _ _ P) as (p & C & D).
  assert (W : toks_wf ts).
  { apply toks_wf_of; [|exact A]. unfold lex, lex_src in L. cbn [snd] in L. apply (lex_all_lexemes _ _ _ _ _ L). }
  destruct C as [C _]. cbn [snd] in C. rewrite C in W. apply toks_wf_app in W. destruct W as [W _].
  destruct (value_roundtrip c p v D W) as (ts' & v' & H1 & _ & H3 & _ & H5).
  exists ts', v'. split; [exact H1|split; [exact H3|exact H5]].
Qed.

(* every document, executable or type-system: print, lex, parse gives the document back up to
   locations and empty descriptions, and it prints to the same text *)
Theorem roundtrip_src : forall src d mb, parse src = Ok (d, mb) -> src_strings_utf8 src = true ->
  exists d', parse (print_doc d) = Ok (d', false) /\ erase_loc_descr d' = erase_loc_descr d /\ print_doc d' = print_doc d.
Proof. intros src d mb H A. destruct (parsed_tokens src d mb H A) as (ts & P & W). exact (roundtrip_tokens ts d P W). Qed.

(* Proofs for C06: the plan cache model (Cache/LRU.v) against its
   specification (Cache/CacheSpec.v), and prepared-plan reuse (Cache/Prepared.v). *)
From Coq Require Import List NArith Bool Lia Decimal DecimalN DecimalNat.
From GQL Require Import Base.Bytes Cache.LRU Cache.CacheSpec Cache.Prepared.
Import ListNotations.
Open Scope N_scope.

Definition is_digit (b : byte) : Prop := 48 <= b <= 57.

Lemma uint_bytes_digits : forall u, Forall is_digit (uint_bytes u).
Proof.
  induction u as [|u IH|u IH|u IH|u IH|u IH|u IH|u IH|u IH|u IH|u IH]; simpl;
    constructor; try exact IH; unfold is_digit; lia.
Qed.

(* reading the digits back: a left inverse of uint_bytes *)
Fixpoint bytes_uint (b : bytes) : Decimal.uint :=
  match b with
  | [] => Decimal.Nil
  | x :: r =>
    match x with
    | 48 => Decimal.D0 | 49 => Decimal.D1 | 50 => Decimal.D2 | 51 => Decimal.D3 | 52 => Decimal.D4
    | 53 => Decimal.D5 | 54 => Decimal.D6 | 55 => Decimal.D7 | 56 => Decimal.D8 | _ => Decimal.D9
    end (bytes_uint r)
  end.

Lemma bytes_uint_bytes : forall u, bytes_uint (uint_bytes u) = u.
Proof. induction u; simpl; congruence. Qed.

Lemma uint_bytes_inj : forall u v, uint_bytes u = uint_bytes v -> u = v.
Proof. intros u v H. rewrite <- (bytes_uint_bytes u), H. apply bytes_uint_bytes. Qed.

Lemma itoa_inj : forall a b, itoa a = itoa b -> a = b.
Proof.
  intros a b H. unfold itoa in H. apply uint_bytes_inj in H.
  rewrite <- (DecimalN.Unsigned.of_to a), <- (DecimalN.Unsigned.of_to b), H. reflexivity.
Qed.

Lemma digits_sep_inj : forall d1 d2 r1 r2,
  Forall is_digit d1 -> Forall is_digit d2 ->
  d1 ++ colon :: r1 = d2 ++ colon :: r2 -> d1 = d2 /\ r1 = r2.
Proof.
  induction d1 as [|x d1 IH]; intros d2 r1 r2 H1 H2 E; destruct d2 as [|y d2]; simpl in E.
  - injection E as E. split; [reflexivity|exact E].
  - injection E as E1 E2. inversion H2 as [|? ? Hy _]; subst. unfold is_digit, colon in Hy. lia.
  - injection E as E1 E2. inversion H1 as [|? ? Hx _]; subst. unfold is_digit, colon in Hx. lia.
  - injection E as E1 E2. inversion H1; inversion H2; subst.
    destruct (IH d2 r1 r2) as [Ha Hb]; try assumption. subst. split; reflexivity.
Qed.

Lemma app_same_length_inj : forall (A : Type) (a b c d : list A),
  length a = length b -> a ++ c = b ++ d -> a = b /\ c = d.
Proof.
  induction a as [|x a IH]; intros b c d HL E; destruct b as [|y b]; simpl in *; try discriminate HL.
  - split; [reflexivity|exact E].
  - injection E as E1 E2. injection HL as HL. destruct (IH b c d HL E2). subst. split; reflexivity.
Qed.

Lemma lenprefix_inj : forall op1 t1 op2 t2,
  lenprefix op1 t1 = lenprefix op2 t2 -> op1 = op2 /\ t1 = t2.
Proof.
  intros op1 t1 op2 t2 H. unfold lenprefix in H.
  apply digits_sep_inj in H; try apply uint_bytes_digits.
  destruct H as [Hl Hr]. apply itoa_inj in Hl. unfold nlen in Hl. apply Nnat.Nat2N.inj in Hl.
  apply app_same_length_inj; assumption.
Qed.

Section Entries.
  Context {R : Type}.
  Implicit Types (es : list (entry R)) (e : entry R) (k : bytes).

  Lemma has_key_true : forall k e, has_key k e = true <-> e_key e = k.
  Proof. intros. unfold has_key. apply bytes_eqb_eq. Qed.

  Lemma remove_key_In : forall k es e, In e (remove_key k es) -> In e es.
  Proof. intros k es e H. unfold remove_key in H. apply filter_In in H. tauto. Qed.

  Lemma remove_key_not : forall k es e, In e (remove_key k es) -> e_key e <> k.
  Proof.
    intros k es e H. unfold remove_key in H. apply filter_In in H. destruct H as [_ H].
    intro E. apply has_key_true in E. rewrite E in H. discriminate H.
  Qed.

  Lemma remove_key_length_le : forall k es, (length (remove_key k es) <= length es)%nat.
  Proof.
    intros k es. unfold remove_key. induction es as [|e es IH]; simpl; [lia|].
    destruct (negb (has_key k e)); simpl; lia.
  Qed.

  Lemma remove_key_length_lt : forall k es, In k (map e_key es) ->
    (length (remove_key k es) < length es)%nat.
  Proof.
    intros k es. unfold remove_key. induction es as [|e es IH]; simpl; intro H; [contradiction|].
    pose proof (remove_key_length_le k es) as Hle. unfold remove_key in Hle.
    destruct (has_key k e) eqn:E; simpl.
    - lia.
    - destruct H as [H|H].
      + apply has_key_true in H. congruence.
      + apply IH in H. lia.
  Qed.

  Lemma find_key_some : forall k es e, find_key k es = Some e -> In e es /\ e_key e = k.
  Proof.
    intros k es e H. unfold find_key in H. apply find_some in H. destruct H as [H1 H2].
    split; [exact H1|]. apply has_key_true. exact H2.
  Qed.

  Lemma find_key_none : forall k es, find_key k es = None -> ~ In k (map e_key es).
  Proof.
    intros k es H Hin. apply in_map_iff in Hin. destruct Hin as [e [E Hin]].
    unfold find_key in H. pose proof (find_none _ _ H e Hin) as Hn.
    apply has_key_true in E. congruence.
  Qed.

  Lemma remove_key_NoDup : forall k es, NoDup (map e_key es) -> NoDup (map e_key (remove_key k es)).
  Proof.
    intros k es. induction es as [|e es IH]; simpl; intro H; [constructor|].
    inversion H as [|? ? Hn Hd]; subst.
    destruct (has_key k e); simpl; [apply IH; exact Hd|].
    constructor; [|apply IH; exact Hd].
    intro Hin. apply Hn. apply in_map_iff in Hin. destruct Hin as [x [Ex Hx]].
    apply in_map_iff. exists x. split; [exact Ex|]. eapply remove_key_In. exact Hx.
  Qed.

  Lemma remove_key_notin : forall k es, ~ In k (map e_key (remove_key k es)).
  Proof.
    intros k es Hin. apply in_map_iff in Hin. destruct Hin as [x [Ex Hx]].
    apply remove_key_not in Hx. congruence.
  Qed.

  Section Evict.
    Variable victim : list (entry R) -> bytes.
    Hypothesis victim_present : forall es, es <> [] -> In (victim es) (map e_key es).

    Lemma evict_In : forall fuel max es e, In e (evict victim fuel max es) -> In e es.
    Proof.
      induction fuel as [|f IH]; intros max es e H; simpl in H; [exact H|].
      destruct (max <? nlen es); [|exact H].
      apply IH in H. eapply remove_key_In. exact H.
    Qed.

    Lemma evict_NoDup : forall fuel max es, NoDup (map e_key es) -> NoDup (map e_key (evict victim fuel max es)).
    Proof.
      induction fuel as [|f IH]; intros max es H; simpl; [exact H|].
      destruct (max <? nlen es); [|exact H]. apply IH. apply remove_key_NoDup. exact H.
    Qed.

    Lemma evict_bound : forall fuel max es, (length es <= fuel)%nat -> nlen (evict victim fuel max es) <= max.
    Proof.
      induction fuel as [|f IH]; intros max es H; simpl.
      - destruct es; simpl in H; [|lia]. unfold nlen. simpl. lia.
      - destruct (max <? nlen es) eqn:E.
        + apply IH. assert (Hne : es <> []).
          { intro Z. subst es. unfold nlen in E. simpl in E. apply N.ltb_lt in E. lia. }
          pose proof (remove_key_length_lt _ _ (victim_present es Hne)). lia.
        + apply N.ltb_ge in E. exact E.
    Qed.
  End Evict.
End Entries.

Section Machine.
  Context {R A : Type}.
  Variable hash : bytes -> bytes.
  Variable fresh : cfg -> req -> R.
  Variable ok : R -> bool.
  Variable synth : req -> A.
  Variable no_synth : A.
  Variable victim : list (entry R) -> bytes.
  Hypothesis victim_present : forall es, es <> [] -> In (victim es) (map e_key es).

  Notation get := (get hash fresh ok synth no_synth victim).
  Notation step := (step hash fresh ok synth no_synth victim).
  Notation run_from := (run_from hash fresh ok synth no_synth victim).
  Notation run := (run hash fresh ok synth no_synth victim).
  Notation key := (key hash).
  Notation own_synth := (own_synth hash synth no_synth).
  Notation store := (store victim).

  Lemma run_from_acc : forall c h s acc,
    fold_left (fun acc o => let '(s1, xs) := step c (fst acc) o in (s1, snd acc ++ xs)) h (s, acc)
    = (fst (run_from c s h), acc ++ snd (run_from c s h)).
  Proof.
    intros c h. unfold LRU.run_from. induction h as [|o h IH]; intros s acc; simpl.
    - rewrite app_nil_r. reflexivity.
    - destruct (step c s o) as [s1 xs] eqn:E. simpl.
      rewrite (IH s1 (acc ++ xs)). rewrite (IH s1 xs). simpl.
      rewrite app_assoc. reflexivity.
  Qed.

  Lemma run_from_nil : forall c s, run_from c s [] = (s, []).
  Proof. reflexivity. Qed.

  Lemma run_from_cons : forall c s o h,
    run_from c s (o :: h) =
    (fst (run_from c (fst (step c s o)) h), snd (step c s o) ++ snd (run_from c (fst (step c s o)) h)).
  Proof.
    intros c s o h. unfold LRU.run_from at 1. simpl.
    destruct (step c s o) as [s1 xs] eqn:E. simpl. apply run_from_acc.
  Qed.

  Lemma step_get : forall c s r, step c s (OGet r) = (fst (get c s r), [snd (get c s r)]).
  Proof. intros. unfold LRU.step. destruct (get c s r). reflexivity. Qed.

  Lemma run_invariant : forall (c : cfg) (I : state R -> Prop) (P : req -> out R A -> Prop),
    (forall s r, I s -> I (fst (get c s r)) /\ P r (snd (get c s r))) ->
    (forall s, I s -> I (reset s)) ->
    forall h s, I s -> I (fst (run_from c s h)) /\ Forall2 P (gets h) (snd (run_from c s h)).
  Proof.
    intros c I P Hget Hreset. induction h as [|o h IH]; intros s Hs.
    - rewrite run_from_nil. simpl. split; [exact Hs|constructor].
    - rewrite run_from_cons. destruct o as [r|]; simpl gets.
      + rewrite step_get. simpl fst. simpl snd.
        destruct (Hget s r Hs) as [H1 H2]. destruct (IH _ H1) as [H3 H4].
        split; [exact H3|]. simpl. constructor; assumption.
      + simpl. apply IH. apply Hreset. exact Hs.
  Qed.

  Lemma lookup_entries_In : forall (s : state R) sch k e, In e (entries (fst (lookup s sch k))) -> In e (entries s).
  Proof.
    intros s sch k e. unfold lookup. destruct (find_key k (entries s)) as [e0|] eqn:F; simpl; [|tauto].
    destruct (e_schema e0 =? sch); simpl.
    - intros [H|H]; [subst; apply (find_key_some _ _ _ F)|eapply remove_key_In; exact H].
    - apply remove_key_In.
  Qed.

  Lemma lookup_length : forall (s : state R) sch k, (length (entries (fst (lookup s sch k))) <= length (entries s))%nat.
  Proof.
    intros s sch k. unfold lookup. destruct (find_key k (entries s)) as [e0|] eqn:F; simpl; [|lia].
    destruct (find_key_some _ _ _ F) as [Hin Hk].
    assert (In k (map e_key (entries s))) by (subst k; apply in_map; exact Hin).
    pose proof (remove_key_length_lt _ _ H).
    destruct (e_schema e0 =? sch); simpl; lia.
  Qed.

  Lemma lookup_NoDup : forall (s : state R) sch k, NoDup (map e_key (entries s)) ->
    NoDup (map e_key (entries (fst (lookup s sch k)))).
  Proof.
    intros s sch k H. unfold lookup. destruct (find_key k (entries s)) as [e0|] eqn:F; simpl; [|exact H].
    destruct (find_key_some _ _ _ F) as [Hin Hk].
    destruct (e_schema e0 =? sch); simpl.
    - constructor; [rewrite Hk; apply remove_key_notin|apply remove_key_NoDup; exact H].
    - apply remove_key_NoDup; exact H.
  Qed.

  Lemma lookup_hit : forall (s : state R) sch k s1 v, lookup s sch k = (s1, Some v) ->
    exists e, In e (entries s) /\ e_key e = k /\ e_schema e = sch /\ e_res e = v.
  Proof.
    intros s sch k s1 v. unfold lookup. destruct (find_key k (entries s)) as [e0|] eqn:F; [|discriminate].
    destruct (e_schema e0 =? sch) eqn:Es; [|discriminate].
    intro H. injection H as _ Hv. exists e0. destruct (find_key_some _ _ _ F). apply N.eqb_eq in Es. tauto.
  Qed.

  Lemma lookup_miss_absent : forall (s : state R) sch k s1, lookup s sch k = (s1, None) ->
    ~ In k (map e_key (entries s1)).
  Proof.
    intros s sch k s1. unfold lookup. destruct (find_key k (entries s)) as [e0|] eqn:F.
    - destruct (e_schema e0 =? sch); [discriminate|]. intro H. injection H as H. subst s1. simpl.
      apply remove_key_notin.
    - intro H. injection H as H. subst s1. simpl. apply find_key_none. exact F.
  Qed.

  Lemma lookup_counts : forall (s : state R) sch k,
    let s1 := fst (lookup s sch k) in
    match snd (lookup s sch k) with
    | Some _ => hits s1 = hits s + 1 /\ misses s1 = misses s
    | None => hits s1 = hits s /\ misses s1 = misses s + 1
    end.
  Proof.
    intros s sch k. unfold lookup. destruct (find_key k (entries s)) as [e0|]; simpl; [|tauto].
    destruct (e_schema e0 =? sch); simpl; tauto.
  Qed.

  Lemma store_entries_In : forall c (s : state R) sch k v,
    incl (entries (store c s sch k v)) (mkE k sch v :: entries s).
  Proof.
    intros c s sch k v e. unfold LRU.store. destruct (find_key k (entries s)); cbn [entries].
    - intros [H|H]; [left; exact H|right; eapply remove_key_In; exact H].
    - apply evict_In.
  Qed.

  Lemma store_counts : forall c (s : state R) sch k v, hits (store c s sch k v) = hits s /\ misses (store c s sch k v) = misses s.
  Proof. intros. unfold LRU.store. destruct (find_key k (entries s)); simpl; tauto. Qed.

  Lemma store_bound : forall c (s : state R) sch k v, nlen (entries s) <= eff_max c ->
    nlen (entries (store c s sch k v)) <= eff_max c.
  Proof.
    intros c s sch k v Hb. unfold LRU.store. destruct (find_key k (entries s)) as [e0|] eqn:F; cbn [entries].
    - destruct (find_key_some _ _ _ F) as [Hin Hk].
      assert (In k (map e_key (entries s))) by (subst k; apply in_map; exact Hin).
      pose proof (remove_key_length_lt _ _ H). unfold nlen in *. simpl. lia.
    - apply (evict_bound victim victim_present). simpl. lia.
  Qed.

  Lemma store_NoDup : forall c (s : state R) sch k v, NoDup (map e_key (entries s)) ->
    NoDup (map e_key (entries (store c s sch k v))).
  Proof.
    intros c s sch k v H. unfold LRU.store. destruct (find_key k (entries s)) as [e0|] eqn:F; cbn [entries].
    - constructor; [apply remove_key_notin|apply remove_key_NoDup; exact H].
    - apply evict_NoDup. simpl. constructor; [apply find_key_none; exact F|exact H].
  Qed.

  Lemma get_bound : forall c s r, bounded c s -> bounded c (fst (get c s r)).
  Proof.
    intros c s r Hb. unfold bounded in *. unfold LRU.get. destruct (key c r) as [k|]; [|exact Hb].
    pose proof (lookup_length s (rq_schema r) k) as HL.
    destruct (lookup s (rq_schema r) k) as [s1 [v|]]; simpl in *.
    - unfold nlen in *. lia.
    - apply store_bound. unfold nlen in *. lia.
  Qed.

  Lemma bound_from_any_bounded_state : forall c h s, bounded c s -> bounded c (fst (run_from c s h)).
  Proof.
    intros c h s Hs.
    apply (run_invariant c (bounded c) (fun _ _ => True)); try exact Hs.
    - intros s0 r H0. split; [apply get_bound; exact H0|exact I].
    - intros s0 _. unfold bounded, reset, nlen. simpl. lia.
  Qed.

  Lemma bound_all_histories : forall c h, bounded c (fst (run c h)).
  Proof. intros c h. apply bound_from_any_bounded_state. unfold bounded, init, nlen. simpl. lia. Qed.

  Lemma nodup_all_histories : forall c h, NoDup (map e_key (entries (fst (run c h)))).
  Proof.
    intros c h. unfold LRU.run.
    apply (run_invariant c (fun s => NoDup (map e_key (entries s))) (fun _ _ => True)).
    - intros s r Hs. split; [|exact I]. unfold LRU.get. destruct (key c r) as [k|]; [|exact Hs].
      pose proof (lookup_NoDup s (rq_schema r) k Hs) as HL.
      destruct (lookup s (rq_schema r) k) as [s1 [v|]]; simpl in *; [exact HL|].
      apply store_NoDup. exact HL.
    - intros s _. simpl. constructor.
    - simpl. constructor.
  Qed.

  Lemma get_faithful : forall c s r, key_faithful hash fresh c -> faithful_state hash fresh c s ->
    faithful_state hash fresh c (fst (get c s r)) /\ o_res (snd (get c s r)) = fresh c r.
  Proof.
    intros c s r KF Hs. unfold faithful_state in *. unfold LRU.get.
    destruct (key c r) as [k|] eqn:K; [|split; [exact Hs|reflexivity]].
    pose proof (incl_Forall (lookup_entries_In s (rq_schema r) k) Hs) as Hs1.
    destruct (lookup s (rq_schema r) k) as [s1 [v|]] eqn:L; simpl in *.
    - split; [exact Hs1|]. apply lookup_hit in L. destruct L as [e [Hin [Hk [Hsch Hv]]]].
      rewrite Forall_forall in Hs. destruct (Hs e Hin) as [r0 [K0 [S0 V0]]].
      rewrite <- Hv, V0. apply (KF r0 r k); congruence.
    - split; [|reflexivity]. apply (incl_Forall (store_entries_In c s1 (rq_schema r) k (fresh c r))).
      constructor; [exists r; simpl; auto|exact Hs1].
  Qed.

  Lemma faithful_from : forall c h s, key_faithful hash fresh c -> faithful_state hash fresh c s ->
    faithful_state hash fresh c (fst (run_from c s h)) /\
    Forall2 (fun r o => o_res o = fresh c r) (gets h) (snd (run_from c s h)).
  Proof.
    intros c h s KF.
    exact (run_invariant c _ _ (fun s0 r H0 => get_faithful c s0 r KF H0) (fun s0 _ => Forall_nil _) h s).
  Qed.

  Lemma refines_uncached_from : forall c h s, key_faithful hash fresh c -> faithful_state hash fresh c s ->
    map (@o_res R A) (snd (run_from c s h)) = spec_outs fresh c h.
  Proof.
    intros c h s KF Hs. destruct (faithful_from c h s KF Hs) as [_ HF].
    unfold spec_outs. induction HF as [|r o rs os E _ IH]; simpl; [reflexivity|].
    rewrite E, IH. reflexivity.
  Qed.

  Lemma refines_uncached : forall c h, key_faithful hash fresh c ->
    map (@o_res R A) (snd (run c h)) = spec_outs fresh c h.
  Proof. intros c h KF. apply refines_uncached_from; [exact KF|constructor]. Qed.

  Lemma faithful_all_histories : forall c h, key_faithful hash fresh c ->
    faithful_state hash fresh c (fst (run c h)).
  Proof. intros c h KF. apply faithful_from; [exact KF|constructor]. Qed.

  Lemma get_own_synth : forall c s r,
    (ok (o_res (snd (get c s r))) = true -> o_synth (snd (get c s r)) = own_synth c r) /\
    (o_synth (snd (get c s r)) = own_synth c r \/ o_synth (snd (get c s r)) = no_synth).
  Proof.
    intros c s r. unfold LRU.get. destruct (key c r) as [k|] eqn:K.
    - destruct (lookup s (rq_schema r) k) as [s1 [v|]]; simpl.
      + split; [reflexivity|left; reflexivity].
      + destruct (ok (fresh c r)); split; intros; try reflexivity; try discriminate; auto.
    - simpl. unfold LRU.own_synth. rewrite K. split; [reflexivity|left; reflexivity].
  Qed.

  Lemma own_literals_all_histories : forall c h,
    Forall2 (fun r o => (ok (o_res o) = true -> o_synth o = own_synth c r) /\
                        (o_synth o = own_synth c r \/ o_synth o = no_synth))
            (gets h) (snd (run c h)).
  Proof.
    intros c h. unfold LRU.run.
    apply (run_invariant c (fun _ => True)
             (fun r o => (ok (o_res o) = true -> o_synth o = own_synth c r) /\
                         (o_synth o = own_synth c r \/ o_synth o = no_synth))); auto.
    intros s r _. split; [exact I|apply get_own_synth].
  Qed.

  Definition is_hit (o : out R A) : bool := match o_hit o with Some true => true | _ => false end.
  Definition is_miss (o : out R A) : bool := match o_hit o with Some false => true | _ => false end.
  Definition count (f : out R A -> bool) (l : list (out R A)) : N := nlen (filter f l).

  Lemma count_app : forall f l1 l2, count f (l1 ++ l2) = count f l1 + count f l2.
  Proof. intros. unfold count, nlen. rewrite filter_app, app_length. lia. Qed.

  Lemma get_counts : forall c s r,
    hits (fst (get c s r)) = hits s + count is_hit [snd (get c s r)] /\
    misses (fst (get c s r)) = misses s + count is_miss [snd (get c s r)] /\
    (o_hit (snd (get c s r)) = None <-> key c r = None).
  Proof.
    intros c s r. unfold LRU.get, count, is_hit, is_miss, nlen. destruct (key c r) as [k|] eqn:K.
    - pose proof (lookup_counts s (rq_schema r) k) as HC.
      destruct (lookup s (rq_schema r) k) as [s1 [v|]]; simpl in *;
        [|destruct (store_counts c s1 (rq_schema r) k (fresh c r)) as [-> ->]];
        repeat split; try lia; intro; discriminate.
    - simpl. repeat split; lia.
  Qed.

  Lemma counters_from : forall c h s,
    hits (fst (run_from c s h)) = hits s + count is_hit (snd (run_from c s h)) /\
    misses (fst (run_from c s h)) = misses s + count is_miss (snd (run_from c s h)).
  Proof.
    intros c. induction h as [|o h IH]; intro s.
    - rewrite run_from_nil. split; symmetry; apply N.add_0_r.
    - rewrite run_from_cons. simpl fst. simpl snd. rewrite !count_app.
      destruct (IH (fst (step c s o))) as [H1 H2]. rewrite H1, H2.
      destruct o as [r|].
      + rewrite step_get. simpl fst. simpl snd.
        destruct (get_counts c s r) as [G1 [G2 _]]. rewrite G1, G2. split; symmetry; apply N.add_assoc.
      + split; reflexivity.
  Qed.

  Lemma counters_all_histories : forall c h,
    hits (fst (run c h)) = count is_hit (snd (run c h)) /\
    misses (fst (run c h)) = count is_miss (snd (run c h)) /\
    Forall2 (fun r o => o_hit o = None <-> key c r = None) (gets h) (snd (run c h)).
  Proof.
    intros c h. unfold LRU.run. destruct (counters_from c h init) as [H1 H2]. simpl in H1, H2.
    split; [exact H1|split; [exact H2|]].
    apply (run_invariant c (fun _ => True) (fun r o => o_hit o = None <-> key c r = None)); auto.
    intros s r _. split; [exact I|apply get_counts].
  Qed.

  Lemma reset_then_get : forall c s r,
    entries (reset s) = [] /\ hits (reset s) = hits s /\ misses (reset s) = misses s /\
    o_res (snd (get c (reset s) r)) = fresh c r /\
    (key c r <> None -> o_hit (snd (get c (reset s) r)) = Some false).
  Proof.
    intros c s r. repeat split.
    - unfold LRU.get. destruct (key c r) as [k|]; [|reflexivity]. reflexivity.
    - intro Hk. unfold LRU.get. destruct (key c r) as [k|]; [|congruence]. reflexivity.
  Qed.

End Machine.

Section Policies.
  Context {R A : Type}.
  Variable hash : bytes -> bytes.
  Variable fresh : cfg -> req -> R.
  Variable ok : R -> bool.
  Variable synth : req -> A.
  Variable no_synth : A.

  Lemma results_policy_independent : forall (v1 v2 : list (entry R) -> bytes) c h, key_faithful hash fresh c ->
    map (@o_res R A) (snd (run hash fresh ok synth no_synth v1 c h)) =
    map (@o_res R A) (snd (run hash fresh ok synth no_synth v2 c h)).
  Proof. intros v1 v2 c h KF. rewrite !refines_uncached by exact KF. reflexivity. Qed.

  (* the code's policy is an instance *)
  Lemma last_key_present : forall (es : list (entry R)), es <> [] -> In (last_key es) (map e_key es).
  Proof.
    induction es as [|e es IH]; intro H; [congruence|].
    destruct es as [|e2 es]; [simpl; left; reflexivity|].
    right. apply IH. discriminate.
  Qed.
End Policies.

Section Keys.
  Variable hash : bytes -> bytes.
  Hypothesis hash_inj : forall a b, hash a = hash b -> a = b.
  Hypothesis hash_not_raw : forall a, firstn 4 (hash a) <> raw_tag.

  Lemma key_some_cached : forall c r k, key hash c r = Some k -> cached_path c r = true.
  Proof. intros c r k. unfold key. destruct (cached_path c r); simpl; [reflexivity|discriminate]. Qed.

  Lemma key_determines : forall c r1 r2 k,
    key hash c r1 = Some k -> key hash c r2 = Some k ->
    rq_op r1 = rq_op r2 /\ canon c r1 = canon c r2.
  Proof.
    intros c r1 r2 k K1 K2.
    pose proof (key_some_cached _ _ _ K1) as P1. pose proof (key_some_cached _ _ _ K2) as P2.
    unfold key in K1, K2. unfold canon. rewrite P1, P2 in *. simpl in *.
    destruct (c_norm c); simpl in *.
    - destruct (rq_class r1) as [| |t1|]; try discriminate K1;
      destruct (rq_class r2) as [| |t2|]; try discriminate K2;
      injection K1 as K1; injection K2 as K2; subst k; apply lenprefix_inj in K2; destruct K2 as [Eo Et].
      + apply hash_inj in Et. rewrite Eo in Et. apply app_inv_head in Et. injection Et as Et.
        split; congruence.
      + exfalso. apply (hash_not_raw (rq_op r1 ++ 0 :: t1)). rewrite <- Et. reflexivity.
      + exfalso. apply (hash_not_raw (rq_op r2 ++ 0 :: t2)). rewrite Et. reflexivity.
      + injection Et as Et. split; congruence.
    - injection K1 as K1; injection K2 as K2; subst k; apply lenprefix_inj in K2; destruct K2 as [Eo Et].
      split; congruence.
  Qed.

  (* whatever planning computes from (schema, operation name, canonical text),
     equal keys under one schema give equal results *)
  Lemma factored_fresh_faithful : forall (R : Type) (planner : N -> bytes -> ctext -> R) c,
    key_faithful hash (fun c r => planner (rq_schema r) (rq_op r) (canon c r)) c.
  Proof.
    intros R planner c r1 r2 k K1 K2 S. destruct (key_determines c r1 r2 k K1 K2) as [Eo Ec].
    rewrite S, Eo, Ec. reflexivity.
  Qed.
End Keys.

Section PreparedProofs.
  Context {S SP V Root Res : Type}.
  Variable init_slot : S -> slot -> SP.
  Variable body : S -> V -> Root -> @prog SP Res.

  Notation interp := (interp init_slot).
  Notation pure_eval := (pure_eval init_slot).
  Notation exec := (exec init_slot body).
  Notation exec_many := (exec_many init_slot body).
  Notation fresh_exec := (fresh_exec init_slot body).
  Notation consistent := (consistent init_slot).

  Lemma find_slot_In : forall sl (m : @memo SP) sp, find_slot sl m = Some sp -> In (sl, sp) m.
  Proof.
    intros sl m sp H. unfold find_slot in H.
    destruct (find (fun e => fst e =? sl) m) as [e|] eqn:F; [|discriminate].
    injection H as <-. apply find_some in F. destruct F as [Hin E]. apply N.eqb_eq in E.
    destruct e as [a b]. simpl in *. subst a. exact Hin.
  Qed.

  (* whatever consistent content the slots already have -- left by earlier
     executions or by concurrent ones -- the result is the slot-free result,
     and the slots stay consistent *)
  Lemma interp_consistent : forall s (p : @prog SP Res) m, consistent s m ->
    fst (interp s m p) = pure_eval s p /\ consistent s (snd (interp s m p)).
  Proof.
    intros s. induction p as [r|sl k IH]; intros m Hm; simpl.
    - split; [reflexivity|exact Hm].
    - destruct (find_slot sl m) as [sp|] eqn:F.
      + apply find_slot_In in F. rewrite (Hm _ _ F). apply IH. exact Hm.
      + apply IH. intros sl' sp' [E|Hin]; [injection E as <- <-; reflexivity|apply Hm; exact Hin].
  Qed.

  Lemma consistent_nil : forall s, consistent s [].
  Proof. intros s sl sp []. Qed.

  Lemma fresh_is_pure : forall s v root, fresh_exec s v root = pure_eval s (body s v root).
  Proof. intros. unfold Prepared.fresh_exec, Prepared.exec. apply interp_consistent. apply consistent_nil. Qed.

  Lemma exec_many_fresh : forall s runs m, consistent s m ->
    fst (exec_many s m runs) = map (fun vr => fresh_exec s (fst vr) (snd vr)) runs /\
    consistent s (snd (exec_many s m runs)).
  Proof.
    intros s. induction runs as [|[v root] t IH]; intros m Hm; simpl.
    - split; [reflexivity|exact Hm].
    - destruct (exec s m v root) as [r m1] eqn:E1.
      destruct (interp_consistent s (body s v root) m Hm) as [Hr Hm1].
      unfold Prepared.exec in E1. rewrite E1 in Hr, Hm1. simpl in Hr, Hm1.
      destruct (exec_many s m1 t) as [rs m2] eqn:E2.
      destruct (IH m1 Hm1) as [Hrs Hm2]. rewrite E2 in Hrs, Hm2. simpl in *.
      split; [|exact Hm2]. rewrite Hrs, Hr, fresh_is_pure. reflexivity.
  Qed.
End PreparedProofs.

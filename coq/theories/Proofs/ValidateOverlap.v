(* The A-J decomposition of the overlap rule accepts exactly what the brute-force
   pairwise check accepts (acyclic documents): L2 <-> L1, for the full selection syntax
   (inline fragments, arguments, parent types / exclusivity flag, type conflicts). *)
From Coq Require Import List Lia Bool String ZArith.
From GQL Require Import Exec.Syntax Validate.Overlap Validate.OverlapSpec Proofs.ValidateRules.
Import ListNotations.

(* Induction over selection lists: the sub-selection of the head and the tail are both smaller
   (dfields, sets_of, sel_lists, ... are functions of lists). *)
Section SelsInd.
Variable P : list selection -> Prop.
Hypothesis P_nil : P [].
Hypothesis P_field : forall id al nm args ds sub r, P sub -> P r -> P (SField id al nm args ds sub :: r).
Hypothesis P_spread : forall id g ds r, P r -> P (SSpread id g ds :: r).
Hypothesis P_inline : forall id tc ds sub r, P sub -> P r -> P (SInline id tc ds sub :: r).

Fixpoint sel_cons_ind (x : selection) : forall r, P r -> P (x :: r) :=
  let fix go (l : list selection) : P l :=
    match l with [] => P_nil | y :: t => sel_cons_ind y t (go t) end in
  match x with
  | SField id al nm args ds sub => fun r => P_field id al nm args ds sub r (go sub)
  | SSpread id g ds => P_spread id g ds
  | SInline id tc ds sub => fun r => P_inline id tc ds sub r (go sub)
  end.

Fixpoint sels_ind (ss : list selection) : P ss :=
  match ss with [] => P_nil | x :: r => sel_cons_ind x r (sels_ind r) end.
End SelsInd.

Lemma dfields_cons : forall S pt x r, dfields S pt (x :: r) = dfields_sel S pt x ++ dfields S pt r.
Proof. reflexivity. Qed.

Section SelInd.
Variable P : selection -> Prop.
Hypothesis Hf : forall id al nm args ds sub, Forall P sub -> P (SField id al nm args ds sub).
Hypothesis Hs : forall id g ds, P (SSpread id g ds).
Hypothesis Hi : forall id tc ds sub, Forall P sub -> P (SInline id tc ds sub).
Fixpoint selection_ind' (s : selection) : P s :=
  match s with
  | SField id al nm args ds sub =>
    Hf id al nm args ds sub
       ((fix go (l : list selection) : Forall P l :=
           match l with
           | [] => Forall_nil P
           | x :: r => Forall_cons x (selection_ind' x) (go r)
           end) sub)
  | SSpread id g ds => Hs id g ds
  | SInline id tc ds sub =>
    Hi id tc ds sub
       ((fix go (l : list selection) : Forall P l :=
           match l with
           | [] => Forall_nil P
           | x :: r => Forall_cons x (selection_ind' x) (go r)
           end) sub)
  end.
End SelInd.

Lemma dfields_inline : forall S pt id tc ds sub,
  dfields_sel S pt (SInline id tc ds sub) = dfields S (inline_pt S pt tc) sub.
Proof.
  intros. unfold dfields. simpl. induction sub as [|x r IH]; simpl; [reflexivity|].
  rewrite IH. reflexivity.
Qed.

Lemma dspreads_inline : forall id tc ds sub,
  dspreads_sel (SInline id tc ds sub) = dspreads_raw sub.
Proof.
  intros. unfold dspreads_raw. simpl. induction sub as [|x r IH]; simpl; [reflexivity|].
  rewrite IH. reflexivity.
Qed.

Lemma all_spreads_inline : forall id tc ds sub,
  all_spreads_sel (SInline id tc ds sub) = all_spreads sub.
Proof.
  intros. unfold all_spreads. simpl. induction sub as [|x r IH]; simpl; [reflexivity|].
  rewrite IH. reflexivity.
Qed.

Lemma all_spreads_field : forall id al nm args ds sub,
  all_spreads_sel (SField id al nm args ds sub) = all_spreads sub.
Proof.
  intros. unfold all_spreads. simpl. induction sub as [|x r IH]; simpl; [reflexivity|].
  rewrite IH. reflexivity.
Qed.

Lemma dspreads_raw_cons : forall x r, dspreads_raw (x :: r) = dspreads_sel x ++ dspreads_raw r.
Proof. reflexivity. Qed.

Lemma all_spreads_cons : forall x r, all_spreads (x :: r) = all_spreads_sel x ++ all_spreads r.
Proof. reflexivity. Qed.

Lemma dspreads_occ : forall ss g, In g (dspreads_raw ss) -> In g (all_spreads ss).
Proof.
  induction ss as [| id al nm args ds sub r _ IHr | id h ds r IHr | id tc ds sub r IHs IHr] using sels_ind;
    intros g H; [destruct H | | |]; rewrite dspreads_raw_cons in H; rewrite all_spreads_cons; apply in_or_app.
  - right. apply IHr, H.
  - destruct H as [H|H]; [left; left; exact H | right; apply IHr, H].
  - rewrite dspreads_inline in H. rewrite all_spreads_inline. apply in_app_or in H. destruct H; auto.
Qed.

Lemma dfields_occ : forall S pt ss e h,
  In e (dfields S pt ss) -> In h (all_spreads (fe_sub e)) -> In h (all_spreads ss).
Proof.
  intros S pt ss. revert pt.
  induction ss as [| id al nm args ds sub r _ IHr | id g ds r IHr | id tc ds sub r IHs IHr] using sels_ind;
    intros pt e h He Hh; [destruct He | | |]; rewrite dfields_cons in He; rewrite all_spreads_cons; apply in_or_app.
  - rewrite all_spreads_field. destruct He as [He|He]; [subst e; left; exact Hh | right; apply (IHr pt e h He Hh)].
  - right. apply (IHr pt e h He Hh).
  - rewrite all_spreads_inline. rewrite dfields_inline in He. apply in_app_or in He.
    destruct He as [He|He]; [left; apply (IHs _ e h He Hh) | right; apply (IHr pt e h He Hh)].
Qed.

Lemma last_fragment_skip : forall g fs acc, (forall y, In y fs -> fr_name y <> g) -> last_fragment g fs acc = acc.
Proof.
  intros g fs. induction fs as [|x r IH]; intros acc H; [reflexivity|]. simpl.
  destruct (String.eqb g (fr_name x)) eqn:E.
  - apply String.eqb_eq in E. exfalso. apply (H x (or_introl eq_refl)). symmetry. exact E.
  - apply IH. intros y Hy. apply H. right. exact Hy.
Qed.

Section Decomp.
Variable S : schema.
Variable D : document.
Variable base : bool -> fentry -> fentry -> bool.
Hypothesis base_sym : forall ex a b, base ex a b = base ex b a.
Hypothesis base_mono : forall a b, base false a b = true -> base true a b = true.

Notation fields := (fields S).
Notation fbody := (fbody S D).
Notation EF := (EF S D).
Notation compat := (compat S D base).
Notation L1 := (L1 S D base).
Notation fc := (fc S D base).
Notation subsets := (subsets S D base).
Notation FF := (FF S D base).
Notation FrFr := (FrFr S D base).
Notation within := (within S D base).
Notation exf := (exf S).

Lemma excl_sym : forall a b, excl S a b = excl S b a.
Proof.
  intros a b. unfold excl.
  assert (E: pt_eqb (fe_pt a) (fe_pt b) = pt_eqb (fe_pt b) (fe_pt a)).
  { unfold pt_eqb. destruct (fe_pt a), (fe_pt b); try reflexivity. apply String.eqb_sym. }
  rewrite E. destruct (pt_is_object S (fe_pt a)), (pt_is_object S (fe_pt b)), (pt_eqb (fe_pt b) (fe_pt a)); reflexivity.
Qed.

Lemma exf_sym : forall fl a b, exf fl a b = exf fl b a.
Proof. intros. unfold OverlapSpec.exf. rewrite excl_sym. reflexivity. Qed.

Lemma subs_sym : forall a b, subs a b -> subs b a.
Proof. intros a b [H1 H2]. split; assumption. Qed.

Lemma base_mono' : forall fl a b, base (exf false a b) a b = true -> base (exf fl a b) a b = true.
Proof.
  intros fl a b H. unfold OverlapSpec.exf in *. destruct fl; simpl in *; [|exact H].
  destruct (excl S a b); [exact H | apply base_mono; exact H].
Qed.

Lemma compat_sym : forall fl a b, compat fl a b -> compat fl b a.
Proof.
  induction 1 as [fl a b Hb H IH]. constructor.
  - rewrite exf_sym, base_sym. exact Hb.
  - intros Hs a' b' Ha Hb' Hk. rewrite exf_sym. apply IH; auto using subs_sym.
Qed.

Lemma compat_mono : forall fl a b, compat fl a b -> forall fl', (fl = true -> fl' = true) -> compat fl' a b.
Proof.
  induction 1 as [fl a b Hb H IH]. intros fl' Hle. constructor.
  - destruct fl.
    + rewrite (Hle eq_refl). exact Hb.
    + destruct fl'; [apply base_mono'; exact Hb | exact Hb].
  - intros Hs a' b' Ha Hb' Hk. apply (IH Hs a' b' Ha Hb' Hk).
    intro E. unfold OverlapSpec.exf in *. destruct fl; simpl in *.
    + rewrite (Hle eq_refl). reflexivity.
    + rewrite E. apply orb_true_r.
Qed.

Scheme fc_ind' := Induction for OverlapSpec.fc Sort Prop
with subsets_ind' := Induction for OverlapSpec.subsets Sort Prop
with FF_ind' := Induction for OverlapSpec.FF Sort Prop
with FrFr_ind' := Induction for OverlapSpec.FrFr Sort Prop.
Combined Scheme L2_mutind from fc_ind', subsets_ind', FF_ind', FrFr_ind'.

Lemma within_iff_subsets : forall s, within s <-> subsets false s s.
Proof.
  intro s. split; [intros (H1 & H2 & H3); constructor; assumption|].
  intro H. inversion H; subst. split; [|split]; assumption.
Qed.

Variable rk : name -> nat.
Hypothesis Hrk : ranked S D rk.
Notation bounded := (bounded rk).

Lemma bounded_mono : forall n m ss, n <= m -> bounded n ss -> bounded m ss.
Proof. intros n m ss L B g O. specialize (B g O). lia. Qed.

Lemma bounded_sub : forall n s e, bounded n (snd s) -> In e (fields s) -> bounded n (fe_sub e).
Proof.
  intros n s e B I g O. apply B. unfold Occ in *. unfold OverlapSpec.fields in I.
  eapply dfields_occ; eauto.
Qed.

Lemma bounded_spread : forall n s g, bounded n (snd s) -> In g (frs s) -> rk g < n.
Proof. intros n s g B I. apply B. unfold Occ. apply dspreads_occ. exact I. Qed.

Lemma bounded_body : forall n g b, fbody g = Some b -> rk g < n -> bounded n (snd b).
Proof. intros n g b E L. eapply bounded_mono; [|apply (Hrk g b E)]. lia. Qed.

Lemma rank_spread : forall g b h, fbody g = Some b -> In h (frs b) -> rk h < rk g.
Proof. intros g b h E Hin. apply (Hrk g b E h), dspreads_occ, Hin. Qed.

Lemma EF_bounded : forall n s e, EF s e -> bounded n (snd s) -> bounded n (fe_sub e).
Proof.
  induction 1 as [s e Hin | s g b e Hin Eb He IH]; intros B.
  - apply (bounded_sub n s e B Hin).
  - apply IH, (bounded_body n g b Eb), (bounded_spread n s g B Hin).
Qed.

Section L2_to_L1.
Variable n : nat.
Hypothesis frag_ok : forall h b, fbody h = Some b -> rk h < n -> L1 b.

Lemma cover :
  (forall fl a b, fc fl a b -> bounded n (fe_sub a) -> bounded n (fe_sub b) -> compat fl a b) /\
  (forall fl s1 s2, subsets fl s1 s2 -> bounded n (snd s1) -> bounded n (snd s2) ->
      forall a b, EF s1 a -> EF s2 b -> fe_key a = fe_key b -> compat fl a b) /\
  (forall fl s g, FF fl s g -> bounded n (snd s) -> rk g < n ->
      forall a bd b, In a (fields s) -> fbody g = Some bd -> EF bd b -> fe_key a = fe_key b -> compat fl a b) /\
  (forall fl g1 g2, FrFr fl g1 g2 -> rk g1 < n -> rk g2 < n ->
      forall b1 b2 a b, fbody g1 = Some b1 -> fbody g2 = Some b2 ->
                        EF b1 a -> EF b2 b -> fe_key a = fe_key b -> compat fl a b).
Proof.
  apply L2_mutind.
  - intros fl a b Hb Hs IH B1 B2. constructor; [exact Hb|].
    intros Hsub a' b' Ha Hb' Hk. eapply (IH Hsub); eauto.
  - intros fl s1 s2 Hdd IHdd Hf2 IHf2 Hf1 IHf1 Hff IHff B1 B2 a b Ha Hb Hk.
    destruct Ha as [s1 a Hin1 | s1 g1 b1 a Hin1 E1 Ha1]; destruct Hb as [s2 b Hin2 | s2 g2 b2 b Hin2 E2 Hb2].
    + apply IHdd; auto; [apply (bounded_sub n s1 a B1 Hin1) | apply (bounded_sub n s2 b B2 Hin2)].
    + apply (IHf2 g2 Hin2 B1 (bounded_spread _ _ _ B2 Hin2) a b2 b); auto.
    + apply compat_sym. apply (IHf1 g1 Hin1 B2 (bounded_spread _ _ _ B1 Hin1) b b1 a); auto.
    + apply (IHff g1 g2 Hin1 Hin2 (bounded_spread _ _ _ B1 Hin1) (bounded_spread _ _ _ B2 Hin2) b1 b2); auto.
  - intros fl s g E B L a bd b Ha Ebd Hb Hk. rewrite E in Ebd. discriminate.
  - intros fl s g E B L a bd b Ha Ebd Hb Hk.
    rewrite E in Ebd. inversion Ebd; subst bd.
    apply (compat_mono false); [|discriminate].
    apply (frag_ok g s E L); auto. apply EF_d. exact Ha.
  - intros fl s g bd0 E Hd IHd Hn IHn B L a bd b Ha Ebd Hb Hk.
    rewrite E in Ebd. inversion Ebd; subst bd0. clear Ebd.
    revert g E Hd IHd Hn IHn L.
    induction Hb as [bd b Hin | bd h bh b Hin Eh Hb IHb]; intros g E Hd IHd Hn IHn L.
    + apply IHd; auto.
      * eapply bounded_sub; eauto.
      * eapply bounded_sub; [eapply bounded_body; eauto | exact Hin].
    + pose proof (rank_spread g bd h E Hin) as Lh. apply (IHn h Hin B ltac:(lia) a bh b); auto.
  - intros fl g1 g2 [E|E] L1g L2g b1 b2 a b E1 E2; rewrite E in *; discriminate.
  - intros fl g L1g _ b1 b2 a b E1 E2 Ha Hb Hk.
    rewrite E1 in E2. inversion E2; subst b2.
    apply (compat_mono false); [|discriminate].
    apply (frag_ok g b1 E1 L1g); auto.
  - intros fl g1 g2 c1 c2 Ec1 Ec2 Hd IHd H2 IH2 H1 IH1 L1g L2g b1 b2 a b E1 E2 Ha Hb Hk.
    rewrite Ec1 in E1. inversion E1; subst c1. rewrite Ec2 in E2. inversion E2; subst c2. clear E1 E2.
    inversion Ha as [s a0 Hin1 | s h1 bh1 a0 Hin1 Eh1 Ha1]; subst.
    + inversion Hb as [s2 b0 Hin2 | s2 h2 bh2 b0 Hin2 Eh2 Hb2]; subst.
      * apply IHd; auto.
        -- apply (bounded_sub n b1 a (bounded_body n g1 b1 Ec1 L1g) Hin1).
        -- apply (bounded_sub n b2 b (bounded_body n g2 b2 Ec2 L2g) Hin2).
      * pose proof (rank_spread g2 b2 h2 Ec2 Hin2) as Lh. apply (IH2 h2 Hin2 L1g ltac:(lia) b1 bh2); auto.
    + pose proof (rank_spread g1 b1 h1 Ec1 Hin1) as Lh. apply (IH1 h1 Hin1 ltac:(lia) L2g bh1 b2); auto.
Qed.

Lemma within_L1 : forall s, bounded n (snd s) -> within s -> L1 s.
Proof.
  intros s B W a b. apply (proj1 (proj2 cover) false s s); [apply within_iff_subsets, W | exact B | exact B].
Qed.
End L2_to_L1.

Theorem fragments_L1 :
  (forall h b, fbody h = Some b -> within b) -> forall h b, fbody h = Some b -> L1 b.
Proof.
  intros W h. remember (rk h) as m eqn:E. revert h E.
  induction m as [m IH] using lt_wf_ind. intros h E b Eb.
  apply (within_L1 (rk h)).
  - intros g bg Eg L. assert (Lm : rk g < m) by lia. exact (IH (rk g) Lm g eq_refl bg Eg).
  - apply (Hrk h b Eb).
  - apply (W h b Eb).
Qed.

Theorem set_L1 :
  (forall h b, fbody h = Some b -> within b) -> forall s, within s -> L1 s.
Proof.
  intros W s Ws.
  (* a rank above everything occurring in s *)
  set (m := Datatypes.S (list_max (map rk (all_spreads (snd s))))).
  apply (within_L1 m).
  - intros h b Eh _. apply (fragments_L1 W h b Eh).
  - intros g O. apply le_n_S, list_max_in_le, in_map, O.
  - exact Ws.
Qed.

Lemma FF_build : forall m fl s g, rk g < m ->
  (forall a bd b, In a (fields s) -> fbody g = Some bd -> EF bd b -> fe_key a = fe_key b -> fc fl a b) ->
  FF fl s g.
Proof.
  induction m as [|m IH]; intros fl s g L H; [lia|].
  destruct (fbody g) as [bd|] eqn:E; [|apply ff_none; exact E].
  apply (ff_i S D base fl s g bd E).
  - intros x y Hx Hy Hk. apply (H x bd y); auto. apply EF_d. exact Hy.
  - intros h Hin. apply IH.
    + pose proof (rank_spread g bd h E Hin). lia.
    + intros a bh b Ha Eh Hb Hk. apply (H a bd b); auto. eapply EF_s; eauto.
Qed.

Lemma FrFr_build : forall m fl g1 g2, rk g1 + rk g2 < m ->
  (forall b1 b2 a b, fbody g1 = Some b1 -> fbody g2 = Some b2 -> EF b1 a -> EF b2 b ->
                     fe_key a = fe_key b -> fc fl a b) ->
  FrFr fl g1 g2.
Proof.
  induction m as [|m IH]; intros fl g1 g2 L H; [lia|].
  destruct (fbody g1) as [b1|] eqn:E1; [|apply frfr_none; left; exact E1].
  destruct (fbody g2) as [b2|] eqn:E2; [|apply frfr_none; right; exact E2].
  apply (frfr_i S D base fl g1 g2 b1 b2 E1 E2).
  - intros x y Hx Hy Hk. apply (H b1 b2); auto; apply EF_d; assumption.
  - intros h Hin. apply IH.
    + pose proof (rank_spread g2 b2 h E2 Hin). lia.
    + intros c1 c2 a b Ec1 Ec2 Ha Hb Hk. rewrite E1 in Ec1. inversion Ec1; subst c1.
      apply (H b1 b2); auto. eapply EF_s; eauto.
  - intros h Hin. apply IH.
    + pose proof (rank_spread g1 b1 h E1 Hin). lia.
    + intros c1 c2 a b Ec1 Ec2 Ha Hb Hk. rewrite E2 in Ec2. inversion Ec2; subst c2.
      apply (H b1 b2); auto. eapply EF_s; eauto.
Qed.

Lemma subsets_build : forall fl s1 s2,
  (forall a b, EF s1 a -> EF s2 b -> fe_key a = fe_key b -> fc fl a b) ->
  (forall a b, EF s2 a -> EF s1 b -> fe_key a = fe_key b -> fc fl a b) ->
  subsets fl s1 s2.
Proof.
  intros fl s1 s2 H Hs. constructor.
  - intros a b Ha Hb Hk. apply H; auto; apply EF_d; assumption.
  - intros g Hin. apply (FF_build (1 + rk g)); [lia|].
    intros a bd b Ha E Hb Hk. apply H; auto; [apply EF_d; exact Ha | eapply EF_s; eauto].
  - intros g Hin. apply (FF_build (1 + rk g)); [lia|].
    intros a bd b Ha E Hb Hk. apply Hs; auto; [apply EF_d; exact Ha | eapply EF_s; eauto].
  - intros g1 g2 Hin1 Hin2. apply (FrFr_build (1 + (rk g1 + rk g2))); [lia|].
    intros b1 b2 a b E1 E2 Ha Hb Hk. apply H; auto; eapply EF_s; eauto.
Qed.

Lemma compat_fc : forall fl a b, compat fl a b -> fc fl a b /\ fc fl b a.
Proof.
  induction 1 as [fl a b Hb H IH]. split; constructor.
  - exact Hb.
  - intros Hsub. apply subsets_build.
    + intros a' b' Ha Hb' Hk. apply (proj1 (IH Hsub a' b' Ha Hb' Hk)).
    + intros a' b' Ha Hb' Hk. apply (proj2 (IH Hsub b' a' Hb' Ha (eq_sym Hk))).
  - rewrite exf_sym, base_sym. exact Hb.
  - intros Hsub. rewrite exf_sym. pose proof (subs_sym _ _ Hsub) as Hsub'. apply subsets_build.
    + intros a' b' Ha Hb' Hk. apply (proj2 (IH Hsub' b' a' Hb' Ha (eq_sym Hk))).
    + intros a' b' Ha Hb' Hk. apply (proj1 (IH Hsub' a' b' Ha Hb' Hk)).
Qed.

Lemma L1_within : forall s, L1 s -> within s.
Proof.
  intros s H. apply within_iff_subsets, subsets_build; intros a b Ha Hb Hk;
    apply (proj1 (compat_fc false a b (H a b Ha Hb Hk))).
Qed.

End Decomp.

Section DocLevel.
Variable S : schema.
Variable D : document.
Variable base : bool -> fentry -> fentry -> bool.
Hypothesis base_sym : forall ex a b, base ex a b = base ex b a.
Hypothesis base_mono : forall a b, base false a b = true -> base true a b = true.

(* [sets]: the selection sets the rule visits; it must contain every fragment body *)
Variable sets : fset -> Prop.
Hypothesis sets_frag : forall g b, fbody S D g = Some b -> sets b.

Theorem decomposition_iff :
  acyclic S D ->
  ((forall s, sets s -> within S D base s) <-> (forall s, sets s -> L1 S D base s)).
Proof.
  intros [rk Hrk]. split.
  - intros W s Hs. apply (set_L1 S D base base_sym base_mono rk Hrk).
    + intros h b E. apply W. eapply sets_frag; eauto.
    + apply W. exact Hs.
  - intros H s Hs. apply (L1_within S D base base_sym rk Hrk). apply H. exact Hs.
Qed.
End DocLevel.

Lemma base2_sym : forall S ex a b, base2 S ex a b = base2 S ex b a.
Proof. intros. unfold base2. apply andb_comm. Qed.

Lemma base_ok_mono : forall S a b, base_ok S false a b = true -> base_ok S true a b = true.
Proof.
  intros S a b H. unfold base_ok in *. apply andb_true_iff in H. destruct H as [_ H].
  simpl. exact H.
Qed.

Lemma base2_mono : forall S a b, base2 S false a b = true -> base2 S true a b = true.
Proof.
  intros S a b H. unfold base2 in *. apply andb_true_iff in H. destruct H as [H1 H2].
  rewrite (base_ok_mono S a b H1), (base_ok_mono S b a H2). reflexivity.
Qed.

(* sameArguments is symmetric when argument names are unique (UniqueArgumentNames), so on
   such documents the two-field test of the code (base_ok) equals its symmetric closure
   (base2) that the decomposition theorem is stated with. *)
Section ValInd.
Variable P : value -> Prop.
Hypothesis Hvar : forall n, P (VVar n).
Hypothesis Hint : forall z, P (VInt z).
Hypothesis Hfloat : forall n d, P (VFloat n d).
Hypothesis Hstr : forall s, P (VStr s).
Hypothesis Hbool : forall b, P (VBool b).
Hypothesis Henum : forall n, P (VEnum n).
Hypothesis Hlist : forall l, Forall P l -> P (VList l).
Hypothesis Hobj : forall l, Forall (fun p => P (snd p)) l -> P (VObj l).
Fixpoint value_ind' (v : value) : P v :=
  match v with
  | VVar n => Hvar n
  | VInt z => Hint z
  | VFloat n d => Hfloat n d
  | VStr s => Hstr s
  | VBool b => Hbool b
  | VEnum n => Henum n
  | VList l =>
    Hlist l ((fix go (l : list value) : Forall P l :=
                match l with [] => Forall_nil P | x :: r => Forall_cons x (value_ind' x) (go r) end) l)
  | VObj l =>
    Hobj l ((fix go (l : list (name * value)) : Forall (fun p => P (snd p)) l :=
               match l with [] => Forall_nil _ | x :: r => Forall_cons x (value_ind' (snd x)) (go r) end) l)
  end.
End ValInd.

Lemma value_eqb_sym : forall a b, value_eqb a b = value_eqb b a.
Proof.
  induction a as [n|z|n d|s|b0|n|l IH|l IH] using value_ind'; destruct b as [n'|z'|n' d'|s'|b'|n'|l'|l'];
    simpl; try reflexivity.
  - apply String.eqb_sym.
  - apply Z.eqb_sym.
  - rewrite Z.eqb_sym, Pos.eqb_sym. reflexivity.
  - apply String.eqb_sym.
  - destruct b0, b'; reflexivity.
  - apply String.eqb_sym.
  - revert l'. induction l as [|x r IHr]; destruct l' as [|y r']; try reflexivity.
    inversion IH as [|? ? Hx Hr]; subst. rewrite (Hx y), (IHr Hr r'). reflexivity.
  - revert l'. induction l as [|[k x] r IHr]; destruct l' as [|[k' y] r']; try reflexivity.
    inversion IH as [|? ? Hx Hr]; subst. simpl in Hx.
    rewrite (String.eqb_sym k k'), (Hx y), (IHr Hr r'). reflexivity.
Qed.

Lemma find_arg_in : forall n l v, find_arg n l = Some v -> In (n, v) l.
Proof.
  intros n l. induction l as [|[k x] r IH]; simpl; intros v H; [discriminate|].
  destruct (String.eqb n k) eqn:E.
  - apply String.eqb_eq in E. inversion H; subst. left. reflexivity.
  - right. apply IH. exact H.
Qed.

Lemma find_arg_nodup : forall n v l, NoDup (map fst l) -> In (n, v) l -> find_arg n l = Some v.
Proof.
  intros n v l. induction l as [|[k x] r IH]; simpl; intros ND H; [destruct H|].
  inversion ND as [|? ? Hk ND']; subst. destruct H as [H|H].
  - inversion H; subst. rewrite String.eqb_refl. reflexivity.
  - destruct (String.eqb n k) eqn:E.
    + apply String.eqb_eq in E. subst k. exfalso. apply Hk. apply in_map_iff. exists (n, v). auto.
    + apply IH; assumption.
Qed.

Definition args_le (a b : list (name * value)) : Prop :=
  forall n v, In (n, v) a -> exists v', find_arg n b = Some v' /\ value_eqb v v' = true.

Lemma same_args_spec : forall a b,
  same_args a b = true <-> (List.length a = List.length b /\ args_le a b).
Proof.
  intros a b. unfold same_args. rewrite andb_true_iff, Nat.eqb_eq, forallb_forall. split.
  - intros [L H]. split; [exact L|]. intros n v Hin. specialize (H (n, v) Hin). simpl in H.
    destruct (find_arg n b) as [v'|]; [|discriminate]. exists v'. auto.
  - intros [L H]. split; [exact L|]. intros [n v] Hin. simpl. destruct (H n v Hin) as [v' [E1 E2]].
    rewrite E1. exact E2.
Qed.

Lemma same_args_sym_imp : forall a b,
  NoDup (map fst a) -> NoDup (map fst b) -> same_args a b = true -> same_args b a = true.
Proof.
  intros a b NDa NDb H. apply same_args_spec in H. destruct H as [L H]. apply same_args_spec.
  split; [symmetry; exact L|].
  (* names of a are among the names of b, both duplicate free and of equal length: also the converse *)
  assert (I1 : incl (map fst a) (map fst b)).
  { intros n Hn. apply in_map_iff in Hn. destruct Hn as [[n' v] [E Hin]]. simpl in E. subst n'.
    destruct (H n v Hin) as [v' [E1 _]]. apply find_arg_in in E1.
    apply in_map_iff. exists (n, v'). auto. }
  assert (I2 : incl (map fst b) (map fst a)).
  { apply NoDup_length_incl; [exact NDa | rewrite !map_length; lia | exact I1]. }
  intros n v Hin.
  assert (Hn : In n (map fst a)). { apply I2. apply in_map_iff. exists (n, v). auto. }
  apply in_map_iff in Hn. destruct Hn as [[n' w] [E Hw]]. simpl in E. subst n'.
  destruct (H n w Hw) as [v' [E1 E2]].
  rewrite (find_arg_nodup n v b NDb Hin) in E1. inversion E1; subst v'.
  exists w. split; [apply find_arg_nodup; assumption | rewrite value_eqb_sym; exact E2].
Qed.

Lemma same_args_sym : forall a b,
  NoDup (map fst a) -> NoDup (map fst b) -> same_args a b = same_args b a.
Proof.
  intros a b NDa NDb. destruct (same_args a b) eqn:E1; destruct (same_args b a) eqn:E2; try reflexivity.
  - rewrite (same_args_sym_imp a b NDa NDb E1) in E2. discriminate.
  - rewrite (same_args_sym_imp b a NDb NDa E2) in E1. discriminate.
Qed.

Lemma types_conflict_sym : forall S a b, types_conflict S a b = types_conflict S b a.
Proof.
  intros S. induction a as [n|a IH|a IH]; destruct b as [m|b|b]; simpl; try reflexivity.
  - rewrite (orb_comm (is_leaf S n)), (String.eqb_sym n m). reflexivity.
  - apply IH.
  - apply IH.
Qed.

Lemma value_eqb_refl : forall v, value_eqb v v = true.
Proof.
  induction v using value_ind'; simpl;
    try (apply String.eqb_refl); try (apply Z.eqb_refl).
  - rewrite Z.eqb_refl, Pos.eqb_refl. reflexivity.
  - destruct b; reflexivity.
  - induction H as [|x r Hx Hr IH]; [reflexivity|]. rewrite Hx. simpl. exact IH.
  - induction H as [|[k x] r Hx Hr IH]; [reflexivity|]. simpl in Hx. rewrite String.eqb_refl, Hx. simpl. exact IH.
Qed.

Lemma same_args_refl : forall a, NoDup (map fst a) -> same_args a a = true.
Proof.
  intros a ND. apply same_args_spec. split; [reflexivity|].
  intros n v Hin. exists v. split; [apply find_arg_nodup; assumption | apply value_eqb_refl].
Qed.

Theorem base_ok_is_base2 : forall S ex a b,
  NoDup (map fst (fe_args a)) -> NoDup (map fst (fe_args b)) ->
  base_ok S ex a b = base2 S ex a b.
Proof.
  intros S ex a b NDa NDb. unfold base2.
  assert (E : base_ok S ex b a = base_ok S ex a b).
  { unfold base_ok. rewrite (String.eqb_sym (fe_name b)), (same_args_sym _ _ NDb NDa).
    f_equal. f_equal. unfold ty_conflict. destruct (fe_ty a), (fe_ty b); try reflexivity.
    apply types_conflict_sym. }
  rewrite E. destruct (base_ok S ex a b); reflexivity.
Qed.

Theorem overlap_decomposition : forall S D,
  acyclic S D -> (L2_accepts S D <-> L1_accepts S D).
Proof.
  intros S D A. unfold L2_accepts, L1_accepts.
  apply (decomposition_iff S D (base2 S) (base2_sym S) (base2_mono S) (doc_sets S D)); [|exact A].
  intros g b E. right. exists g. exact E.
Qed.

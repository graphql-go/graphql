(* The lexer model only produces well-formed lexemes: name tokens are names, and number tokens
   are lexemes that re-read as themselves. *)
From Coq Require Import List NArith Bool.
From GQL Require Import Base.Bytes Syntax.Lexer Proofs.SyntaxRender Proofs.SyntaxLexer.
Import ListNotations.
Open Scope N_scope.

Definition lexeme_ok (t : token) : bool :=
  match tk t with
  | NAME => name_ok (tval t)
  | INT => num_okb (tval t) false
  | FLOAT => num_okb (tval t) true
  | _ => true
  end.

Lemma read_number_lexeme : forall s lx isf r, read_number s = Some (lx, isf, r) -> read_number lx = Some (lx, isf, []).
Proof. intros s lx isf r H. pose proof (read_number_stop s lx isf r H [] (conj eq_refl (conj eq_refl eq_refl))) as X. rewrite app_nil_r in X. exact X. Qed.

Lemma punct1_punct : forall c k, punct1 c = Some k -> is_punct k = true.
Proof.
  intros c k H. unfold punct1 in H.
  repeat match type of H with context [match ?x with _ => _ end] => destruct x end; try discriminate H; inversion H; reflexivity.
Qed.

Lemma read_token_lexeme : forall fuel s pos t r p, read_token fuel s pos = Ok (t, r, p) -> lexeme_ok t = true.
Proof.
  intros fuel s pos t r p H. unfold read_token in H.
  destruct (rune_at s) as [[code n]|] eqn:R; [|inversion H; reflexivity].
  destruct ((code <? 32) && negb (code =? 9) && negb (code =? 10) && negb (code =? 13)); [discriminate|].
  destruct (punct1 code) as [k|] eqn:P.
  { inversion H; subst. unfold lexeme_ok. cbn [tk]. apply punct1_punct in P. destruct k; try reflexivity; discriminate P. }
  destruct (code =? 46).
  { destruct (starts_with [46; 46] (dropN 1 s)); [inversion H; reflexivity|discriminate]. }
  destruct (is_name_start code) eqn:NS.
  { destruct (span is_name_char s) as [nm r'] eqn:E. inversion H; subst. unfold lexeme_ok. cbn [tk tval].
    destruct s as [|c s']; [discriminate R|].
    assert (Hlow : code < 128) by (apply start_facts; rewrite NS; reflexivity).
    pose proof (rune_at_low _ _ _ _ R Hlow) as Ec. subst c.
    pose proof (span_fst_all _ _ _ _ E) as A. cbn [span] in E. unfold is_name_char at 1 in E. rewrite NS in E. cbn [orb] in E.
    destruct (span is_name_char s') as [a b]. inversion E; subst. cbn [name_ok]. rewrite NS. cbn [forallb] in A.
    apply andb_true_iff in A. destruct A as [_ A]. exact A. }
  destruct ((code =? 45) || is_digit code).
  { destruct (read_number s) as [[[lexeme isf] r']|] eqn:E; [|discriminate]. inversion H; subst.
    pose proof (read_number_lexeme _ _ _ _ E) as L. unfold lexeme_ok. cbn [tk tval].
    unfold num_okb. rewrite L, (proj2 (bytes_eqb_eq lexeme lexeme) eq_refl). destruct isf; reflexivity. }
  destruct (code =? 34); [|discriminate].
  destruct (starts_with [34; 34] (dropN 1 s)).
  - destruct (read_block_raw fuel (dropN 3 s) (pos + 3)) as [[[raw r'] p']| |]; try discriminate. inversion H; reflexivity.
  - destruct (read_string fuel (dropN 1 s) (pos + 1)) as [[[v r'] p']| |]; try discriminate. inversion H; reflexivity.
Qed.

Lemma lex_all_lexemes : forall fuel s pos ts mb, lex_all fuel s pos = Ok (ts, mb) -> forallb lexeme_ok ts = true.
Proof.
  induction fuel as [|f IH]; intros s pos ts mb H; [discriminate|].
  destruct (skip_ws (S f) s pos false) as [[[s1 p1] m1]| |] eqn:SW; [|cbn [lex_all] in H; rewrite SW in H; discriminate H..].
  destruct (read_token (S f) s1 p1) as [[[t s2] p2]| |] eqn:R; [|cbn [lex_all] in H; rewrite SW, R in H; discriminate H..].
  pose proof (read_token_lexeme _ _ _ _ _ _ R) as L.
  assert (K : tk t = EOF \/ tk t <> EOF) by (destruct (tk t); [left; reflexivity|right; discriminate..]).
  destruct K as [K|K].
  - rewrite (lex_all_eof f s pos s1 p1 m1 t s2 p2 SW R K) in H. inversion H; subst. cbn [forallb]. rewrite L. reflexivity.
  - rewrite (lex_all_tok f s pos s1 p1 m1 t s2 p2 SW R K) in H. destruct (lex_all f s2 p2) as [[ts' fl]| |] eqn:E; try discriminate H.
    inversion H; subst. cbn [forallb]. rewrite L. exact (IH _ _ _ _ E).
Qed.

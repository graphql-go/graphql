(* Termination of the lexer model: fuel exceeding the length of the source is never exhausted. *)
From Coq Require Import List NArith Bool Lia.
From GQL Require Import Base.Bytes Syntax.Lexer.
Import ListNotations.
Open Scope N_scope.

Definition width_ok (len : nat) (o : option (N * N)) : Prop :=
  forall code n, o = Some (code, n) -> (1 <= N.to_nat n <= len)%nat.

Lemma width_ok_some : forall len x k, (1 <= N.to_nat k <= len)%nat -> width_ok len (Some (x, k)).
Proof. intros len x k H code n E. injection E as _ <-. exact H. Qed.

Lemma width_ok_if : forall len (b : bool) o1 o2, width_ok len o1 -> width_ok len o2 -> width_ok len (if b then o1 else o2).
Proof. intros len [|] o1 o2 H1 H2; assumption. Qed.

Lemma rune_at_width : forall s code n, rune_at s = Some (code, n) -> (1 <= N.to_nat n <= length s)%nat.
Proof.
  intros [|c r]; [discriminate|]. change (width_ok (length (c :: r)) (rune_at (c :: r))).
  unfold rune_at, rune_error. cbv zeta.
  repeat match goal with
         | |- width_ok _ (if _ then _ else _) => apply width_ok_if
         | |- width_ok _ (match ?l with [] => _ | _ :: _ => _ end) => destruct l
         | |- width_ok _ (Some _) => apply width_ok_some; simpl; lia
         end.
Qed.

Lemma dropN_len : forall n s, length (dropN n s) = (length s - N.to_nat n)%nat.
Proof. intros n s. apply skipn_length. Qed.

Lemma rune_step : forall s code n, rune_at s = Some (code, n) -> (length (dropN n s) < length s)%nat.
Proof. intros s code n R. pose proof (rune_at_width _ _ _ R) as W. rewrite dropN_len. lia. Qed.

Lemma ge128 : forall m x k y, m <= x -> 128 <= m * k -> 128 <= x * k + y.
Proof.
  intros m x k y Hx Hm. apply (N.le_trans _ (m * k)); [exact Hm|].
  apply (N.le_trans _ (x * k)); [apply N.mul_le_mono_r; exact Hx|apply N.le_add_r].
Qed.

(* A decoded character below 128 is the byte itself: the replacement character and every
   multi-byte code are at least 128 (the leading factor is at least 2 * 64, or, when it is 0,
   the lower bound on the second byte makes the next one at least 32 * 64 or 16 * 4096). *)
Lemma rune_at_low : forall (c : N) (r : list N) code n, rune_at (c :: r) = Some (code, n) -> code < 128 -> c = code.
Proof.
  intros c r code n H Hc. unfold rune_at, rune_error in H. cbv zeta in H.
  destruct (c <? 128) eqn:E0; [injection H as <- _; reflexivity|]. exfalso.
  apply (N.lt_irrefl 128), (N.le_lt_trans _ code); [clear Hc|exact Hc].
  assert (Err : Some (65533, 1) = Some (code, n) -> 128 <= code) by (intro X; injection X as <- _; discriminate).
  destruct ((c <? 194) || (244 <? c)) eqn:E1; [exact (Err H)|].
  apply orb_false_iff in E1. destruct E1 as [E1 _]. apply N.ltb_ge in E1.
  destruct (c <? 224) eqn:E2.
  { destruct r as [|b1 r]; [exact (Err H)|]. destruct (cont b1); [|exact (Err H)]. injection H as <- _.
    apply (ge128 2); [exact (N.le_add_le_sub_r 2 c 192 E1)|discriminate]. }
  apply N.ltb_ge in E2.
  destruct (c <? 240) eqn:E3.
  { destruct r as [|b1 [|b2 r]]; try exact (Err H).
    match type of H with (if ?g && _ && _ then _ else _) = _ => destruct g eqn:G end; cbn [andb] in H; [|exact (Err H)].
    match type of H with (if ?g then _ else _) = _ => destruct g end; [|exact (Err H)].
    injection H as <- _. apply N.leb_le in G. rewrite <- N.add_assoc. destruct (N.eqb_spec c 224) as [->|Ne].
    - rewrite N.sub_diag, N.mul_0_l, N.add_0_l. apply (ge128 32); [exact (N.le_add_le_sub_r 32 b1 128 G)|discriminate].
    - apply (ge128 1); [|discriminate]. apply (N.le_add_le_sub_r 1 c 224), (proj2 (N.le_succ_l 224 c)), (proj2 (N.le_neq 224 c)). split; [exact E2|exact (fun E => Ne (eq_sym E))]. }
  apply N.ltb_ge in E3.
  destruct r as [|b1 [|b2 [|b3 r]]]; try exact (Err H).
  match type of H with (if ?g && _ && _ && _ then _ else _) = _ => destruct g eqn:G end; cbn [andb] in H; [|exact (Err H)].
  match type of H with (if ?g then _ else _) = _ => destruct g end; [|exact (Err H)].
  injection H as <- _. apply N.leb_le in G. rewrite <- !N.add_assoc. destruct (N.eqb_spec c 240) as [->|Ne].
  - rewrite N.sub_diag, N.mul_0_l, N.add_0_l. apply (ge128 16); [exact (N.le_add_le_sub_r 16 b1 128 G)|discriminate].
  - apply (ge128 1); [|discriminate]. apply (N.le_add_le_sub_r 1 c 240), (proj2 (N.le_succ_l 240 c)), (proj2 (N.le_neq 240 c)). split; [exact E3|exact (fun E => Ne (eq_sym E))].
Qed.

(* What a reading loop started on s may return: a rest shorter than s, or a lexical error;
   never exhausted fuel. *)
Definition scans {A} (s : bytes) (rest : A -> bytes) (r : res A) : Prop :=
  match r with Ok a => (length (rest a) < length s)%nat | Err => True | OutOfFuel => False end.

Lemma scans_bind : forall A B (k : A -> res B) rest rest' s s' r, scans s' rest r ->
  (forall a, (length (rest a) < length s')%nat -> scans s rest' (k a)) ->
  scans s rest' (match r with Ok a => k a | Err => Err | OutOfFuel => OutOfFuel end).
Proof. intros A B k rest rest' s s' [a| |] H Hk; [exact (Hk a H)|exact I|exact H]. Qed.

Definition rest2 {A B} (x : A * bytes * B) : bytes := snd (fst x).

Lemma skip_comment_fuel : forall fuel s pos mb, (length s < fuel)%nat ->
  exists s' p' m', skip_comment fuel s pos mb = Ok (s', p', m') /\ (length s' <= length s)%nat.
Proof.
  induction fuel as [|f IH]; intros s pos mb H; [lia|]. cbn [skip_comment].
  destruct (rune_at s) as [[code n]|] eqn:R; [|eauto 6].
  destruct (is_comment_char code); [|eauto 6].
  pose proof (rune_step _ _ _ R) as W.
  destruct (IH (dropN n s) (pos + n) (mb || (1 <? n)) ltac:(lia)) as (s' & p' & m' & E & L').
  exists s', p', m'. split; [exact E|lia].
Qed.

Lemma skip_ws_fuel : forall fuel s pos mb, (length s < fuel)%nat ->
  exists s' p' m', skip_ws fuel s pos mb = Ok (s', p', m') /\ (length s' <= length s)%nat.
Proof.
  induction fuel as [|f IH]; intros s pos mb H; [lia|]. cbn [skip_ws].
  destruct (rune_at s) as [[code n]|] eqn:R; [|eauto 6].
  pose proof (rune_step _ _ _ R) as W.
  destruct (is_ignored code).
  - destruct (IH (dropN n s) (pos + n) (mb || (1 <? n)) ltac:(lia)) as (s' & p' & m' & E & L').
    exists s', p', m'. split; [exact E|lia].
  - destruct (code =? 35); [|eauto 6].
    destruct (skip_comment_fuel f (dropN n s) (pos + n) mb ltac:(lia)) as (s1 & p1 & m1 & E1 & L1).
    rewrite E1. destruct (IH s1 p1 m1 ltac:(lia)) as (s' & p' & m' & E & L').
    exists s', p', m'. split; [exact E|lia].
Qed.

Lemma read_string_fuel : forall fuel s pos, (length s < fuel)%nat -> scans s rest2 (read_string fuel s pos).
Proof.
  induction fuel as [|f IH]; intros s pos H; [lia|]. cbn [read_string].
  destruct (rune_at s) as [[code n]|] eqn:R; [|exact I].
  pose proof (rune_at_width _ _ _ R) as W. pose proof (dropN_len 1 s) as L1. change (N.to_nat 1) with 1%nat in L1.
  destruct ((code =? 10) || (code =? 13)); [exact I|].
  destruct (code =? 34); [cbv [scans rest2 fst snd]; lia|].
  destruct ((code <? 32) && negb (code =? 9)); [exact I|].
  destruct (code =? 92).
  - destruct (dropN 1 s) as [|e r]; [exact I|]. simpl in L1.
    destruct (simple_escape e) as [esc|].
    + apply (scans_bind _ _ _ _ _ _ _ _ (IH r (pos + 2) ltac:(lia))). intros [[v rst] p] L. cbv [scans rest2 fst snd] in L |- *. lia.
    + destruct (e =? 117); [|exact I].
      destruct r as [|a [|b [|c [|d r']]]]; try exact I.
      destruct (uni_char_code a b c d) as [cp|]; [|exact I]. simpl in L1.
      apply (scans_bind _ _ _ _ _ _ _ _ (IH r' (pos + 6) ltac:(lia))). intros [[v rst] p] L. cbv [scans rest2 fst snd] in L |- *. lia.
  - pose proof (dropN_len n s) as L.
    apply (scans_bind _ _ _ _ _ _ _ _ (IH (dropN n s) (pos + n) ltac:(lia))). intros [[v rst] p] L'. cbv [scans rest2 fst snd] in L' |- *. lia.
Qed.

Lemma read_block_raw_fuel : forall fuel s pos, (length s < fuel)%nat -> scans s rest2 (read_block_raw fuel s pos).
Proof.
  induction fuel as [|f IH]; intros s pos H; [lia|]. cbn [read_block_raw].
  destruct (rune_at s) as [[code n]|] eqn:R; [|exact I].
  pose proof (rune_at_width _ _ _ R) as W.
  destruct ((code =? 34) && starts_with [34; 34] (dropN 1 s));
    [cbv [scans rest2 fst snd]; rewrite dropN_len; change (N.to_nat 3) with 3%nat; lia|].
  destruct ((code <? 32) && negb (code =? 9) && negb (code =? 10) && negb (code =? 13)); [exact I|].
  destruct ((code =? 92) && starts_with [34; 34; 34] (dropN 1 s)).
  - pose proof (dropN_len 4 s) as L. change (N.to_nat 4) with 4%nat in L.
    apply (scans_bind _ _ _ _ _ _ _ _ (IH (dropN 4 s) (pos + 4) ltac:(lia))). intros [[v rst] p] L'. cbv [scans rest2 fst snd] in L' |- *. lia.
  - pose proof (dropN_len n s) as L.
    apply (scans_bind _ _ _ _ _ _ _ _ (IH (dropN n s) (pos + n) ltac:(lia))). intros [[v rst] p] L'. cbv [scans rest2 fst snd] in L' |- *. lia.
Qed.

Lemma span_split : forall p s a b, span p s = (a, b) -> s = a ++ b.
Proof.
  induction s as [|c s IH]; intros a b H; simpl in H.
  - inversion H; reflexivity.
  - destruct (p c).
    + destruct (span p s) as [a' b'] eqn:E. pose proof (IH a' b' eq_refl) as X. inversion H; subst. reflexivity.
    + inversion H; subst. reflexivity.
Qed.

Lemma span_length : forall p s a b, span p s = (a, b) -> length s = (length a + length b)%nat.
Proof. intros p s a b H. rewrite (span_split _ _ _ _ H). apply app_length. Qed.

Lemma read_int_part_split : forall s ip r, read_int_part s = Some (ip, r) -> s = ip ++ r /\ ip <> [].
Proof.
  intros [|c r0] ip r H; [discriminate H|]. cbn [read_int_part] in H. destruct (c =? 48) eqn:E48.
  - apply N.eqb_eq in E48. subst c. destruct r0 as [|d r1]; [|destruct (is_digit d); [discriminate H|]];
      injection H as <- <-; (split; [reflexivity|discriminate]).
  - destruct (span is_digit (c :: r0)) as [ds r'] eqn:E. destruct ds as [|d0 ds]; [discriminate H|]. injection H as <- <-.
    split; [exact (span_split _ _ _ _ E)|discriminate].
Qed.

Lemma read_frac_part_split : forall s fp b r, read_frac_part s = Some (fp, b, r) -> s = fp ++ r.
Proof.
  intros [|c r0] fp b r H; [injection H as <- _ <-; reflexivity|]. cbn [read_frac_part] in H. destruct (c =? 46) eqn:E46.
  - apply N.eqb_eq in E46. subst c. destruct (span is_digit r0) as [ds r'] eqn:E. destruct ds as [|d0 ds]; [discriminate H|].
    injection H as <- _ <-. cbn [app]. f_equal. exact (span_split _ _ _ _ E).
  - injection H as <- _ <-. reflexivity.
Qed.

Lemma read_exp_part_split : forall s ep b r, read_exp_part s = Some (ep, b, r) -> s = ep ++ r.
Proof.
  intros [|e r0] ep b r H; [injection H as <- _ <-; reflexivity|]. cbn [read_exp_part] in H.
  destruct ((e =? 69) || (e =? 101)); [|injection H as <- _ <-; reflexivity].
  assert (X : forall sg r1, r0 = sg ++ r1 ->
            (let '(ds, r2) := span is_digit r1 in match ds with [] => None | _ => Some (e :: sg ++ ds, true, r2) end) = Some (ep, b, r) ->
            e :: r0 = ep ++ r).
  { intros sg r1 -> H1. destruct (span is_digit r1) as [ds r2] eqn:E. destruct ds as [|d0 ds]; [discriminate H1|].
    injection H1 as <- _ <-. cbn [app]. f_equal. rewrite (span_split _ _ _ _ E). apply app_assoc. }
  destruct r0 as [|c r1]; [exact (X [] [] eq_refl H)|].
  destruct ((c =? 43) || (c =? 45)); [exact (X [c] r1 eq_refl H)|exact (X [] (c :: r1) eq_refl H)].
Qed.

Lemma read_number_split : forall s lx isf r, read_number s = Some (lx, isf, r) -> s = lx ++ r /\ lx <> [].
Proof.
  intros s lx isf r H. unfold read_number in H.
  set (sg := match s with c :: r0 => if c =? 45 then ([45], r0) else ([], s) | [] => ([], s) end) in H.
  assert (Hs : s = fst sg ++ snd sg).
  { unfold sg. destruct s as [|c r0]; [reflexivity|]. destruct (c =? 45) eqn:E; [apply N.eqb_eq in E; subst; reflexivity|reflexivity]. }
  destruct sg as [sign s1]. cbn [fst snd] in Hs.
  destruct (read_int_part s1) as [[ip s2]|] eqn:E1; [|discriminate H].
  destruct (read_frac_part s2) as [[[fp f1] s3]|] eqn:E2; [|discriminate H].
  destruct (read_exp_part s3) as [[[ep f2] s4]|] eqn:E3; [|discriminate H].
  injection H as <- _ <-. destruct (read_int_part_split _ _ _ E1) as [I1 N1]. split.
  - rewrite Hs, I1, (read_frac_part_split _ _ _ _ E2), (read_exp_part_split _ _ _ _ E3), <- !app_assoc. reflexivity.
  - intro X. apply app_eq_nil in X. destruct X as [_ X]. apply app_eq_nil in X. destruct X as [X _]. contradiction.
Qed.

Lemma read_number_shorter : forall s lx isf r, read_number s = Some (lx, isf, r) -> (length r < length s)%nat.
Proof.
  intros s lx isf r H. destruct (read_number_split _ _ _ _ H) as [-> N]. rewrite app_length.
  destruct lx; [contradiction|simpl; lia].
Qed.

(* a token other than EOF consumes at least one byte *)
Lemma read_token_fuel : forall fuel s pos, (length s < fuel)%nat ->
  scans s rest2 (read_token fuel s pos) \/ exists t r p, read_token fuel s pos = Ok (t, r, p) /\ tk t = EOF.
Proof.
  intros fuel s pos H. unfold read_token.
  destruct (rune_at s) as [[code n]|] eqn:R; [left|right; eexists; eexists; eexists; split; reflexivity].
  pose proof (rune_at_width _ _ _ R) as W.
  pose proof (dropN_len 3 s) as L3. pose proof (dropN_len 1 s) as L1.
  change (N.to_nat 3) with 3%nat in L3. change (N.to_nat 1) with 1%nat in L1.
  destruct ((code <? 32) && negb (code =? 9) && negb (code =? 10) && negb (code =? 13)); [exact I|].
  destruct (punct1 code); [cbv [scans rest2 fst snd]; lia|].
  destruct (code =? 46).
  { destruct (starts_with [46; 46] (dropN 1 s)); [cbv [scans rest2 fst snd]; lia|exact I]. }
  destruct (is_name_start code) eqn:NS.
  { destruct (span is_name_char s) as [nm r] eqn:E. cbv [scans rest2 fst snd]. pose proof (span_length _ _ _ _ E) as L.
    destruct s as [|c s']; [discriminate R|].
    assert (Hlow : code < 128).
    { unfold is_name_start in NS. apply orb_true_iff in NS. destruct NS as [NS|NS].
      - apply orb_true_iff in NS. destruct NS as [NS|NS]; [apply N.eqb_eq in NS; lia|].
        apply andb_true_iff in NS. destruct NS as [_ NS]. apply N.leb_le in NS. lia.
      - apply andb_true_iff in NS. destruct NS as [_ NS]. apply N.leb_le in NS. lia. }
    pose proof (rune_at_low _ _ _ _ R Hlow) as Ec. subst c.
    cbn [span] in E. unfold is_name_char at 1 in E. rewrite NS in E. cbn [orb] in E.
    destruct (span is_name_char s'). inversion E; subst. simpl in L |- *. lia. }
  destruct ((code =? 45) || is_digit code).
  { destruct (read_number s) as [[[lexeme isf] r]|] eqn:E; [|exact I]. exact (read_number_shorter _ _ _ _ E). }
  destruct (code =? 34); [|exact I].
  destruct (starts_with [34; 34] (dropN 1 s)).
  - apply (scans_bind _ _ _ _ _ _ _ _ (read_block_raw_fuel fuel (dropN 3 s) (pos + 3) ltac:(lia))).
    intros [[v rst] p] L. cbv [scans rest2 fst snd] in L |- *. lia.
  - apply (scans_bind _ _ _ _ _ _ _ _ (read_string_fuel fuel (dropN 1 s) (pos + 1) ltac:(lia))).
    intros [[v rst] p] L. cbv [scans rest2 fst snd] in L |- *. lia.
Qed.

Lemma tkind_eof_case : forall A (t : token) (x : A) (f : tkind -> A),
  match tk t with EOF => x | k => f k end = if tkind_beq (tk t) EOF then x else f (tk t).
Proof. intros A t x f. destruct (tk t); reflexivity. Qed.

(* one step of lex_all, with a test in place of the match on the 20 token kinds *)
Lemma lex_all_S : forall f s pos, lex_all (S f) s pos =
  match skip_ws (S f) s pos false with
  | Ok (s1, p1, mb) =>
    match read_token (S f) s1 p1 with
    | Ok (t, s2, p2) =>
      if tkind_beq (tk t) EOF then Ok ([t], false)
      else match lex_all f s2 p2 with
           | Ok (ts, fl) => Ok (t :: ts, fl || (mb && tkind_beq (tk t) NAME))
           | Err => Err
           | OutOfFuel => OutOfFuel
           end
    | Err => Err
    | OutOfFuel => OutOfFuel
    end
  | Err => Err
  | OutOfFuel => OutOfFuel
  end.
Proof.
  intros f s pos. cbn [lex_all]. destruct (skip_ws (S f) s pos false) as [[[s1 p1] mb]| |]; try reflexivity.
  destruct (read_token (S f) s1 p1) as [[[t s2] p2]| |]; try reflexivity.
  exact (tkind_eof_case _ t _ (fun k => match lex_all f s2 p2 with
    | Ok (ts, fl) => Ok (t :: ts, fl || (mb && tkind_beq k NAME)) | Err => Err | OutOfFuel => OutOfFuel end)).
Qed.

Theorem lex_all_terminates : forall fuel s pos, (length s < fuel)%nat -> lex_all fuel s pos <> OutOfFuel.
Proof.
  induction fuel as [|f IH]; intros s pos H; [lia|]. rewrite lex_all_S.
  destruct (skip_ws_fuel (S f) s pos false H) as (s1 & p1 & mb & -> & S1).
  destruct (read_token_fuel (S f) s1 p1 ltac:(lia)) as [S2|(t & r & p & -> & ->)]; [|discriminate].
  destruct (read_token (S f) s1 p1) as [[[t r] p]| |]; [|discriminate|contradiction]. cbv [scans rest2 fst snd] in S2.
  destruct (tkind_beq (tk t) EOF); [discriminate|]. specialize (IH r p ltac:(lia)).
  destruct (lex_all f r p) as [[ts fl]| |]; [discriminate|discriminate|exact IH].
Qed.

Theorem lex_terminates : forall src, lex src <> OutOfFuel.
Proof. intro src. unfold lex, lex_src. cbn [snd]. apply lex_all_terminates. lia. Qed.

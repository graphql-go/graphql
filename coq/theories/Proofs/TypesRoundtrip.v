(* C10 round trip, clause by clause: what introspection reports for a schema,
   rebuilt, is the schema.  Every list of a description is a list of the
   schema mapped and then ordered by name (map_sort_map); a type reference
   comes back from its kind/name/ofType chain (tref_roundtrip). *)
From Coq Require Import List NArith Bool Permutation String.
From GQL Require Import Base.Bytes Types.Schema Types.Consistent Types.Introspection Proofs.TypesNames.
Import ListNotations.
Open Scope string_scope.
Open Scope N_scope.

Lemma insert_name_perm {A} (key : A -> name) x : forall l, Permutation (insert_name key x l) (x :: l).
Proof.
  induction l as [|y r IH]; simpl; auto.
  destruct (bytes_leb (key x) (key y)); auto.
  apply perm_trans with (y :: x :: r); [apply perm_skip; exact IH|apply perm_swap].
Qed.

Lemma sort_name_perm {A} (key : A -> name) : forall l, Permutation (sort_name key l) l.
Proof.
  induction l as [|x r IH]; simpl; auto.
  apply perm_trans with (x :: sort_name key r); [apply insert_name_perm|apply perm_skip; exact IH].
Qed.

Lemma in_sort_name {A} (key : A -> name) l x : In x (sort_name key l) <-> In x l.
Proof. rewrite (sort_name_perm key l). reflexivity. Qed.

Lemma map_sort_map {A B C} (key : B -> name) (f : A -> B) (g : B -> C) (h : A -> C) l :
  (forall x, In x l -> g (f x) = h x) -> Permutation (map g (sort_name key (map f l))) (map h l).
Proof.
  intro H. eapply perm_trans; [apply Permutation_map, sort_name_perm|].
  rewrite map_map, (map_ext_in _ _ _ H). apply Permutation_refl.
Qed.

Lemma map_sort_id {A B} (key : B -> name) (f : A -> B) (g : B -> A) l :
  (forall x, In x l -> g (f x) = x) -> Permutation (map g (sort_name key (map f l))) l.
Proof. intro H. rewrite <- (map_id l) at 2. apply map_sort_map. exact H. Qed.

Lemma in_map_sort_map {A B C} (key : B -> name) (f : A -> B) (g : B -> C) l y :
  In y (map g (sort_name key (map f l))) <-> exists x, In x l /\ y = g (f x).
Proof.
  rewrite in_map_iff. split.
  - intros (e & <- & Hin). apply in_sort_name, in_map_iff in Hin. destruct Hin as (x & <- & Hx). eauto.
  - intros (x & Hx & ->). exists (f x). split; [reflexivity|]. apply in_sort_name, in_map. exact Hx.
Qed.

(* the fields / enumValues resolvers: with includeDeprecated everything, without it what has no deprecation reason *)
Lemma in_undeprecated {A} (nm : A -> name) (isdep : A -> bool) (dep : name -> bytes) b l n :
  (forall x, In x l -> isdep x = is_dep (dep (nm x))) ->
  (In n (map nm (filter (fun x => b || negb (isdep x)) l)) <-> In n (map nm l) /\ (b = true \/ dep n = [])).
Proof.
  intro H. rewrite !in_map_iff. split.
  - intros (x & <- & Hin). apply filter_In in Hin. destruct Hin as [Hin Hk]. split; [eauto|].
    rewrite (H x Hin) in Hk. destruct b; [auto|right]. destruct (dep (nm x)); [reflexivity|discriminate].
  - intros [(x & <- & Hin) Hb]. exists x. split; [reflexivity|]. apply filter_In. split; [exact Hin|].
    rewrite (H x Hin). destruct Hb as [-> | ->]; [reflexivity|]. destruct b; reflexivity.
Qed.

Lemma describe_type_name V D vt : dt_name (describe_type V D vt) = vt_name vt.
Proof. unfold describe_type. destruct (vt_def vt); reflexivity. Qed.

Lemma described_types V D : Permutation (map dt_name (d_types (describe V D))) (map vt_name (v_types V)).
Proof. apply map_sort_map. intros vt _. apply describe_type_name. Qed.

Lemma introspect_types V D :
  d_types (introspect V D) = map (resolve_type (v_types V)) (sort_name dt_name (map (describe_type V D) (v_types V))).
Proof. reflexivity. Qed.

Lemma in_introspect V D dt : In dt (d_types (introspect V D)) <-> exists vt, In vt (v_types V) /\ dt = introspect_type V D vt.
Proof. exact (in_map_sort_map dt_name (describe_type V D) (resolve_type (v_types V)) _ dt). Qed.

Lemma introspect_type_names V D : Permutation (map dt_name (d_types (introspect V D))) (map vt_name (v_types V)).
Proof.
  rewrite introspect_types, map_map. apply map_sort_map. intros vt _. exact (describe_type_name V D vt).
Qed.

Lemma type_kind V D vt : dt_name (introspect_type V D vt) = vt_name vt
  /\ dt_kind (introspect_type V D vt) = kind_name (vt_def vt)
  /\ dt_desc (introspect_type V D vt) = match assocN (vt_id vt) (dc_types D) with Some d => td_desc d | None => [] end.
Proof. unfold introspect_type, describe_type. destruct (vt_def vt); repeat split. Qed.

Lemma id_of_name_in : forall ts vt, NoDup (map vt_name ts) -> In vt ts -> id_of_name ts (vt_name vt) = Some (vt_id vt).
Proof.
  induction ts as [|t r IH]; simpl; intros vt Hnd Hin; [contradiction|].
  inversion Hnd as [|x l Hni Hnd']; subst.
  destruct Hin as [Hin|Hin].
  - subst. rewrite bytes_eqb_refl. reflexivity.
  - rewrite bytes_eqb_false; [exact (IH vt Hnd' Hin)|]. intro E. apply Hni. rewrite E. apply in_map. exact Hin.
Qed.

Lemma named_ref_roundtrip ts i vt : NoDup (map vt_name ts) -> vfind ts i = Some vt ->
  named_ref ts i = DRNamed (kind_name (vt_def vt)) (vt_name vt) /\ tref_of ts (named_ref ts i) = TNamed i.
Proof.
  intros Hnd Hv. unfold named_ref. rewrite Hv. split; [reflexivity|]. cbn [tref_of].
  destruct (vfind_some_in ts i vt Hv) as [Hin Hid]. rewrite (id_of_name_in ts vt Hnd Hin), Hid. reflexivity.
Qed.

Definition closed_ref (ts : list vtype) (t : tref) : Prop :=
  wf_ref t = true /\ exists i vt, get_named t = Some i /\ vfind ts i = Some vt.

Lemma ref_ok_closed ts allowed t : ref_ok ts allowed t = true -> closed_ref ts t.
Proof.
  unfold ref_ok, closed_ref. intro H. apply andb_true_iff in H. destruct H as [Hw H]. split; auto.
  destruct (get_named t) as [i|]; try discriminate. destruct (vfind ts i) as [vt|] eqn:E; try discriminate.
  exists i, vt. auto.
Qed.

Lemma tref_roundtrip ts : NoDup (map vt_name ts) -> forall t, closed_ref ts t -> tref_of ts (dref_of ts t) = t.
Proof.
  intros Hnd. induction t as [|i|t IH|t IH]; intros [Hw (j & vt & Hg & Hv)]; simpl in *.
  - discriminate.
  - inversion Hg; subst. exact (proj2 (named_ref_roundtrip ts j vt Hnd Hv)).
  - f_equal. apply IH. split; auto. exists j, vt. auto.
  - apply andb_true_iff in Hw. f_equal. apply IH. split; [exact (proj2 Hw)|]. exists j, vt. auto.
Qed.

Lemma describe_input_facts ts n t ad : di_name (resolve_input ts (describe_input ts n t ad)) = n
  /\ di_type (resolve_input ts (describe_input ts n t ad)) = dref_of ts t.
Proof. destruct ad; split; reflexivity. Qed.

Lemma rebuild_input ts n t ad : NoDup (map vt_name ts) -> closed_ref ts t ->
  (fun i => (di_name i, tref_of ts (di_type i))) (resolve_input ts (describe_input ts n t ad)) = (n, t).
Proof.
  intros Hnd Hc. destruct (describe_input_facts ts n t ad) as [E1 E2]. cbv beta.
  rewrite E1, E2, (tref_roundtrip ts Hnd t Hc). reflexivity.
Qed.

Lemma rebuild_inputs ts (decs : name -> option argdec) (args : list (name * tref)) :
  NoDup (map vt_name ts) -> (forall a, In a args -> closed_ref ts (snd a)) ->
  Permutation (rebuild_args ts (map (resolve_input ts)
                 (sort_name di_name (map (fun a => describe_input ts (fst a) (snd a) (decs (fst a))) args)))) args.
Proof.
  intros Hnd Hc. unfold rebuild_args. rewrite map_map. apply map_sort_id.
  intros [n t] Hin. exact (rebuild_input ts n t _ Hnd (Hc _ Hin)).
Qed.

Section Fields.
  Variable V : view.
  Variable D : decor.
  Let ts := v_types V.
  Hypothesis Hnd : NoDup (map vt_name ts).

  Definition reported_fields (vt : vtype) (fs : list vfield) : list dfield :=
    map (resolve_field ts) (describe_fields ts (assocN (vt_id vt) (dc_types D)) fs).

  Lemma fields_reported vt :
    (forall ifs fs, vt_def vt = VObject ifs fs -> dt_fields (introspect_type V D vt) = Some (reported_fields vt fs))
    /\ (forall fs, vt_def vt = VInterface fs -> dt_fields (introspect_type V D vt) = Some (reported_fields vt fs))
    /\ (vkind_object (vt_def vt) = false -> vkind_interface (vt_def vt) = false -> dt_fields (introspect_type V D vt) = None).
  Proof.
    unfold introspect_type, describe_type, reported_fields. fold ts. split; [|split].
    - intros ifs fs E. rewrite E. reflexivity.
    - intros fs E. rewrite E. reflexivity.
    - destruct (vt_def vt); try discriminate; reflexivity.
  Qed.

  (* what is reported for one field *)
  Definition field_reported (vt : vtype) (f : vfield) (df : dfield) : Prop :=
    df_name df = vf_name f
    /\ df_type df = dref_of ts (vf_type f)
    /\ df_isdep df = is_dep (field_dep D (vt_id vt) (vf_name f))
    /\ df_reason df = dep_reason (field_dep D (vt_id vt) (vf_name f))
    /\ (field_ok ts f = true ->
          tref_of ts (df_type df) = vf_type f /\ Permutation (rebuild_args ts (df_args df)) (vf_args f)).

  Lemma reported_field vt f : field_reported vt f (resolve_field ts (describe_field ts (assocN (vt_id vt) (dc_types D)) f)).
  Proof.
    assert (Hargs : forall decs, field_ok ts f = true ->
              tref_of ts (dref_of ts (vf_type f)) = vf_type f /\
              Permutation (rebuild_args ts (map (resolve_input ts)
                 (sort_name di_name (map (fun a => describe_input ts (fst a) (snd a) (find_dec (fst a) decs)) (vf_args f))))) (vf_args f)).
    { intros decs Hok. unfold field_ok in Hok. apply andb_true_iff in Hok. destruct Hok as [Ht Ha]. split.
      - apply (tref_roundtrip ts Hnd). exact (ref_ok_closed _ _ _ Ht).
      - apply (rebuild_inputs ts (fun n => find_dec n decs)); auto.
        intros a Hain. exact (ref_ok_closed _ _ _ (proj1 (forallb_forall _ _) Ha a Hain)). }
    unfold field_reported, describe_field, field_dep.
    destruct (assocN (vt_id vt) (dc_types D)) as [td|]; [destruct (find_dec (vf_name f) (td_fields td)) as [fd|]|];
      (do 4 (split; [reflexivity|]); apply Hargs).
  Qed.

  Lemma reported_field_names vt fs : Permutation (map df_name (reported_fields vt fs)) (map vf_name fs).
  Proof.
    unfold reported_fields, describe_fields. rewrite map_map. apply map_sort_map.
    intros f _. exact (proj1 (reported_field vt f)).
  Qed.

  Lemma reported_field_spec vt fs df : In df (reported_fields vt fs) -> exists f, In f fs /\ field_reported vt f df.
  Proof.
    intro Hin. apply in_map_sort_map in Hin. destruct Hin as (f & Hf & ->).
    exists f. split; [exact Hf|exact (reported_field vt f)].
  Qed.

  Lemma include_deprecated_fields vt fs b n :
    In n (map df_name (fields_resolver b (reported_fields vt fs))) <->
    exists f, In f fs /\ vf_name f = n /\ (b = true \/ field_dep D (vt_id vt) n = []).
  Proof.
    unfold fields_resolver. rewrite (in_undeprecated df_name df_isdep (field_dep D (vt_id vt))).
    - rewrite (reported_field_names vt fs), in_map_iff. split; [intros [(f & E & Hf) Hb]; eauto|intros (f & Hf & E & Hb); eauto].
    - intros df Hin. destruct (reported_field_spec vt fs df Hin) as (f & _ & -> & _ & Hd & _). exact Hd.
  Qed.

  Lemma reported_refs (l : list N) : (forall i, In i l -> exists vt, vfind ts i = Some vt) ->
    Permutation (map (ref_id ts) (sort_name dref_name (map (named_ref ts) l))) l
    /\ (NoDup l -> NoDup (sort_name dref_name (map (named_ref ts) l))).
  Proof.
    intros Hin.
    assert (Hp : Permutation (map (ref_id ts) (sort_name dref_name (map (named_ref ts) l))) l).
    { apply map_sort_id. intros i Hi. destruct (Hin i Hi) as [vt Hv].
      unfold ref_id. rewrite (proj2 (named_ref_roundtrip ts i vt Hnd Hv)). reflexivity. }
    split; [exact Hp|]. intro Hl. apply (NoDup_map_inv (ref_id ts)). exact (Permutation_NoDup (Permutation_sym Hp) Hl).
  Qed.
End Fields.

Section Rest.
  Variable V : view.
  Variable D : decor.
  Let ts := v_types V.
  Hypothesis Hnd : NoDup (map vt_name ts).

  Lemma interfaces_reported vt :
    (forall ifs fs, vt_def vt = VObject ifs fs ->
       (forall i, In i ifs -> exists it, vfind ts i = Some it) ->
       exists l, dt_interfaces (introspect_type V D vt) = Some l /\ Permutation (map (ref_id ts) l) ifs
                 /\ (NoDup ifs -> NoDup l))
    /\ (vkind_object (vt_def vt) = false -> dt_interfaces (introspect_type V D vt) = None).
  Proof.
    unfold introspect_type, describe_type. fold ts. split.
    - intros ifs fs E Hin. rewrite E. eexists. split; [reflexivity|]. exact (reported_refs V Hnd ifs Hin).
    - destruct (vt_def vt); try discriminate; reflexivity.
  Qed.

  Lemma possible_reported vt : Consistent V -> In vt ts ->
    (vkind_interface (vt_def vt) = true \/ exists ms, vt_def vt = VUnion ms) ->
    exists l, dt_possible (introspect_type V D vt) = Some l /\ NoDup l
      /\ forall o, In o (map (ref_id ts) l) <-> possible ts (vt_id vt) o = true.
  Proof.
    intros HC Hin Hk. destruct (cs_possible V HC vt Hin Hk) as (row & _ & Er & _ & Hndr & Hrow & _).
    assert (Hfound : forall o, In o row -> exists ot, vfind ts o = Some ot).
    { intros o Ho. apply Hrow in Ho. unfold possible in Ho. fold ts in Ho. destruct (vfind ts (vt_id vt)); try discriminate.
      destruct (vfind ts o) as [ot|]; try discriminate. exists ot. reflexivity. }
    destruct (reported_refs V Hnd row Hfound) as [Hperm Hnodup].
    exists (sort_name dref_name (map (named_ref ts) row)). split; [|split].
    - unfold introspect_type, describe_type. fold ts. rewrite Er.
      destruct Hk as [Hk|[ms Hk]]; [destruct (vt_def vt); try discriminate; reflexivity|rewrite Hk; reflexivity].
    - exact (Hnodup Hndr).
    - intro o. fold ts in Hperm. rewrite Hperm. apply Hrow.
  Qed.

  Lemma enums_reported vt vs : vt_def vt = VEnum vs ->
    exists l, dt_enums (introspect_type V D vt) = Some l /\ Permutation (map de_name l) vs
      /\ forall e, In e l -> de_isdep e = is_dep (value_dep D (vt_id vt) (de_name e))
                              /\ de_reason e = dep_reason (value_dep D (vt_id vt) (de_name e)).
  Proof.
    intro E. unfold introspect_type, describe_type. rewrite E. eexists. split; [reflexivity|]. split.
    - apply map_sort_id. intros n _.
      destruct (assocN (vt_id vt) (dc_types D)) as [td|]; [destruct (find_dec n (td_values td))|]; reflexivity.
    - intros e He. rewrite <- (map_id (sort_name _ _)) in He. apply in_map_sort_map in He. destruct He as (n & _ & ->).
      unfold value_dep. destruct (assocN (vt_id vt) (dc_types D)) as [td|]; [destruct (find_dec n (td_values td)) eqn:Ef|];
        cbn [de_name de_isdep de_reason]; rewrite ?Ef; split; reflexivity.
  Qed.

  Lemma include_deprecated_enums vt vs l b n : vt_def vt = VEnum vs -> dt_enums (introspect_type V D vt) = Some l ->
    (In n (map de_name (enums_resolver b l)) <-> In n vs /\ (b = true \/ value_dep D (vt_id vt) n = [])).
  Proof.
    intros E El. destruct (enums_reported vt vs E) as (l' & El' & Hperm & Hdep). rewrite El in El'. inversion El'; subst l'.
    unfold enums_resolver. rewrite (in_undeprecated de_name de_isdep (value_dep D (vt_id vt)) b l n (fun e He => proj1 (Hdep e He))).
    rewrite Hperm. reflexivity.
  Qed.

  Lemma inputs_reported vt fs : vt_def vt = VInput fs -> (forall f, In f fs -> closed_ref ts (snd f)) ->
    exists l, dt_inputs (introspect_type V D vt) = Some l /\ Permutation (rebuild_args ts l) fs.
  Proof.
    intros E Hc. unfold introspect_type, describe_type. fold ts. rewrite E. eexists. split; [reflexivity|].
    exact (rebuild_inputs ts (fun n => match assocN (vt_id vt) (dc_types D) with Some d => find_dec n (td_ifields d) | None => None end) fs Hnd Hc).
  Qed.

  Lemma directives_reported :
    Permutation (map ddr_name (d_directives (introspect V D))) (map dd_name (dc_dirs D))
    /\ forall dd, In dd (d_directives (introspect V D)) ->
         exists d, In d (dc_dirs D) /\ ddr_name dd = dd_name d /\ ddr_desc dd = dd_desc d /\ ddr_locs dd = dd_locs d
           /\ ((forall a, In a (dd_args d) -> closed_ref ts (fst (snd a))) ->
               Permutation (rebuild_args ts (ddr_args dd)) (map (fun a => (fst a, fst (snd a))) (dd_args d))).
  Proof.
    change (d_directives (introspect V D))
      with (map (resolve_directive ts) (sort_name ddr_name (map (describe_directive ts) (dc_dirs D)))). split.
    - rewrite map_map. apply map_sort_map. reflexivity.
    - intros dd Hin. apply in_map_sort_map in Hin. destruct Hin as (d & Hin & ->). exists d. repeat split; auto.
      intro Hc. cbn [resolve_directive describe_directive ddr_args]. unfold rebuild_args. rewrite map_map. apply map_sort_map.
      intros [n [t ad]] Ha. exact (rebuild_input ts n t (Some ad) Hnd (Hc _ Ha)).
  Qed.

  Lemma roots_reported :
    (forall q vt, v_query V = Some q -> vfind ts q = Some vt -> d_query (introspect V D) = Some (vt_name vt))
    /\ (forall q vt, v_mutation V = Some q -> vfind ts q = Some vt -> d_mutation (introspect V D) = Some (vt_name vt))
    /\ (forall q vt, v_subscription V = Some q -> vfind ts q = Some vt -> d_subscription (introspect V D) = Some (vt_name vt))
    /\ (v_mutation V = None -> d_mutation (introspect V D) = None)
    /\ (v_subscription V = None -> d_subscription (introspect V D) = None).
  Proof.
    unfold introspect, describe, root_name. cbn [d_query d_mutation d_subscription]. fold ts.
    repeat split; intros; repeat match goal with H : _ = _ |- _ => rewrite H end; reflexivity.
  Qed.
End Rest.

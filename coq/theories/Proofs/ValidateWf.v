(* The decidable well-formedness conditions of Validate/OverlapWf.v imply the Prop-level
   hypotheses of the overlap theorems: ids_ok => ids_distinct (selection sets are told apart
   by parent type and first node id), args_ok => args_unique. *)
From Coq Require Import List Bool String NArith.
From GQL Require Import Exec.Syntax Validate.Overlap Validate.OverlapSpec Validate.OverlapWf
     Proofs.ValidateRules Proofs.ValidateOverlap Proofs.ValidateRun Proofs.ValidateMemoHard
     Proofs.ValidateReflect.
Import ListNotations.
Open Scope string_scope.
Open Scope list_scope.

Lemma lists_go_flat : forall l,
  (fix go (l : list selection) : list (list selection) :=
     match l with [] => [] | x :: r => sel_lists x ++ go r end) l = flat_map sel_lists l.
Proof. induction l as [|x r IH]; simpl; [reflexivity | rewrite IH; reflexivity]. Qed.

Lemma sel_lists_field : forall id al nm args ds sub, sel_lists (SField id al nm args ds sub) = lists_of sub.
Proof. intros. simpl. rewrite lists_go_flat. reflexivity. Qed.
Lemma sel_lists_inline : forall id tc ds sub, sel_lists (SInline id tc ds sub) = lists_of sub.
Proof. intros. simpl. rewrite lists_go_flat. reflexivity. Qed.

Lemma lists_of_closed : forall ss l x, In l (lists_of ss) -> In x l -> incl (sel_lists x) (lists_of ss).
Proof.
  assert (H0 : forall ss x, In x ss -> incl (sel_lists x) (flat_map sel_lists ss)).
  { intros ss x Hx z Hz. apply in_flat_map. exists x. split; assumption. }
  assert (G : forall ss l x, In l (flat_map sel_lists ss) -> In x l -> incl (sel_lists x) (flat_map sel_lists ss)).
  { induction ss as [| id al nm args ds sub r IHs IHr | id g ds r IHr | id tc ds sub r IHs IHr] using sels_ind;
      intros l x Hl Hx; [destruct Hl | | exact (IHr l x Hl Hx) |]; cbn [flat_map] in *;
      [rewrite sel_lists_field in * | rewrite sel_lists_inline in *]; apply in_app_or in Hl;
      (destruct Hl as [[<-|Hl]|Hl]; [apply incl_appl, incl_tl, H0, Hx | apply incl_appl, incl_tl, (IHs l x Hl Hx) |
                                      apply incl_appr, (IHr l x Hl Hx)]). }
  intros ss l x [<-|Hl] Hx; apply incl_tl; [apply H0, Hx | exact (G ss l x Hl Hx)].
Qed.

Lemma doc_lists_closed : forall D l x, In l (doc_lists D) -> In x l -> incl (sel_lists x) (doc_lists D).
Proof.
  intros D l x Hl Hx z Hz. unfold doc_lists in *. apply in_app_or in Hl. apply in_or_app.
  destruct Hl as [Hl|Hl]; [left|right]; apply in_flat_map in Hl; destruct Hl as [o [Ho Hl]];
    apply in_flat_map; exists o; (split; [exact Ho|]); apply (lists_of_closed _ l x Hl Hx z Hz).
Qed.

Lemma dfields_sel_lists : forall S x pt e, In e (dfields_sel S pt x) ->
  (fe_sub e = [] \/ In (fe_sub e) (sel_lists x)) /\
  ((exists id al nm ds sub, x = SField id al nm (fe_args e) ds sub) \/
   exists l y, In l (sel_lists x) /\ In y l /\ fe_args e = node_args y).
Proof.
  intros S. induction x as [id al nm args ds sub IH | id g ds | id tc ds sub IH] using selection_ind'; intros pt e He.
  - simpl in He. destruct He as [He|[]]. subst e. split.
    + right. rewrite sel_lists_field. left. reflexivity.
    + left. exists id, al, nm, ds, sub. reflexivity.
  - destruct He.
  - rewrite dfields_inline in He. unfold dfields in He. apply in_flat_map in He. destruct He as [y [Hy He]].
    rewrite Forall_forall in IH. destruct (IH y Hy _ e He) as [H1 H2]. rewrite sel_lists_inline. split.
    + destruct H1 as [H1|H1]; [left; exact H1|]. right. right. apply in_flat_map. exists y. split; assumption.
    + right. destruct H2 as [(id' & al' & nm' & ds' & sub' & E)|(l & z & Hl & Hz & E)].
      * exists sub, y. split; [left; reflexivity|]. split; [exact Hy|]. subst y. reflexivity.
      * exists l, z. split; [right; apply in_flat_map; exists y; split; assumption|]. split; assumption.
Qed.

Lemma dfields_lists : forall S D pt ss e, In ss (doc_lists D) -> In e (dfields S pt ss) ->
  (fe_sub e = [] \/ In (fe_sub e) (doc_lists D)) /\
  exists l y, In l (doc_lists D) /\ In y l /\ fe_args e = node_args y.
Proof.
  intros S D pt ss e Hss He. unfold dfields in He. apply in_flat_map in He. destruct He as [x [Hx He]].
  destruct (dfields_sel_lists S x pt e He) as [H1 H2].
  pose proof (doc_lists_closed D ss x Hss Hx) as Hc. split.
  - destruct H1 as [H1|H1]; [left; exact H1 | right; apply Hc; exact H1].
  - destruct H2 as [(id' & al' & nm' & ds' & sub' & E)|(l & z & Hl & Hz & E)].
    + exists ss, x. split; [exact Hss|]. split; [exact Hx|]. subst x. reflexivity.
    + exists l, z. split; [apply Hc; exact Hl|]. split; assumption.
Qed.

Lemma sets_of_lists : forall S pt ss s, In s (sets_of S pt ss) -> In (snd s) (lists_of ss).
Proof.
  intro S.
  assert (G : forall ss pt s, In s (flat_map (sets_sel S pt) ss) -> In (snd s) (flat_map sel_lists ss)).
  { induction ss as [| id al nm args ds sub r IHs IHr | id g ds r IHr | id tc ds sub r IHs IHr] using sels_ind;
      intros pt s Hs; [destruct Hs | | exact (IHr pt s Hs) |]; cbn [flat_map] in *; apply in_app_or in Hs; apply in_or_app;
      (destruct Hs as [Hs|Hs]; [left | right; exact (IHr pt s Hs)]).
    - rewrite sets_sel_field in Hs. rewrite sel_lists_field. destruct sub as [|y t]; [destruct Hs|].
      destruct Hs as [<-|Hs]; [left; reflexivity | right; exact (IHs _ s Hs)].
    - rewrite sets_sel_inline in Hs. rewrite sel_lists_inline.
      destruct Hs as [<-|Hs]; [left; reflexivity | right; exact (IHs _ s Hs)]. }
  intros pt ss s [<-|Hs]; [left; reflexivity | right; exact (G ss pt s Hs)].
Qed.

Lemma all_sets_lists : forall S D s, In s (all_sets S D) -> In (snd s) (doc_lists D).
Proof.
  intros S D s Hs. unfold all_sets in Hs. unfold doc_lists. apply in_app_or in Hs. apply in_or_app.
  destruct Hs as [Hs|Hs]; [left|right]; apply in_flat_map in Hs; destruct Hs as [o [Ho Hs]];
    apply (proj2 (in_flat_map _ _ _)); exists o; (split; [exact Ho|]); exact (sets_of_lists S _ _ s Hs).
Qed.

Lemma DS_lists : forall S D s, DS S D s -> snd s = [] \/ In (snd s) (doc_lists D).
Proof.
  intros S D s H. induction H as [s Hs | g fr Ef | s e Hs IH He].
  - right. apply (all_sets_lists S D s Hs).
  - right. unfold body_of. simpl. unfold doc_lists. apply in_or_app. right. apply in_flat_map.
    exists fr. split; [apply (frag_mem D g); exact Ef | left; reflexivity].
  - simpl. destruct IH as [IH|IH]; [rewrite IH in He; destruct He|].
    exact (proj1 (dfields_lists S D (fst s) (snd s) e IH He)).
Qed.

Lemma n_nodup_NoDup : forall l, n_nodup l = true -> NoDup l.
Proof.
  induction l as [|x r IH]; simpl; intro H; [constructor|]. apply andb_true_iff in H. destruct H as [H1 H2].
  constructor; [|apply IH; exact H2]. intro Hin. apply negb_true_iff in H1.
  assert (E : existsb (N.eqb x) r = true) by (apply existsb_exists; exists x; split; [exact Hin | apply N.eqb_refl]).
  rewrite E in H1. discriminate.
Qed.

Lemma NoDup_app_disj : forall {A} (a b : list A) x, NoDup (a ++ b) -> In x a -> In x b -> False.
Proof.
  intros A a. induction a as [|y r IH]; intros b x ND Ha Hb; [destruct Ha|]. simpl in ND.
  inversion ND as [|? ? Hy ND']; subst. destruct Ha as [Ha|Ha].
  - subst y. apply Hy. apply in_or_app. right. exact Hb.
  - apply (IH b x ND' Ha Hb).
Qed.

Lemma NoDup_app_l : forall {A} (a b : list A), NoDup (a ++ b) -> NoDup a.
Proof.
  intros A a. induction a as [|y r IH]; intros b ND; [constructor|]. simpl in ND.
  inversion ND as [|? ? Hy ND']; subst. constructor; [|apply (IH b ND')].
  intro H. apply Hy. apply in_or_app. left. exact H.
Qed.
Lemma NoDup_app_r : forall {A} (a b : list A), NoDup (a ++ b) -> NoDup b.
Proof. intros A a. induction a as [|y r IH]; intros b ND; [exact ND|]. simpl in ND. inversion ND; subst. apply IH. assumption. Qed.

Lemma concat_nodup_same : forall {A B} (f : A -> B) (L : list (list A)),
  NoDup (map f (List.concat L)) ->
  forall l1 l2 x1 x2, In l1 L -> In l2 L -> In x1 l1 -> In x2 l2 -> f x1 = f x2 -> l1 = l2.
Proof.
  intros A B f L. induction L as [|l L' IH]; intros ND l1 l2 x1 x2 H1 H2 X1 X2 E; [destruct H1|].
  simpl in ND. rewrite map_app in ND.
  assert (Hc : forall l' x', In l' L' -> In x' l' -> In (f x') (map f (List.concat L'))).
  { intros l' x' Hl Hx. apply in_map. apply in_concat. exists l'. split; assumption. }
  destruct H1 as [H1|H1]; destruct H2 as [H2|H2].
  - congruence.
  - subst l1. exfalso. apply (NoDup_app_disj _ _ (f x1) ND); [apply in_map; exact X1 | rewrite E; apply (Hc l2 x2 H2 X2)].
  - subst l2. exfalso. apply (NoDup_app_disj _ _ (f x2) ND); [apply in_map; exact X2 | rewrite <- E; apply (Hc l1 x1 H1 X1)].
  - apply (IH (NoDup_app_r _ _ ND) l1 l2 x1 x2 H1 H2 X1 X2 E).
Qed.

Lemma first_id_sel : forall x r, first_id (x :: r) = sel_id x.
Proof. intros [| |] r; reflexivity. Qed.

Theorem ids_ok_distinct : forall S D, ids_ok D = true -> ids_distinct S D.
Proof.
  intros S D H. unfold ids_ok in H. apply andb_true_iff in H. destruct H as [H1 H2].
  apply n_nodup_NoDup in H1. rewrite forallb_forall in H2.
  (* a non-empty selection list of the document does not start with id 0, the first_id of [] *)
  assert (NZ : forall s, DS S D s -> first_id (snd s) = 0%N -> snd s = []).
  { intros s Hs Hz. destruct (DS_lists S D s Hs) as [E|Hl]; [exact E|]. destruct (snd s) as [|x r]; [reflexivity|].
    rewrite first_id_sel in Hz. exfalso.
    assert (Hin : In (sel_id x) (map sel_id (List.concat (doc_lists D)))).
    { apply in_map, in_concat. exists (x :: r). split; [exact Hl | left; reflexivity]. }
    specialize (H2 _ Hin). rewrite Hz in H2. discriminate H2. }
  intros [p l] [p' l'] Hs Hs' Ep Ei. simpl in Ep, Ei. subst p'. f_equal.
  pose proof (NZ _ Hs) as Z. pose proof (NZ _ Hs') as Z'. simpl in Z, Z'.
  destruct l as [|x r]; [symmetry; apply Z'; symmetry; exact Ei|].
  destruct l' as [|x' r']; [apply Z; exact Ei|]. rewrite !first_id_sel in Ei.
  destruct (DS_lists S D _ Hs) as [E|Hl]; [discriminate E|]. destruct (DS_lists S D _ Hs') as [E|Hl']; [discriminate E|].
  apply (concat_nodup_same sel_id (doc_lists D) H1 _ _ x x' Hl Hl' (or_introl eq_refl) (or_introl eq_refl) Ei).
Qed.

Lemma names_nodup_NoDup : forall l, names_nodup l = true -> NoDup l.
Proof.
  induction l as [|x r IH]; simpl; intro H; [constructor|]. apply andb_true_iff in H. destruct H as [H1 H2].
  constructor; [|apply IH; exact H2]. intro Hin. apply nmem_in in Hin. rewrite Hin in H1. discriminate.
Qed.

Theorem args_ok_unique : forall S D, args_ok D = true -> args_unique S D.
Proof.
  intros S D H s x Hs Hx. unfold args_ok in H. rewrite forallb_forall in H.
  destruct (DS_lists S D s Hs) as [E|Hl]; [rewrite E in Hx; destruct Hx|].
  destruct (proj2 (dfields_lists S D (fst s) (snd s) x Hl Hx)) as (l & y & Hl' & Hy & E).
  rewrite E. apply names_nodup_NoDup. apply H. apply in_concat. exists l. split; assumption.
Qed.

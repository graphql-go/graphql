From Coq Require Import List String Bool.
From GQL Require Import Exec.Syntax Exec.Coerce Exec.CoerceSpec Exec.Exec Exec.PlanCollect
     Proofs.CoerceProofs Proofs.CollectProofs.
Import ListNotations.
Open Scope string_scope.
Open Scope list_scope.

Lemma has_vars_list : forall l x, has_vars (VList l) = false -> In x l -> has_vars x = false.
Proof.
  induction l as [|y l IH]; intros x H Hin; [contradiction|].
  cbn [has_vars] in H. apply orb_false_iff in H. destruct H as [H1 H2].
  destruct Hin as [->|Hin]; [exact H1|]. apply IH; [exact H2|exact Hin].
Qed.

Lemma args_novars_lookup : forall (l : list (name * value)) k x,
  args_have_vars l = false -> alookup k l = Some x -> has_vars x = false.
Proof.
  induction l as [|[k' v] r IH]; intros k x H Hx; [discriminate|].
  cbn [args_have_vars] in H. apply orb_false_iff in H. destruct H as [H1 H2].
  cbn [alookup] in Hx. destruct (String.eqb k k').
  - inversion Hx; subst. exact H1.
  - eapply IH; eassumption.
Qed.

Lemma has_vars_obj : forall l, has_vars (VObj l) = args_have_vars l.
Proof. induction l as [|[k v] l IH]; [reflexivity|]. cbn [has_vars args_have_vars] in *. rewrite IH. reflexivity. Qed.

Lemma value_from_ast_novars : forall fuel S t l vars,
  (forall x, l = Some x -> has_vars x = false) ->
  value_from_ast fuel S t l None = value_from_ast fuel S t l (Some vars).
Proof.
  induction fuel as [|fuel IH]; intros S t [x|] vars H; try reflexivity.
  specialize (H x eq_refl).
  assert (Hnv : forall y, x <> VVar y) by (intros y ->; discriminate).
  assert (Hsame : forall t0, value_from_ast fuel S t0 (Some x) None = value_from_ast fuel S t0 (Some x) (Some vars)).
  { intro t0. apply IH. intros y Hy. inversion Hy; subst. exact H. }
  destruct t as [n|t'|t'].
  - rewrite !value_from_ast_named by exact Hnv.
    destruct (lookup_type S n) as [[k|vals|fs ifs|fs|ms|fs]|]; try reflexivity.
    destruct x; try reflexivity. f_equal. apply omap_ext_in. intros f _. unfold lit_step.
    rewrite (IH S (a_type f) (alookup (a_name f) l) vars); [reflexivity|].
    intros z Hz. rewrite has_vars_obj in H. eapply args_novars_lookup; eassumption.
  - destruct x; try (rewrite !value_from_ast_list1 by (exact Hnv || discriminate); rewrite Hsame; reflexivity).
    cbn [value_from_ast].
    rewrite (omap_ext_in _ (fun y => value_from_ast fuel S t' (Some y) (Some vars)) l); [reflexivity|].
    intros y Hy. apply IH.
    intros z Hz. inversion Hz; subst. eapply has_vars_list; eassumption.
  - rewrite !value_from_ast_nonnull by exact Hnv. apply Hsame.
Qed.

Lemma value_from_ast_novars_arg : forall fuel S t k (l : list (name * value)) vars,
  args_have_vars l = false ->
  value_from_ast fuel S t (alookup k l) None = value_from_ast fuel S t (alookup k l) (Some vars).
Proof.
  intros fuel S t k l vars H. apply value_from_ast_novars. intros x Hx. eapply args_novars_lookup; eassumption.
Qed.

Lemma get_argument_values_novars : forall fuel S defs fargs vars,
  args_have_vars fargs = false ->
  get_argument_values fuel S defs fargs None = get_argument_values fuel S defs fargs (Some vars).
Proof.
  intros fuel S defs fargs vars H. rewrite !get_argument_values_unfold.
  rewrite (omap_ext_in (lit_step fuel S fargs None) (lit_step fuel S fargs (Some vars)) defs); [reflexivity|].
  intros a _. unfold lit_step. rewrite (value_from_ast_novars_arg fuel S (a_type a) (a_name a) fargs vars H). reflexivity.
Qed.

Lemma bool_arg_static_eq : forall S d vars, args_have_vars (d_args d) = false ->
  bool_arg S d vars = bool_arg_static S d.
Proof.
  intros S d vars H. unfold bool_arg, bool_arg_static. rewrite (value_from_ast_novars_arg 3 S _ "if" _ vars H). reflexivity.
Qed.

Lemma plan_directives_static : forall S ds vars skip,
  plan_directives S ds = (skip, false) -> included S ds vars = negb skip.
Proof.
  intros S ds vars skip H. unfold plan_directives in H. unfold included.
  destruct (last_directive "skip" ds None) as [d1|];
    [destruct (args_have_vars (d_args d1)) eqn:E1;
     [|rewrite (bool_arg_static_eq S d1 vars E1);
       destruct (match bool_arg_static S d1 with JBool true => true | _ => false end)]|];
    (destruct (last_directive "include" ds None) as [d2|];
     [destruct (args_have_vars (d_args d2)) eqn:E2;
      [|rewrite (bool_arg_static_eq S d2 vars E2);
        destruct (match bool_arg_static S d2 with JBool false => true | _ => false end)]|]);
    inversion H; reflexivity.
Qed.

Lemma orb_false_both : forall a b, a || b = false -> a = false /\ b = false.
Proof. intros a b H. apply orb_false_iff in H. exact H. Qed.

(* the plan-time walk takes the steps of CollectFields, with the plan-time verdict on the directives,
   and records whether a variable-driven directive was seen *)
Lemma plan_collect_step : forall fuel S D obj x rest v g saw,
  plan_collect (Datatypes.S fuel) S D obj (x :: rest) v g saw =
  let saw1 := saw || snd (plan_directives S (dirs_of x)) in
  match gstep S D obj (negb (fst (plan_directives S (dirs_of x)))) x v with
  | Pass v1 => plan_collect fuel S D obj rest v1 g saw1
  | Add k o => plan_collect fuel S D obj rest v (add_occ k o g) saw1
  | Enter body v1 =>
    match plan_collect fuel S D obj body v1 g saw1 with
    | Some (g1, v2, s1) => plan_collect fuel S D obj rest v2 g1 s1
    | None => None
    end
  end.
Proof.
  intros fuel S D obj [id al nm args ds sub|id nm ds|id tc ds sub] rest v g saw;
    cbn [plan_collect gstep dirs_of]; destruct (plan_directives S ds) as [[|] dyn]; cbn [fst snd negb andb];
    try reflexivity.
  - destruct (negb (nmem nm v)); [|reflexivity].
    destruct (find_fragment nm (d_frags D)) as [f|]; [|reflexivity].
    destruct (fragment_matches S (Some (fr_cond f)) obj); reflexivity.
  - destruct (fragment_matches S tc obj); reflexivity.
Qed.

(* A plan-time run that ends without having seen a variable-driven directive started without one
   (sawDynamic only grows), and is the run of CollectFields for every variable assignment. *)
Lemma plan_collect_static_saw : forall fuel S D obj sels visited g saw g' v',
  plan_collect fuel S D obj sels visited g saw = Some (g', v', false) ->
  saw = false /\ forall vars, collect fuel S D vars obj sels visited g = Some (g', v').
Proof.
  induction fuel as [|fuel IH]; intros S D obj sels v g saw g' v' H; [discriminate|].
  destruct sels as [|x rest]; [inversion H; split; reflexivity|].
  rewrite plan_collect_step in H. cbv zeta in H.
  assert (Hx : saw || snd (plan_directives S (dirs_of x)) = false ->
               saw = false /\ forall vars, step S D vars obj x v
                                          = gstep S D obj (negb (fst (plan_directives S (dirs_of x)))) x v).
  { intros Hs. apply orb_false_both in Hs. destruct Hs as [-> Hd]. split; [reflexivity|]. intro vars.
    unfold step. rewrite (plan_directives_static S (dirs_of x) vars (fst (plan_directives S (dirs_of x)))); [reflexivity|].
    rewrite <- Hd. apply surjective_pairing. }
  destruct (gstep S D obj _ x v) as [v1|k o|body v1].
  - apply IH in H. destruct H as [Hs Hc]. destruct (Hx Hs) as [-> Hst].
    split; [reflexivity|]. intro vars. rewrite collect_step, Hst. apply Hc.
  - apply IH in H. destruct H as [Hs Hc]. destruct (Hx Hs) as [-> Hst].
    split; [reflexivity|]. intro vars. rewrite collect_step, Hst. apply Hc.
  - destruct (plan_collect fuel S D obj body v1 g _) as [[[g1 v2] s1]|] eqn:E1; [|discriminate].
    apply IH in H. destruct H as [-> Hc]. apply IH in E1. destruct E1 as [Hs Hb]. destruct (Hx Hs) as [-> Hst].
    split; [reflexivity|]. intro vars. rewrite collect_step, Hst, Hb. apply Hc.
Qed.

Lemma two_phase_is_collect : forall fuel S D vars obj sels g,
  two_phase_collect fuel S D vars obj sels = Some g ->
  exists v, collect fuel S D vars obj sels [] [] = Some (g, v).
Proof.
  intros fuel S D vars obj sels g H. unfold two_phase_collect in H.
  destruct (plan_collect fuel S D obj sels [] [] false) as [[[g1 v1] [|]]|] eqn:E; [| |discriminate].
  - destruct (collect fuel S D vars obj sels [] []) as [[g2 v2]|]; [|discriminate].
    inversion H; subst. eexists; reflexivity.
  - inversion H; subst. exists v1. apply (plan_collect_static_saw _ _ _ _ _ _ _ _ _ _ E).
Qed.

Lemma plan_all_static_saw : forall fuel S D obj sets visited g saw g' v',
  plan_all fuel S D obj sets visited g saw = Some (g', v', false) ->
  saw = false /\ forall vars, collect_all fuel S D vars obj sets visited g = Some g'.
Proof.
  intros fuel S D obj sets. induction sets as [|x sets IH]; intros visited g saw g' v' H.
  - inversion H; subst. split; reflexivity.
  - cbn [plan_all] in H. cbn [collect_all].
    destruct (plan_collect fuel S D obj x visited g saw) as [[[g1 v1] s1]|] eqn:E; [|discriminate].
    apply IH in H. destruct H as [-> Hc]. apply plan_collect_static_saw in E. destruct E as [-> Hx].
    split; [reflexivity|]. intro vars. rewrite Hx. apply Hc.
Qed.

Lemma plan_tree_static_level : forall fuel S D obj sets fs,
  plan_tree (Datatypes.S fuel) S D obj sets = Some (PT false fs) ->
  exists g, (forall vars, collect_all fuel S D vars obj sets [] [] = Some g) /\
            map (fun x => fst (fst x)) fs = map fst g.
Proof.
  intros fuel S D obj sets fs H. cbn [plan_tree] in H.
  destruct (plan_all fuel S D obj sets [] [] false) as [[[g v] [|]]|] eqn:E; try discriminate.
  match type of H with match ?a with _ => _ end = _ => destruct a as [fs'|] eqn:Eo end; [|discriminate].
  inversion H; subst. exists g. split.
  - apply (plan_all_static_saw _ _ _ _ _ _ _ _ _ _ E).
  - refine (omap_map _ _ _ _ _ _ Eo). intros [k occs] y Hy.
    destruct (find_field _ _) as [fd|]; [destruct (is_object_type S (named_of (f_type fd)));
      [destruct (plan_tree fuel S D _ _); [|discriminate]|]|]; inversion Hy; reflexivity.
Qed.

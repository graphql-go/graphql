(* AppendType against SchemaConfig.Types.  Appending types one by one folds the
   reducer over them, which is what NewSchema does with the types it is given up
   front: on success the two schemas are equal.  The step-by-step construction
   additionally runs the interface check after every step; those intermediate
   checks cannot fail when the final one passes, because an intermediate map is
   a closed part of the final one and the check only looks inside the part.
   So the verdicts agree too. *)
From Coq Require Import List NArith Bool Lia.
From GQL Require Import Base.Bytes Types.Schema Types.Consistent Proofs.TypesReduce Proofs.TypesNames
  Proofs.TypesClosed Proofs.TypesImpl Proofs.TypesMain Proofs.TypesConsistent.
Import ListNotations.
Open Scope N_scope.

Definition with_types (c : config) (ts : list tref) : config :=
  Cfg (c_defs c) (c_query c) (c_mutation c) (c_subscription c) (c_types c ++ ts) (c_dirs c).

Lemma initial_with_types c ts : initial_types (with_types c ts) = initial_types c ++ ts.
Proof. unfold initial_types, with_types. simpl. rewrite <- !app_assoc. reflexivity. Qed.

(* same schema: same definitions, roots and type map (as a set of entries) *)
Definition same_schema (A B : schema) : Prop :=
  s_defs A = s_defs B /\ s_query A = s_query B /\ s_mutation A = s_mutation B /\ s_subscription A = s_subscription B
  /\ forall e, In e (s_tm A) <-> In e (s_tm B).

(* the public views of two equal schemas agree: same types, roots, possible types *)
Definition same_view (V1 V2 : view) : Prop :=
  (forall vt, In vt (v_types V1) <-> In vt (v_types V2))
  /\ v_query V1 = v_query V2 /\ v_mutation V1 = v_mutation V2 /\ v_subscription V1 = v_subscription V2
  /\ (forall vt, In vt (v_types V1) -> (vkind_interface (vt_def vt) = true \/ exists ms, vt_def vt = VUnion ms) ->
        exists r1 r2 q1 q2,
          assocN (vt_id vt) (v_poss V1) = Some r1 /\ assocN (vt_id vt) (v_poss V2) = Some r2
          /\ assocN (vt_id vt) (v_isposs V1) = Some q1 /\ assocN (vt_id vt) (v_isposs V2) = Some q2
          /\ (forall o, In o r1 <-> In o r2) /\ (forall o, In o q1 <-> In o q2)).

Lemma same_schema_refl A : same_schema A A.
Proof. unfold same_schema. repeat split; auto. Qed.

Lemma same_view_refl S : invariants S -> same_view (view_of S) (view_of S).
Proof.
  intros Hi. destruct (core_of_invariants S Hi) as [_ _ _ _ P]. repeat split; auto.
  intros vt Hin Hk. destruct (P vt Hin Hk) as (r & q & E1 & E2 & _). exists r, r, q, q. repeat split; auto.
Qed.

Lemma append_types_fold fuel : forall ts S S', append_types_fuel fuel S ts = OK S' ->
  exists tm, S' = mk S tm /\ fold_res (add_type (s_defs S) fuel) ts (s_tm S) = OK tm
    /\ (ts = [] \/ check_implementations (mk S tm) = true).
Proof.
  induction ts as [|t r IH]; intros S S' H; simpl in H.
  - inversion H; subst. exists (s_tm S'). split; [destruct S'; reflexivity|auto].
  - destruct (append_type_fuel fuel S t) as [S1| |] eqn:E; try discriminate.
    apply append_type_fuel_tm in E. destruct E as (tm1 & -> & Ea & Ec).
    destruct (IH _ _ H) as (tm & -> & Ef & Hc). cbn [mk s_defs s_tm] in *.
    exists tm. split; [reflexivity|]. split; [cbn [fold_res]; rewrite Ea; exact Ef|]. right.
    destruct Hc as [->|Hc]; [inversion Ef; subst; exact Ec|exact Hc].
Qed.

Section Commutes.
  Variables (f0 f1 f2 : nat) (c : config) (ts : list tref) (sch0 sch1 sch2 : schema).
  Hypothesis H0 : new_schema_fuel f0 c = OK sch0.
  Hypothesis H1 : append_types_fuel f1 sch0 ts = OK sch1.
  Hypothesis H2 : new_schema_fuel f2 (with_types c ts) = OK sch2.

  Theorem append_eq : sch1 = sch2.
  Proof.
    apply new_schema_fuel_tm in H0, H2.
    destruct H0 as (_ & tm0 & -> & F0 & _). destruct H2 as (_ & tm2 & -> & F2 & _).
    destruct (append_types_fold _ _ _ _ H1) as (tm1 & -> & F1 & _). cbn [s_defs s_tm schema_of] in F1.
    change (c_defs (with_types c ts)) with (c_defs c) in F2. rewrite initial_with_types in F2.
    apply (add_types_mono _ f0 (f0 + f1 + f2)) in F0; [|lia]. apply (add_types_mono _ f1 (f0 + f1 + f2)) in F1; [|lia].
    apply (add_types_mono _ f2 (f0 + f1 + f2)) in F2; [|lia].
    rewrite fold_res_app, F0, F1 in F2. inversion F2. reflexivity.
  Qed.

  Theorem append_commutes : same_schema sch1 sch2.
  Proof. rewrite append_eq. apply same_schema_refl. Qed.

  Theorem append_commutes_view : same_view (view_of sch1) (view_of sch2).
  Proof. rewrite append_eq. exact (same_view_refl _ (built_invariants _ _ (new_schema_built _ _ _ H2))). Qed.
End Commutes.

Theorem append_consistent f0 f1 c ts sch sch' :
  new_schema_fuel f0 (with_meta c) = OK sch -> append_types_fuel f1 sch ts = OK sch' -> Consistent (view_of sch').
Proof.
  intros H0 H1. exact (built_consistent c sch' (proj1 (append_types_built _ _ _ _ _ (new_schema_built _ _ _ H0) H1))).
Qed.

Lemma append_types_fuel_enough fuel c : (length (c_defs c) < fuel)%nat ->
  forall ts S, built c S -> append_types_fuel fuel S ts <> OutOfFuel.
Proof.
  intros Hf. induction ts as [|t r IH]; intros S HB; simpl; [discriminate|].
  destruct (append_type_fuel fuel S t) as [S'| |] eqn:E; [|discriminate|].
  - exact (IH S' (proj1 (append_type_built _ _ _ _ _ HB E))).
  - exfalso. destruct HB as [tm _ (Hg & _) _]. unfold append_type_fuel in E. cbn [s_defs s_tm schema_of] in *.
    destruct (add_type (c_defs c) fuel tm t) as [tm'| |] eqn:Ea; [destruct (check_implementations _); discriminate|discriminate|].
    apply (add_type_enough (c_defs c) fuel tm t (tm_good_ok _ _ Hg)); [lia|exact Ea].
Qed.

Theorem append_types_terminates : forall f0 f1 c S0 ts0 S ts,
  new_schema_fuel f0 c = OK S0 -> append_types_fuel f1 S0 ts0 = OK S -> append_types S ts <> OutOfFuel.
Proof.
  intros f0 f1 c S0 ts0 S ts H0 H1.
  destruct (append_types_built _ _ _ _ _ (new_schema_built _ _ _ H0) H1) as [HB _].
  apply (append_types_fuel_enough _ c); [|exact HB]. destruct HB. unfold fuel_for. simpl. lia.
Qed.

Lemma field_implements_weaken (p1 p2 : N -> N -> bool) ofs jf :
  (forall f a o, In f ofs -> get_named (vf_type jf) = Some a -> get_named (vf_type f) = Some o -> p1 a o = true -> p2 a o = true) ->
  field_implements p1 ofs jf = true -> field_implements p2 ofs jf = true.
Proof.
  intros Hw H. unfold field_implements in *. destruct (find_field (vf_name jf) ofs) as [f|] eqn:Ef; [|discriminate].
  apply andb_true_iff in H. destruct H as [H H3]. apply andb_true_iff in H. destruct H as [H1 H2].
  rewrite H2, H3, !andb_true_r. apply sub_reflect. apply sub_reflect in H1.
  apply (subtype_ext p1 p2 _ _ H1). intros o a Ho Ha. exact (Hw f a o (find_field_in _ _ _ Ef) Ha Ho).
Qed.

Section Part.
  Variables (S : schema) (tmA tmB : tmap).
  Let defs := s_defs S.
  Hypothesis GA : tm_good defs tmA.
  Hypothesis GB : tm_good defs tmB.
  Hypothesis CA : closed defs tmA.
  Hypothesis CB : closed defs tmB.
  Hypothesis Hincl : incl (ids tmA) (ids tmB).

  Lemma possible_part a o : In a (ids tmA) -> In o (ids tmA) ->
    possible (view_types defs tmA) a o = possible (view_types defs tmB) a o.
  Proof.
    intros Ha Ho. unfold possible.
    destruct (vfind_view defs tmA a Ha) as [n1 E1]. destruct (vfind_view defs tmB a (Hincl a Ha)) as [n2 E2].
    destruct (vfind_view defs tmA o Ho) as [n3 E3]. destruct (vfind_view defs tmB o (Hincl o Ho)) as [n4 E4].
    rewrite E1, E2, E3, E4. reflexivity.
  Qed.

  Lemma check_part : check_implementations (mk S tmB) = true -> check_implementations (mk S tmA) = true.
  Proof.
    intro H. unfold check_implementations in *. rewrite forallb_forall in *. intros o Ho.
    apply (in_objects (mk S tmA)) in Ho. destruct Ho as [HoA Hk].
    assert (HoB : In o (objects_of (mk S tmB))) by (apply (in_objects (mk S tmB)); split; [exact (Hincl o HoA)|exact Hk]).
    specialize (H o HoB). cbn [mk s_defs] in *. rewrite forallb_forall in *. intros i Hi. specialize (H i Hi).
    destruct (interface_in_map (mk S tmA) CA o i HoA Hi) as [HiA _].
    unfold assert_object_implements_interface in *. cbn [mk s_defs] in *.
    rewrite forallb_forall in *. intros jf Hjf. specialize (H jf Hjf).
    apply (field_implements_weaken (abstract_possible (mk S tmB)) (abstract_possible (mk S tmA)) _ _); [|exact H].
    intros f a o' Hf Hga Hgo Hp.
    pose proof (field_leaf_in_map (mk S tmA) CA i jf a HiA Hjf Hga) as Ha.
    pose proof (field_leaf_in_map (mk S tmA) CA o f o' HoA Hf Hgo) as Ho'.
    apply (abstract_possible_spec (mk S tmA) GA CA a o' Ha Ho').
    cbn [mk s_defs s_tm]. fold defs. rewrite (possible_part a o' Ha Ho').
    exact (proj1 (abstract_possible_spec (mk S tmB) GB CB a o' (Hincl a Ha) (Hincl o' Ho')) Hp).
  Qed.
End Part.

(* a map from which the reducer reaches the checked one passes the check itself *)
Lemma check_before fuel S ts tmA tmB : tm_good (s_defs S) tmA -> closed (s_defs S) tmA ->
  fold_res (add_type (s_defs S) fuel) ts tmA = OK tmB ->
  check_implementations (mk S tmB) = true -> check_implementations (mk S tmA) = true.
Proof.
  intros G C F. destruct (add_types_post _ _ _ _ _ F) as [P _].
  exact (check_part S tmA tmB G (add_types_good _ _ _ _ _ G F) C (post_closed _ _ _ C P) (proj1 P)).
Qed.

Lemma append_of_fold fuel : forall ts S tm, tm_good (s_defs S) (s_tm S) -> closed (s_defs S) (s_tm S) ->
  fold_res (add_type (s_defs S) fuel) ts (s_tm S) = OK tm -> check_implementations (mk S tm) = true ->
  append_types_fuel fuel S ts = OK (mk S tm).
Proof.
  induction ts as [|t r IH]; intros S tm G C Hf Hc; simpl in *.
  - inversion Hf; subst. destruct S; reflexivity.
  - destruct (add_type (s_defs S) fuel (s_tm S) t) as [tm1| |] eqn:Ea; try discriminate.
    pose proof (add_type_good _ _ _ _ _ G Ea) as G1.
    pose proof (post_closed _ _ _ C (proj1 (add_type_post _ _ _ _ _ Ea))) as C1.
    assert (E1 : append_type_fuel fuel S t = OK (mk S tm1)).
    { apply append_type_fuel_tm. exists tm1. split; [reflexivity|]. split; [exact Ea|].
      exact (check_before fuel S r tm1 tm G1 C1 Hf Hc). }
    rewrite E1. exact (IH (mk S tm1) tm G1 C1 Hf Hc).
Qed.

Theorem append_agrees_fuel : forall fuel c ts,
  (exists S2, new_schema_fuel fuel (with_types c ts) = OK S2) <->
  (exists S0 S1, new_schema_fuel fuel c = OK S0 /\ append_types_fuel fuel S0 ts = OK S1).
Proof.
  intros fuel c ts. split.
  - intros [S2 H2]. apply new_schema_fuel_tm in H2. destruct H2 as (Hok & tm2 & _ & F2 & I2).
    change (c_defs (with_types c ts)) with (c_defs c) in F2. rewrite initial_with_types, fold_res_app in F2.
    destruct (fold_res (add_type (c_defs c) fuel) (initial_types c) []) as [tm0| |] eqn:F0; try discriminate.
    pose proof (add_types_good _ _ _ _ _ (tm_wf_nil _ _) F0) as G0.
    pose proof (post_closed _ _ _ (closed_nil _) (proj1 (add_types_post _ _ _ _ _ F0))) as C0.
    assert (I0 : check_implementations (schema_of c tm0) = true)
      by exact (check_before fuel (schema_of c tm0) ts tm0 tm2 G0 C0 F2 I2).
    exists (schema_of c tm0), (schema_of c tm2). split.
    + apply new_schema_fuel_tm. split; [exact Hok|]. exists tm0. auto.
    + exact (append_of_fold fuel ts (schema_of c tm0) tm2 G0 C0 F2 I2).
  - intros (S0 & S1 & H0 & H1). apply new_schema_fuel_tm in H0. destruct H0 as (Hok & tm0 & -> & F0 & I0).
    destruct (append_types_fold _ _ _ _ H1) as (tm & _ & Ef & Hc). cbn [schema_of s_defs s_tm] in Ef.
    exists (schema_of (with_types c ts) tm). apply new_schema_fuel_tm. split; [exact Hok|]. exists tm. split; [reflexivity|].
    change (c_defs (with_types c ts)) with (c_defs c). rewrite initial_with_types, fold_res_app, F0. split; [exact Ef|].
    destruct Hc as [->|Hc]; [inversion Ef; subst; exact I0|exact Hc].
Qed.

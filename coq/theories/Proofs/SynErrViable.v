(* "The first token at which the text stops being the beginning of anything valid": first_nonviable
   for any fuel-indexed recogniser with one-token lookahead (instances: values, types, documents), and
   parse_report_facts, the one case analysis of what the model reports on a source. *)
From Coq Require Import String List NArith Bool Lia PeanoNat.
From GQL Require Import Base.Bytes Syntax.Lexer Syntax.Ast Syntax.Parser Syntax.Grammar
  SynErr.LexErr SynErr.ParseErr SynErr.Viable.
From GQL Require Import Proofs.SyntaxSound Proofs.SyntaxComplete Proofs.SyntaxCompleteSDL Proofs.SynErrWB Proofs.SynErrErase
  Proofs.SynErrMain Proofs.SynErrLang Proofs.SynErrViableAll Proofs.SynErrViableSDL.
Import ListNotations.
Open Scope N_scope.

Theorem first_nonviable : forall (g : nat -> R) (L : lang),
  (forall n m, (n <= m)%nat -> Sim (g n) (g m)) -> (forall n, CompL (g n) L) ->
  (forall p, L p -> exists n, forall m, (n <= m)%nat -> exists r, g m p = OkE r) ->
  forall fuel u t rest, g fuel (u ++ t :: rest) = ErrE (t :: rest) ->
  (exists cont, L (u ++ cont)) /\ (forall q, ~ L (u ++ t :: q)).
Proof.
  intros g L S C K fuel u t rest H. split.
  - destruct (C _ _ _ H) as (u' & E & X). apply app_inv_tail in E. subst u'. exact X.
  - intros q D. destruct (K _ D) as [n Kn]. destruct (Kn (fuel + n)%nat ltac:(lia)) as [r Hr].
    (* with that much fuel the failure is still at t, also when q follows t *)
    rewrite (sim_lerr _ _ (S fuel (fuel + n)%nat ltac:(lia)) u (t :: rest) (t :: q) H eq_refl) in Hr. discriminate Hr.
Qed.

Theorem value_viable_prefix : forall fuel c u t rest, parse_valueE fuel c (u ++ t :: rest) = ErrE (t :: rest) ->
  (exists cont v, DValue c (u ++ cont) v) /\ (forall q v, ~ DValue c (u ++ t :: q) v).
Proof.
  intros fuel c u t rest H.
  apply (first_nonviable (fun n => parse_valueE n c) (LangOf (DValue c)) (Sim_parse_valueE c) (fun n => CompL_value n c)) in H;
    [destruct H as [V N]|].
  2:{ intros p [v D]. exists (S (length p)). intros m Hm. exists [].
    pose proof (parse_value_complete m c _ _ D Hm 0 []) as Cp. rewrite app_nil_r in Cp.
    exact (Er_ok _ _ _ (Er_parse_value m c) _ _ _ _ _ Cp). }
  split; [exact V|]. intros q v D. apply (N q). exists v. exact D.
Qed.

Theorem type_viable_prefix : forall fuel u t rest, parse_typeE fuel (u ++ t :: rest) = ErrE (t :: rest) ->
  (exists cont ty, DType (u ++ cont) ty) /\ (forall q ty, ~ DType (u ++ t :: q) ty).
Proof.
  intros fuel u t rest H.
  apply (first_nonviable parse_typeE (LangOf DType) Sim_parse_typeE CompL_type) in H; [destruct H as [V N]|].
  2:{ intros p [ty D]. exists (S (length p)). intros m Hm. exists [].
    pose proof (parse_type_complete m _ _ D Hm 0 [] ltac:(discriminate)) as Cp. rewrite app_nil_r in Cp.
    exact (Er_ok _ _ _ (Er_parse_type m) _ _ _ _ _ Cp). }
  split; [exact V|]. intros q ty D. apply (N q). exists ty. exact D.
Qed.

Lemma accepts_sound : forall u, accepts u = true -> exists d, parse_tokens (u ++ [weof]) = Ok d.
Proof.
  intros u A. apply parse_tokens_ok_iff. unfold accepts in A.
  destruct (parse_tokensE (u ++ [weof])) as [[|x r]|r|]; try discriminate A. reflexivity.
Qed.

Lemma complete_sound : forall n u w, complete n u = Some w -> exists d, parse_tokens (u ++ w ++ [weof]) = Ok d.
Proof.
  induction n as [|n IH]; intros u w H; cbn [complete] in H; destruct (accepts u) eqn:A;
    try (injection H as <-; exact (accepts_sound _ A)); [discriminate H|].
  destruct (find (fun c => gets_past (u ++ [c])) candidates) as [c|]; [|discriminate H].
  destruct (complete n (u ++ [c])) as [w'|] eqn:C; [|discriminate H]. injection H as <-.
  destruct (IH _ _ C) as [d Hd]. exists d. rewrite <- app_assoc in Hd. exact Hd.
Qed.

Theorem viable_witness_sound : forall u w, viable_witness u = Some w -> exists d, parse_tokens (u ++ w ++ [weof]) = Ok d.
Proof. intros u w. apply complete_sound. Qed.

Lemma before_app : forall (u r : list token), before (u ++ r) r = u.
Proof.
  intros u r. unfold before. rewrite app_length, Nat.add_sub.
  rewrite firstn_app, Nat.sub_diag, firstn_all. cbn [firstn]. apply app_nil_r.
Qed.

Definition viable (u : list token) : Prop := exists cont d, Derives (u ++ cont) d.

Theorem doc_viable : forall ts r, parse_tokensE ts = ErrE r -> exists u, ts = u ++ r /\ viable u.
Proof. intros ts r H. exact (CompL_document _ _ _ H). Qed.

Lemma stop_facts : forall u t r, parse_tokensE (u ++ t :: r) = ErrE (t :: r) ->
  no_extension u t /\ prefix_consumed u /\ viable u.
Proof.
  intros u t r H. split; [exact (no_extension_of_local _ _ _ H)|]. split.
  - unfold prefix_consumed. apply (no_failure_inside u (t :: r)). intros r0 Hr0. rewrite H in Hr0. injection Hr0 as <-. apply le_n.
  - destruct (doc_viable _ _ H) as (u' & E & X). apply app_inv_tail in E. subst u'. exact X.
Qed.

Lemma past_facts : forall pre x, (forall r, parse_tokensE (pre ++ [x]) = ErrE r -> (length r <= 1)%nat) ->
  prefix_consumed pre /\ viable pre.
Proof.
  intros pre x H. split; [exact (no_failure_inside pre [x] H)|].
  destruct (parse_tokensE (pre ++ [x])) as [r|r|] eqn:P.
  - assert (R : r = []).
    { unfold parse_tokensE, parse_documentE, seqE, endE in P.
      destruct (many1E _ _ EOF (pre ++ [x])) as [[|y m]| |]; congruence. }
    subst r. destruct (proj2 (parse_tokens_ok_iff _) P) as [d Pd]. exists [x], d. exact (parse_tokens_sound _ _ Pd).
  - destruct (doc_viable _ _ P) as (u & E & cont & d & D). specialize (H r eq_refl).
    destruct r as [|y [|z r]]; [| |cbn in H; lia].
    + rewrite app_nil_r in E. subst u. exists ([x] ++ cont), d. rewrite app_assoc. exact D.
    + apply app_inj_tail in E. destruct E as [-> _]. exists cont, d. exact D.
  - destruct (parse_tokensE_nofuel _ P).
Qed.

Theorem parse_report_facts : forall src rp, parse_report src = Some rp ->
  parse_err_ext src = Some (r_off rp, r_lo rp, r_hi rp) /\ prefix_consumed (r_before rp) /\ viable (r_before rp) /\
  if r_lexical rp
  then r_before rp = tokens_of src /\ exists s, snd (lexE src) = LBad s (r_off rp) /\ r_lo rp = s /\ r_hi rp = r_off rp
  else exists t r, tokens_of src = r_before rp ++ t :: r /\ (r_off rp, r_lo rp, r_hi rp) = tok_ext t /\
                   no_extension (r_before rp) t.
Proof.
  intros src rp H. unfold parse_report in H. unfold parse_err_ext, tokens_of.
  destruct (lexE src) as [ts [| s e |]] eqn:L; cbn [fst snd]; [| |discriminate H].
  - destruct (parse_tokensE ts) as [r|[|t r]|] eqn:P; try discriminate H.
    + (* the whole stream consumed and refused: reported at its last token, the EOF token *)
      destruct (lexE_done _ _ L) as [mb Lx]. destruct (lex_shape _ _ _ Lx) as (body & e & -> & Ke & Fb).
      rewrite last_last in *. rewrite removelast_last in H.
      destruct (tok_ext e) as [[o l] h] eqn:T. injection H as <-. cbn.
      destruct (past_facts body e) as [PC V]; [rewrite P; intros r [= <-]; apply le_0_n|].
      repeat split; try assumption. exists e, []. split; [reflexivity|]. split; [symmetry; exact T|]. exact (no_extension_eof _ _ _ Ke Fb P).
    + destruct (sim_err _ _ (WB_parse_documentE _) _ _ P) as [u ->]. rewrite before_app in H.
      destruct (tok_ext t) as [[o l] h] eqn:T. injection H as <-. cbn.
      destruct (stop_facts _ _ _ P) as (NE & PC & V). repeat split; try assumption. exists t, r. auto using eq_sym.
  - (* the lexer stopped at byte s: the parser reports only if it stops in front of the end marker *)
    destruct (parse_tokensE (ts ++ [end_marker s])) as [r|[|t [|t2 r]]|] eqn:P.
    4:{ destruct (sim_err _ _ (WB_parse_documentE _) _ _ P) as [u Hu].
      destruct (app_last_split _ _ _ _ _ Hu ltac:(discriminate)) as (r' & Hr & ->).
      rewrite Hu, before_app in H. rewrite Hu in P.
      destruct (tok_ext t) as [[o l] h] eqn:T. injection H as <-. cbn.
      destruct (stop_facts _ _ _ P) as (NE & PC & V). repeat split; try assumption. exists t, r'. auto using eq_sym. }
    all: injection H as <-; cbn; destruct (past_facts ts (end_marker s)) as [PC V];
      [rewrite P; intros r0 E0; try discriminate E0; injection E0 as <-; cbn; lia|];
      repeat split; try assumption; exists s; auto.
Qed.

Lemma report_of_err : forall src x, parse_err_ext src = Some x ->
  exists rp, parse_report src = Some rp /\ x = (r_off rp, r_lo rp, r_hi rp).
Proof.
  intros src x. unfold parse_err_ext, parse_report.
  destruct (lexE src) as [ts [| s e |]]; [| |discriminate].
  - destruct (parse_tokensE ts) as [r|[|t r]|]; try discriminate;
      destruct (tok_ext _) as [[o l] h]; intros [= <-]; eexists; split; reflexivity.
  - destruct (parse_tokensE (ts ++ [end_marker s])) as [r|[|t [|t2 r]]|];
      try destruct (tok_ext _) as [[o l] h]; intros [= <-]; eexists; split; reflexivity.
Qed.

Theorem parse_report_spec : forall src rp, parse_report src = Some rp ->
  parse_err_ext src = Some (r_off rp, r_lo rp, r_hi rp) /\
  (if r_lexical rp
   then r_before rp = tokens_of src /\ exists s, snd (lexE src) = LBad s (r_off rp)
   else exists t r, tokens_of src = r_before rp ++ t :: r /\ (r_off rp, r_lo rp, r_hi rp) = tok_ext t).
Proof.
  intros src rp H. destruct (parse_report_facts _ _ H) as (E & _ & _ & F). split; [exact E|].
  destruct (r_lexical rp); [destruct F as (B & s & S & _)|destruct F as (t & r & T & X & _)]; eauto.
Qed.

Theorem parse_err_position : forall src off lo hi, parse_err_ext src = Some (off, lo, hi) ->
  (exists u t r, tokens_of src = u ++ t :: r /\ (off, lo, hi) = tok_ext t /\
                 no_extension u t /\ prefix_consumed u) \/
  (exists s, snd (lexE src) = LBad s off /\ lo = s /\ hi = off /\ prefix_consumed (tokens_of src)).
Proof.
  intros src off lo hi H. destruct (report_of_err _ _ H) as (rp & R & [= -> -> ->]).
  destruct (parse_report_facts _ _ R) as (_ & PC & _ & F).
  destruct (r_lexical rp); [right|left].
  - destruct F as (<- & s & S & A & B). exists s. auto.
  - destruct F as (t & r & T & X & NE). exists (r_before rp), t, r. auto.
Qed.

Theorem token_first_nonviable : forall u t rest, parse_tokensE (u ++ t :: rest) = ErrE (t :: rest) ->
  (exists cont d, Derives (u ++ cont) d) /\ (forall q d, ~ Derives (u ++ t :: q) d).
Proof.
  intros u t rest H. unfold parse_tokensE in H.
  apply (first_nonviable parse_documentE (fun p => exists d, Derives p d) Sim_parse_documentE CompL_document) in H;
    [destruct H as [V N]|].
  - split; [exact V|]. intros q d D. apply (N q). exists d. exact D.
  - intros p [d D]. exists (S (2 * length p)). intros m Hm. exists [].
    rewrite (docE_fuel p m Hm). apply parse_tokens_ok_iff. exists d. exact (parse_tokens_complete _ _ D).
Qed.

Theorem report_first_nonviable : forall src rp, parse_report src = Some rp ->
  (exists cont d, Derives (r_before rp ++ cont) d) /\
  (r_lexical rp = false ->
   exists t r, tokens_of src = r_before rp ++ t :: r /\ r_off rp = tstart t /\ parse_err src = Some (tstart t) /\
     forall src' rest' mb' d, lex src' = Ok (r_before rp ++ t :: rest', mb') -> ~ Derives (r_before rp ++ t :: rest') d).
Proof.
  intros src rp H. destruct (parse_report_facts _ _ H) as (E & _ & V & F). split; [exact V|].
  intro NL. rewrite NL in F. destruct F as (t & r & T & X & NE). exists t, r.
  unfold tok_ext in X. injection X as X1 X2 X3.
  split; [exact T|]. split; [exact X1|]. split; [unfold parse_err; rewrite E, X1; reflexivity|].
  intros src' rest' mb' d L D. pose proof (NE _ _ _ L) as P. unfold parse in P. rewrite L in P.
  rewrite (parse_tokens_complete _ _ D) in P. discriminate P.
Qed.

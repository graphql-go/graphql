(* C09 (totality of the result shape): the dethunk pass leaves nothing deferred,
   a request without data carries an error, graphql.Do's result is well formed,
   and more fuel never changes a result that is not "out of fuel".

   The executor is a state-and-failure monad written out with matches.  Its
   unfolding equations are stated here with [xbind] (ExecuteField by its stages in
   Proofs/ExecField.v); a property of results is an [xsat P PR PF] (values satisfy P,
   a raise needs PR, running out of fuel needs PF) and "the same with more fuel" is
   [xle]; both go through [xbind], [catch_at] and the three list loops, so a theorem
   about the executor is one induction on the fuel that follows the equations.  That
   deferred values sit at nullable types is part of the invariant of Proofs/ExecInv.v. *)
From Coq Require Import List ZArith NArith String Bool Lia.
From GQL Require Import Exec.Syntax Exec.Coerce Exec.Exec Exec.Request Total.Result
     Proofs.TotalCoerce Proofs.TotalCollect Proofs.ExecField Proofs.ExecInv.
Import ListNotations.
Open Scope list_scope.

Definition xbind {A B : Type} (r : xres A) (k : A -> st -> xres B) : xres B :=
  match r with
  | XOk a s => k a s
  | XRaise e s => XRaise e s
  | XFuel => XFuel
  end.

Definition xsat {A : Type} (P : A -> Prop) (PR PF : Prop) (r : xres A) : Prop :=
  match r with
  | XOk a _ => P a
  | XRaise _ _ => PR
  | XFuel => PF
  end.

Lemma xsat_ok : forall A (P : A -> Prop) (PR PF : Prop) r a s, xsat P PR PF r -> r = XOk a s -> P a.
Proof. intros A P PR PF r a s H ->. exact H. Qed.

Lemma xsat_weaken : forall A (P Q : A -> Prop) (PR PF : Prop) r,
  (forall a, P a -> Q a) -> xsat P PR PF r -> xsat Q PR PF r.
Proof. intros A P Q PR PF [a s|e s|] H; simpl; auto. Qed.

Lemma xsat_bind : forall A B (P : A -> Prop) (Q : B -> Prop) (PR PF : Prop) r k,
  xsat P PR PF r -> (forall a s, P a -> xsat Q PR PF (k a s)) -> xsat Q PR PF (xbind r k).
Proof. intros A B P Q PR PF [a s|e s|] k Hr Hk; simpl in *; auto. Qed.

Lemma xsat_catch : forall (P : presp -> Prop) (PR PF : Prop) t r,
  (PR -> P QNull) -> xsat P PR PF r -> xsat P PR PF (catch_at t r).
Proof.
  intros P PR PF t [q s|e s|] Hn Hr; simpl in *; auto. destruct (is_nonnull t); simpl; auto.
Qed.

Lemma xsat_items : forall (P : presp -> Prop) (PR PF : Prop) cmp l i s,
  (forall i x s, xsat P PR PF (cmp i x s)) -> xsat (Forall P) PR PF (items_loop cmp l i s).
Proof.
  intros P PR PF cmp l. induction l as [|x r IH]; intros i s H; simpl; [constructor|].
  apply (xsat_bind _ _ P _ _ _ _ _ (H i x s)). intros y s1 Hy.
  apply (xsat_bind _ _ (Forall P) _ _ _ _ _ (IH _ s1 H)). intros ys s2 Hys. constructor; assumption.
Qed.

Lemma xsat_dlist : forall (Pin P : presp -> Prop) (PR PF : Prop) f l s,
  (forall x s, Pin x -> xsat P PR PF (f x s)) -> Forall Pin l ->
  xsat (Forall P) PR PF (dethunk_list f l s).
Proof.
  intros Pin P PR PF f l. induction l as [|x r IH]; intros s H Hl; simpl; [constructor|].
  apply Forall_cons_iff in Hl. destruct Hl as [Hx Hr].
  apply (xsat_bind _ _ P _ _ _ _ _ (H x s Hx)). intros y s1 Hy.
  apply (xsat_bind _ _ (Forall P) _ _ _ _ _ (IH s1 H Hr)). intros ys s2 Hys. constructor; assumption.
Qed.

Lemma xsat_dfields : forall (Pin P : presp -> Prop) (PR PF : Prop) f l s,
  (forall x s, Pin x -> xsat P PR PF (f x s)) ->
  Forall (fun kv : name * presp => Pin (snd kv)) l ->
  xsat (Forall (fun kv : name * presp => P (snd kv))) PR PF (dethunk_fields f l s).
Proof.
  intros Pin P PR PF f l. induction l as [|[k x] r IH]; intros s H Hl; simpl; [constructor|].
  apply Forall_cons_iff in Hl. destruct Hl as [Hx Hr].
  apply (xsat_bind _ _ P _ _ _ _ _ (H x s Hx)). intros y s1 Hy.
  apply (xsat_bind _ _ (Forall (fun kv : name * presp => P (snd kv))) _ _ _ _ _ (IH s1 H Hr)).
  intros ys s2 Hys. constructor; assumption.
Qed.

Definition xle {A : Type} (r r' : xres A) : Prop := r <> XFuel -> r' = r.

Lemma xle_refl : forall A (r : xres A), xle r r.
Proof. intros A r _. reflexivity. Qed.

Lemma xle_bind : forall A B (r r' : xres A) (k k' : A -> st -> xres B),
  xle r r' -> (forall a s, xle (k a s) (k' a s)) -> xle (xbind r k) (xbind r' k').
Proof.
  intros A B [a s|e s|] r' k k' Hr Hk H; [| |destruct (H eq_refl)];
    rewrite (Hr ltac:(discriminate)); [exact (Hk a s H) | reflexivity].
Qed.

Lemma xle_catch : forall t r r', xle r r' -> xle (catch_at t r) (catch_at t r').
Proof.
  intros t [q s|e s|] r' Hr H; [| |destruct (H eq_refl)]; rewrite (Hr ltac:(discriminate)); reflexivity.
Qed.

Lemma xle_ofuel : forall A B (a a' : option A) (k k' : A -> xres B),
  ole a a' -> (forall x, xle (k x) (k' x)) ->
  xle (match a with Some x => k x | None => XFuel end)
      (match a' with Some x => k' x | None => XFuel end).
Proof.
  intros A B [x|] a' k k' Ha Hk H; [rewrite (Ha x eq_refl); apply Hk, H | contradiction H; reflexivity].
Qed.

Lemma xle_items : forall cmp cmp' l i s,
  (forall i x s, xle (cmp i x s) (cmp' i x s)) -> xle (items_loop cmp l i s) (items_loop cmp' l i s).
Proof.
  intros cmp cmp' l. induction l as [|x r IH]; intros i s H; simpl; [apply xle_refl|].
  apply xle_bind; [apply H|]. intros y s1. apply xle_bind; [apply IH, H|]. intros; apply xle_refl.
Qed.

Lemma xle_dlist : forall f f' l s,
  (forall x s, xle (f x s) (f' x s)) -> xle (dethunk_list f l s) (dethunk_list f' l s).
Proof.
  intros f f' l. induction l as [|x r IH]; intros s H; simpl; [apply xle_refl|].
  apply xle_bind; [apply H|]. intros y s1. apply xle_bind; [apply IH, H|]. intros; apply xle_refl.
Qed.

Lemma xle_dfields : forall f f' l s,
  (forall x s, xle (f x s) (f' x s)) -> xle (dethunk_fields f l s) (dethunk_fields f' l s).
Proof.
  intros f f' l. induction l as [|[k x] r IH]; intros s H; simpl; [apply xle_refl|].
  apply xle_bind; [apply H|]. intros y s1. apply xle_bind; [apply IH, H|]. intros; apply xle_refl.
Qed.

Lemma forallb_Forall : forall A (f : A -> bool) l,
  forallb f l = true <-> Forall (fun x => f x = true) l.
Proof. intros A f l. rewrite forallb_forall, Forall_forall. reflexivity. Qed.

Lemma dethunk_S : forall fuel E q s,
  dethunk (S fuel) E q s =
  match q with
  | QNull => XOk QNull s
  | QLeaf v => XOk (QLeaf v) s
  | QList l => xbind (dethunk_list (dethunk fuel E) l s) (fun ys s' => XOk (QList ys) s')
  | QObj l => xbind (dethunk_fields (dethunk fuel E) l s) (fun ys s' => XOk (QObj ys) s')
  | QThunk t nodes occs p o =>
    xbind (catch_at t (match o with
                       | OVal v => complete fuel E t nodes occs p p v s
                       | _ => XRaise {| e_path := p; e_nodes := nodes |} s
                       end))
          (dethunk fuel E)
  end.
Proof. intros fuel E q s. destruct q; reflexivity. Qed.

Definition nonnull_check (p : path) (nodes : list N) (q : presp) (s : st) : xres presp :=
  match q with
  | QNull => XRaise {| e_path := p; e_nodes := nodes |} s
  | _ => XOk q s
  end.

Definition complete_named (fuel : nat) (E : env) (n : name) (nodes : list N) (occs : list occ)
           (fpath p : path) (v : rv) (s : st) : xres presp :=
  match lookup_type (en_S E) n with
  | Some (TScalar k) =>
    let j := serialize_scalar k v in XOk (if nullish j then QNull else QLeaf j) s
  | Some (TEnum vals) =>
    let j := serialize_enum vals v in XOk (if nullish j then QNull else QLeaf j) s
  | Some (TObject _ _) => exec_object fuel E n occs p v s
  | Some (TInterface _) | Some (TUnion _) =>
    let s1 := add_tcall (fpath, v) s in
    match en_tor E v with
    | Some rt =>
      if possible_type (en_S E) n rt then exec_object fuel E rt occs p v s1
      else XRaise {| e_path := p; e_nodes := nodes |} s1
    | None => XRaise {| e_path := p; e_nodes := nodes |} s1
    end
  | _ => XRaise {| e_path := p; e_nodes := nodes |} s
  end.

Lemma complete_S : forall fuel E t nodes occs fpath p v s,
  complete (S fuel) E t nodes occs fpath p v s =
  match t with
  | TNonNull t' => xbind (complete fuel E t' nodes occs fpath p v s) (nonnull_check p nodes)
  | TList t' =>
    if rv_nullish v then XOk QNull s
    else match v with
         | RList l =>
           xbind (items_loop (fun i x s0 =>
                                catch_at t' (complete fuel E t' nodes occs fpath (p ++ [PIdx i]) x s0))
                             l 0%N s)
                 (fun ys s' => XOk (QList ys) s')
         | _ => XRaise {| e_path := p; e_nodes := nodes |} s
         end
  | TNamed n =>
    if rv_nullish v then XOk QNull s
    else complete_named fuel E n nodes occs fpath p v s
  end.
Proof.
  intros fuel E t nodes occs fpath p v s. destruct t as [n|t|t]; try reflexivity.
  change (complete (S fuel) E (TNonNull t) nodes occs fpath p v s)
    with (match complete fuel E t nodes occs fpath p v s with
          | XOk QNull s' => XRaise {| e_path := p; e_nodes := nodes |} s'
          | r => r
          end).
  destruct (complete fuel E t nodes occs fpath p v s) as [[]| |]; reflexivity.
Qed.

Lemma exec_object_S : forall fuel E obj occs p src s,
  exec_object (S fuel) E obj occs p src s =
  match collect_all fuel (en_S E) (en_D E) (en_vars E) obj (map oc_sub occs) [] [] with
  | Some g => xbind (exec_groups fuel E obj src g p s) (fun fs s' => XOk (QObj fs) s')
  | None => XFuel
  end.
Proof. reflexivity. Qed.

Lemma xsat_field_rest : forall (P : presp -> Prop) (PF : Prop) cmp dth ser t nodes occs fp ot s2,
  P QNull ->
  (is_nonnull t = false -> P (QThunk t nodes occs fp (fst ot))) ->
  (forall v, xsat P True PF (cmp t nodes occs fp fp v s2)) ->
  (forall y s', P y -> xsat P True PF (dth y s')) ->
  xsat (fun y => match y with Some q => P q | None => True end) True PF
       (field_rest cmp dth ser t nodes occs fp ot s2).
Proof.
  intros P PF cmp dth ser t nodes occs fp [o th] s2 H0 Ht Hc Hd. cbn [fst] in Ht.
  rewrite field_rest_eq.
  assert (Hx : xsat P True PF (field_caught cmp t nodes occs fp o th s2)).
  { apply xsat_catch; [intros _; exact H0|]. unfold field_defer, on_outcome.
    destruct (th && negb (is_nonnull t)) eqn:Hb;
      [apply andb_true_iff in Hb; apply Ht, negb_true_iff, Hb|].
    destruct o as [v| |v| | | |o']; try (destruct th; exact I).
    specialize (Hc v). destruct (cmp _ _ _ _ _ _ _); [exact Hc | destruct th; exact I | exact Hc]. }
  unfold field_finish. destruct (field_caught _ _ _ _ _ _ _ _) as [y s'|e s'|]; [|exact I|exact Hx].
  destruct ser; [|exact Hx]. specialize (Hd y s' Hx). destruct (dth y s'); [exact Hd | exact I | exact Hd].
Qed.

Lemma xle_field_rest : forall cmp cmp' dth dth' ser t nodes occs fp ot s2,
  (forall v, xle (cmp t nodes occs fp fp v s2) (cmp' t nodes occs fp fp v s2)) ->
  (forall y s', xle (dth y s') (dth' y s')) ->
  xle (field_rest cmp dth ser t nodes occs fp ot s2) (field_rest cmp' dth' ser t nodes occs fp ot s2).
Proof.
  intros cmp cmp' dth dth' ser t nodes occs fp [o th] s2 Hc Hd. unfold field_rest, field_finish.
  apply xle_bind.
  - apply xle_catch. unfold field_defer, on_outcome.
    destruct (th && negb (is_nonnull t)); [apply xle_refl|].
    destruct o as [v| |v| | | |o']; try apply xle_refl.
    intro H. rewrite Hc; [reflexivity|]. intro Hx. apply H. rewrite Hx. reflexivity.
  - intros y s'. destruct ser; [|apply xle_refl].
    apply xle_bind; [apply Hd | intros; apply xle_refl].
Qed.

Lemma exec_groups_S : forall fuel E obj src g p s,
  exec_groups (S fuel) E obj src g p s =
  match g with
  | [] => XOk [] s
  | (k, occs) :: rest =>
    xbind (exec_field fuel (complete fuel E) (dethunk fuel E) E obj src k occs p s) (fun y s' =>
    xbind (exec_groups fuel E obj src rest p s') (fun ys s'' =>
    XOk (match y with Some y => (k, y) :: ys | None => ys end) s''))
  end.
Proof. intros fuel E obj src g p s. destruct g as [|[k occs] rest]; reflexivity. Qed.

Lemma dethunk_no_thunk : forall fuel E q s,
  xsat (fun q' => no_thunk q' = true) True True (dethunk fuel E q s).
Proof.
  induction fuel as [|fuel IH]; intros E q s; [exact I|].
  rewrite dethunk_S. destruct q as [|v|l|l|t nodes occs p o]; try reflexivity.
  - eapply xsat_bind.
    + apply (xsat_dlist (fun _ => True)); [intros x s0 _; apply IH | apply Forall_forall; trivial].
    + intros ys s' H. apply forallb_Forall, H.
  - eapply xsat_bind.
    + apply (xsat_dfields (fun _ => True)); [intros x s0 _; apply IH | apply Forall_forall; trivial].
    + intros ys s' H. apply (forallb_Forall _ (fun kv => no_thunk (snd kv))), H.
  - apply (xsat_bind _ _ (fun _ => True)); [destruct (catch_at t _); exact I|]. intros y s' _. apply IH.
Qed.

Lemma request_no_deferred : forall fuel S D op inputs root or tor d s,
  request fuel S D op inputs root or tor = RDone (Some d) s ->
  exists q, no_thunk q = true /\ d = to_resp q.
Proof.
  intros fuel S D op inputs root or tor d s H. unfold request in H.
  destruct (get_operation D op) as [o|]; [|discriminate H].
  destruct (root_type S o) as [rt|]; [|discriminate H].
  destruct (get_variable_values fuel S (o_vars o) inputs) as [[vars|b]|]; try discriminate H.
  destruct (collect fuel S D vars rt (o_sel o) [] []) as [[g vis]|]; [|discriminate H].
  destruct (exec_groups _ _ _ _ _ _ _) as [fs s1|e s1|]; try discriminate H.
  destruct (dethunk _ _ _ _) as [q s2|e s2|] eqn:Hd; try discriminate H.
  injection H as <- <-. exists q. split; [|reflexivity].
  exact (xsat_ok _ _ _ _ _ _ _ (dethunk_no_thunk _ _ _ _) Hd).
Qed.

Fixpoint no_thunk_nullable (q : presp) : no_thunk q = true -> thunks_nullable q = true.
Proof.
  destruct q as [|v|l|l|t nodes occs p o]; cbn; intro H; try reflexivity; try discriminate H.
  - induction l as [|x r IHr]; [reflexivity|].
    cbn in H |- *. apply andb_true_iff in H. destruct H as [Hx Hr].
    rewrite (no_thunk_nullable x Hx). exact (IHr Hr).
  - induction l as [|[k x] r IHr]; [reflexivity|].
    cbn in H |- *. apply andb_true_iff in H. destruct H as [Hx Hr].
    rewrite (no_thunk_nullable x Hx). exact (IHr Hr).
Qed.

Fixpoint thunks_ok_nullable (q : presp) : forall p, thunks_ok p q -> thunks_nullable q = true.
Proof.
  destruct q as [|v|l|l|t nodes occs p0 o]; intros p H; cbn; try reflexivity.
  - apply thunks_ok_list in H. induction l as [|x r IHr]; [reflexivity|].
    apply Forall_cons_iff in H. destruct H as [Hx Hr].
    cbn. rewrite (thunks_ok_nullable x p Hx). exact (IHr Hr).
  - apply thunks_ok_obj in H. induction l as [|[k x] r IHr]; [reflexivity|].
    apply Forall_cons_iff in H. destruct H as [Hx Hr].
    cbn. rewrite (thunks_ok_nullable x p Hx). exact (IHr Hr).
  - apply Forall_inv in H. destruct H as [Hn _]. cbn [fst] in Hn. rewrite Hn. reflexivity.
Qed.

Lemma complete_thunks_nullable : forall fuel E t nodes occs fpath p v s q s',
  complete fuel E t nodes occs fpath p v s = XOk q s' -> thunks_nullable q = true.
Proof.
  intros fuel E t nodes occs fpath p v s q s' H.
  pose proof (proj1 (exec_inv fuel) E t nodes occs fpath p v s) as Hi. rewrite H in Hi.
  exact (thunks_ok_nullable _ _ (proj2 Hi)).
Qed.

Lemma exec_object_thunks_nullable : forall fuel E obj occs p src s q s',
  exec_object fuel E obj occs p src s = XOk q s' -> thunks_nullable q = true.
Proof.
  intros fuel E obj occs p src s q s' H.
  pose proof (proj1 (proj2 (exec_inv fuel)) E obj occs p src s) as Hi. rewrite H in Hi.
  exact (thunks_ok_nullable _ _ (proj2 Hi)).
Qed.

Lemma dethunk_thunks_nullable : forall fuel E q s q' s',
  dethunk fuel E q s = XOk q' s' -> thunks_nullable q' = true.
Proof.
  intros fuel E q s q' s' H.
  exact (no_thunk_nullable _ (xsat_ok _ _ _ _ _ _ _ (dethunk_no_thunk fuel E q s) H)).
Qed.

(* the only way a request loses its data is a non-null failure during execution proper:
   the final dethunk pass cannot be the cause *)
Lemma request_dethunk_never_raises : forall fuel E obj src g p s fs s1 e s2,
  exec_groups fuel E obj src g p s = XOk fs s1 ->
  dethunk fuel E (QObj fs) s1 <> XRaise e s2.
Proof.
  intros fuel E obj src g p s fs s1 e s2 H Hd.
  pose proof (proj1 (proj2 (proj2 (exec_inv fuel))) E obj src g p s) as Hg. rewrite H in Hg.
  pose proof (proj2 (proj2 (proj2 (exec_inv fuel))) E (QObj fs) s1 p
                (thunks_ok_obj_intro _ _ (proj2 Hg))) as Hn.
  rewrite Hd in Hn. exact Hn.
Qed.

Lemma request_data_none_only_from_exec : forall fuel S D op inputs root or tor s,
  request fuel S D op inputs root or tor = RDone None s ->
  exists o rt vars g vis e s1,
    get_operation D op = Some o /\ root_type S o = Some rt /\
    get_variable_values fuel S (o_vars o) inputs = Some (inl vars) /\
    collect fuel S D vars rt (o_sel o) [] [] = Some (g, vis) /\
    exec_groups fuel
      {| en_S := S; en_D := D; en_vars := vars; en_or := or; en_tor := tor;
         en_serial := match o_kind o with OpMutation => true | _ => false end |}
      rt root g [] st0 = XRaise e s1 /\
    s = add_err e s1.
Proof.
  intros fuel S D op inputs root or tor s H. unfold request in H.
  destruct (get_operation D op) as [o|]; [|discriminate H].
  destruct (root_type S o) as [rt|] eqn:Hrt; [|discriminate H].
  destruct (get_variable_values fuel S (o_vars o) inputs) as [[vars|b]|] eqn:Hv; try discriminate H.
  destruct (collect fuel S D vars rt (o_sel o) [] []) as [[g vis]|] eqn:Hc; [|discriminate H].
  destruct (exec_groups _ _ _ _ _ _ _) as [fs s1|e s1|] eqn:Hg; try discriminate H.
  - destruct (dethunk _ _ _ _) as [q s2|e s2|] eqn:Hd; try discriminate H.
    destruct (request_dethunk_never_raises _ _ _ _ _ _ _ _ _ _ _ Hg Hd).
  - injection H as <-. exists o, rt, vars, g, vis, e, s1.
    exact (conj eq_refl (conj Hrt (conj Hv (conj Hc (conj Hg eq_refl))))).
Qed.

Lemma request_absent_data_has_error : forall fuel S D op inputs root or tor s,
  request fuel S D op inputs root or tor = RDone None s -> st_errs s <> [].
Proof.
  intros fuel S D op inputs root or tor s H.
  destruct (request_data_none_only_from_exec _ _ _ _ _ _ _ _ _ H)
    as (o & rt & vars & g & vis & e & s1 & _ & _ & _ & _ & _ & ->).
  intro Hn. apply app_eq_nil in Hn. destruct Hn as [_ Hn]. discriminate Hn.
Qed.

Lemma do_model_well_formed : forall parsed verrs fuel S op inputs root or tor d n c,
  do_model parsed verrs fuel S op inputs root or tor = DoRes d n c ->
  result_well_formed (do_shape parsed verrs d n) = true
  /\ ((parsed = None \/ (exists D, parsed = Some D /\ verrs D <> 0)) -> d = None /\ c = 0).
Proof.
  intros parsed verrs fuel S op inputs root or tor d n c H.
  assert (Hno : forall D, parsed = Some D -> verrs D = 0 ->
                  (parsed = None \/ (exists D', parsed = Some D' /\ verrs D' <> 0)) -> d = None /\ c = 0).
  { intros D -> Hv [Hp|[D' [Hp Hn]]]; [discriminate Hp|]. injection Hp as <-. contradiction (Hn Hv). }
  unfold do_model in H. unfold result_well_formed, do_shape; cbn.
  destruct parsed as [D|]; [|injection H as <- <- <-; repeat split].
  destruct (verrs D) as [|k] eqn:Hv; [|injection H as <- <- <-; repeat split].
  split; [|exact (Hno D eq_refl Hv)].
  destruct (request fuel S D op inputs root or tor) as [| |d' s] eqn:Hr; try discriminate H;
    injection H as <- <- <-; [reflexivity|].
  destruct d' as [r|]; [reflexivity|]. cbn. apply N.ltb_lt.
  pose proof (request_absent_data_has_error _ _ _ _ _ _ _ _ _ Hr) as Hne.
  destruct (st_errs s) as [|e l]; [congruence|]. cbn [List.length]. lia.
Qed.

Lemma get_argument_values_fuel_mono : forall fuel fuel' S defs args vars r,
  get_argument_values fuel S defs args vars = Some r -> fuel <= fuel' ->
  get_argument_values fuel' S defs args vars = Some r.
Proof.
  intros fuel fuel' S defs args vars r H Hle.
  exact (proj2 (get_argument_values_fuel S defs args vars _ _ fuel fuel' Hle
                  (Nat.le_max_l _ _) (Nat.le_max_r _ _) (le_n _)) r H).
Qed.

Lemma get_variable_values_fuel_mono : forall fuel fuel' S ds inputs r,
  get_variable_values fuel S ds inputs = Some r -> fuel <= fuel' ->
  get_variable_values fuel' S ds inputs = Some r.
Proof.
  intros fuel fuel' S ds inputs r H Hle. exact (proj2 (get_variable_values_fuel S ds inputs fuel fuel' Hle) r H).
Qed.

Lemma exec_fuel_mono_all : forall fuel fuel', fuel <= fuel' ->
  (forall E t nodes occs fpath p v s,
     xle (complete fuel E t nodes occs fpath p v s) (complete fuel' E t nodes occs fpath p v s)) /\
  (forall E obj occs p src s,
     xle (exec_object fuel E obj occs p src s) (exec_object fuel' E obj occs p src s)) /\
  (forall E obj src g p s,
     xle (exec_groups fuel E obj src g p s) (exec_groups fuel' E obj src g p s)) /\
  (forall E q s, xle (dethunk fuel E q s) (dethunk fuel' E q s)).
Proof.
  induction fuel as [|n IH]; intros fuel' Hle.
  { repeat split; intros; intro H; contradiction H; reflexivity. }
  destruct fuel' as [|n']; [lia|]. assert (Hle' : n <= n') by lia.
  destruct (IH n' Hle') as [IHc [IHo [IHg IHd]]].
  split; [|split; [|split]].
  - intros E t nodes occs fpath p v s. rewrite !complete_S. destruct t as [nm|t'|t'].
    + destruct (rv_nullish v); [apply xle_refl|]. unfold complete_named.
      destruct (lookup_type (en_S E) nm) as [[k|vals|fs ifs|fs|ms|fs]|];
        try apply xle_refl; try apply IHo;
        (destruct (en_tor E v) as [rt|]; [|apply xle_refl]);
        (destruct (possible_type _ _ _); [apply IHo|apply xle_refl]).
    + destruct (rv_nullish v); [apply xle_refl|]. destruct v as [| | | | |l| | | |]; try apply xle_refl.
      apply xle_bind; [|intros; apply xle_refl].
      apply xle_items. intros i x s0. apply xle_catch, IHc.
    + apply xle_bind; [apply IHc | intros; apply xle_refl].
  - intros E obj occs p src s. rewrite !exec_object_S.
    apply xle_ofuel; [intros g Hg; exact (collect_all_fuel_mono _ _ _ _ _ _ _ _ _ _ Hg Hle')|].
    intro g. apply xle_bind; [apply IHg | intros; apply xle_refl].
  - intros E obj src g p s. rewrite !exec_groups_S. destruct g as [|[k occs] rest]; [apply xle_refl|].
    apply xle_bind; [|intros y s'; apply xle_bind; [apply IHg | intros; apply xle_refl]].
    rewrite !exec_field_unfold. cbv zeta. destruct (String.eqb _ "__typename"); [apply xle_refl|].
    destruct (find_field _ _) as [fd|]; [|apply xle_refl].
    apply xle_ofuel; [intros a Ha; exact (get_argument_values_fuel_mono _ _ _ _ _ _ _ Ha Hle')|].
    intro args. apply xle_field_rest; [intro v; apply IHc | apply IHd].
  - intros E q s. rewrite !dethunk_S. destruct q as [|v|l|l|t nodes occs p o]; try apply xle_refl.
    + apply xle_bind; [apply xle_dlist, IHd | intros; apply xle_refl].
    + apply xle_bind; [apply xle_dfields, IHd | intros; apply xle_refl].
    + apply xle_bind; [|apply IHd]. apply xle_catch. destruct o; try apply xle_refl. apply IHc.
Qed.

Lemma complete_fuel_mono : forall fuel fuel' E t nodes occs fpath p v s r,
  complete fuel E t nodes occs fpath p v s = r -> r <> XFuel -> fuel <= fuel' ->
  complete fuel' E t nodes occs fpath p v s = r.
Proof.
  intros fuel fuel' E t nodes occs fpath p v s r <- Hr Hle.
  exact (proj1 (exec_fuel_mono_all fuel fuel' Hle) _ _ _ _ _ _ _ _ Hr).
Qed.

Lemma exec_object_fuel_mono : forall fuel fuel' E obj occs p src s r,
  exec_object fuel E obj occs p src s = r -> r <> XFuel -> fuel <= fuel' ->
  exec_object fuel' E obj occs p src s = r.
Proof.
  intros fuel fuel' E obj occs p src s r <- Hr Hle.
  exact (proj1 (proj2 (exec_fuel_mono_all fuel fuel' Hle)) _ _ _ _ _ _ Hr).
Qed.

Theorem request_fuel_mono : forall fuel fuel' S D op inputs root or tor r,
  request fuel S D op inputs root or tor = r -> r <> RFuel -> fuel <= fuel' ->
  request fuel' S D op inputs root or tor = r.
Proof.
  intros fuel fuel' S D op inputs root or tor r <- Hr Hle. revert Hr. unfold request.
  destruct (exec_fuel_mono_all fuel fuel' Hle) as [_ [_ [IHg IHd]]].
  destruct (get_operation D op) as [o|]; [|reflexivity].
  destruct (root_type S o) as [rt|]; [|reflexivity].
  destruct (get_variable_values fuel S (o_vars o) inputs) as [vv|] eqn:Hv;
    [|intro Hr; contradiction Hr; reflexivity].
  rewrite (get_variable_values_fuel_mono _ _ _ _ _ _ Hv Hle).
  destruct vv as [vars|b]; [|reflexivity].
  destruct (collect fuel S D vars rt (o_sel o) [] []) as [[g vis]|] eqn:Hc;
    [|intro Hr; contradiction Hr; reflexivity].
  rewrite (collect_fuel_mono _ _ _ _ _ _ _ _ _ _ Hc Hle).
  match goal with |- context [exec_groups fuel ?E _ _ _ _ _] => set (E0 := E) end.
  intro Hr. rewrite (IHg E0 rt root g [] st0) by (intro Hx; apply Hr; rewrite Hx; reflexivity).
  destruct (exec_groups fuel E0 rt root g [] st0) as [fs s|e s|]; try reflexivity.
  rewrite (IHd E0 (QObj fs) s) by (intro Hx; apply Hr; rewrite Hx; reflexivity). reflexivity.
Qed.

Corollary do_model_fuel_mono : forall parsed verrs fuel fuel' S op inputs root or tor d n c,
  do_model parsed verrs fuel S op inputs root or tor = DoRes d n c -> fuel <= fuel' ->
  do_model parsed verrs fuel' S op inputs root or tor = DoRes d n c.
Proof.
  intros parsed verrs fuel fuel' S op inputs root or tor d n c H Hle. unfold do_model in H |- *.
  destruct parsed as [D|]; [|exact H].
  destruct (verrs D) as [|k]; [|exact H].
  destruct (request fuel S D op inputs root or tor) as [| |d' s] eqn:Hr; try discriminate H;
    rewrite (request_fuel_mono _ _ _ _ _ _ _ _ _ _ Hr ltac:(discriminate) Hle); exact H.
Qed.

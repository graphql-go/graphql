(* The error-position recogniser (SynErr/ParseErr.v) and the parser model
   (Syntax/Parser.v) decide alike: on every parser state, for every fuel, one
   succeeds / fails / runs out of fuel exactly when the other does, and after
   success both have the same tokens left.  Proved function by function by running
   the two definitions in lockstep. *)
From Coq Require Import List NArith Bool.
From GQL Require Import Base.Bytes Syntax.Lexer Syntax.Ast Syntax.Parser SynErr.LexErr SynErr.ParseErr.
Import ListNotations.

Definition strip {A} (r : res (A * pst)) : res (list token) :=
  match r with Ok (_, st) => Ok (snd st) | Err => Err | OutOfFuel => OutOfFuel end.
Definition eraseE (e : resE) : res (list token) :=
  match e with OkE r => Ok r | ErrE _ => Err | FuelE => OutOfFuel end.

Definition Er {A} (f : pst -> res (A * pst)) (g : R) : Prop :=
  forall p ts, strip (f (p, ts)) = eraseE (g ts).

Lemma Er_okE : forall A (f : pst -> res (A * pst)) g, Er f g -> forall p ts r, g ts = OkE r ->
  exists a p1, f (p, ts) = Ok (a, (p1, r)).
Proof.
  intros A f g E p ts r H. specialize (E p ts). rewrite H in E.
  destruct (f (p, ts)) as [[a [p1 ts1]]| |]; try discriminate E. injection E as ->. eauto.
Qed.
Lemma Er_ok : forall A (f : pst -> res (A * pst)) g, Er f g -> forall p ts a p1 ts1,
  f (p, ts) = Ok (a, (p1, ts1)) -> g ts = OkE ts1.
Proof.
  intros A f g E p ts a p1 ts1 H. specialize (E p ts). rewrite H in E.
  destruct (g ts); try discriminate E. injection E as ->. reflexivity.
Qed.

Create HintDb er.

Lemma bind_assoc : forall A B C (r : res A) (K : A -> res B) (L : B -> res C),
  (' y <- (' x <- r ;; K x) ;; L y) = (' x <- r ;; ' y <- K x ;; L y).
Proof. intros A B C [a| |] K L; reflexivity. Qed.

Lemma seqE_assoc : forall (e : resE) (K L : R),
  match (match e with OkE r => K r | ErrE a => ErrE a | FuelE => FuelE end) with
  | OkE r => L r | ErrE a => ErrE a | FuelE => FuelE end
  = match e with OkE r => (K ;;; L) r | ErrE a => ErrE a | FuelE => FuelE end.
Proof. intros [r|a|] K L; reflexivity. Qed.

(* a branch of the recogniser is looked into only once the current token is known: unfolding ifE
   under a variable doubles its second branch *)
#[local] Arguments caseE sel !ts /.
#[local] Arguments ifE p f g !ts /.

Ltac ev :=
  unfold seqE, optE, okE, failE, fuelE, skip, peek, cur_is_kw, peek_description, is_k, is_kwd, is_desc;
  cbn [strip eraseE ifE caseE hd_error snd fst tokE endE anyE advance andb orb negb is_nil].
(* a sequence met as the first part of a sequence: reassociate *)
Ltac flat :=
  repeat lazymatch goal with
  | |- strip (match (match _ with Ok _ => _ | Err => _ | OutOfFuel => _ end) with Ok _ => _ | Err => _ | OutOfFuel => _ end) = _ =>
    rewrite bind_assoc
  | |- _ = eraseE (match (match _ with OkE _ => _ | ErrE _ => _ | FuelE => _ end) with OkE _ => _ | ErrE _ => _ | FuelE => _ end) =>
    rewrite seqE_assoc
  end.

Lemma Er_step : forall A B (f : pst -> res (A * pst)) g, Er f g ->
  forall p ts (K : A * pst -> res (B * pst)) (k : R),
  (forall a p1 ts1, strip (K (a, (p1, ts1))) = eraseE (k ts1)) ->
  strip (' x <- f (p, ts) ;; K x) = eraseE ((g ;;; k) ts).
Proof.
  intros A B f g H p ts K k HK. unfold seqE. specialize (H p ts).
  destruct (f (p, ts)) as [[a [p1 ts1]]| |]; destruct (g ts); try discriminate H; try reflexivity.
  injection H as <-. apply HK.
Qed.

(* the same when the parser model only repackages what the last function returns *)
Lemma Er_last : forall A B (f : pst -> res (A * pst)) g, Er f g ->
  forall p ts (K : A * pst -> res (B * pst)),
  (forall a p1 ts1, strip (K (a, (p1, ts1))) = Ok ts1) ->
  strip (' x <- f (p, ts) ;; K x) = eraseE (g ts).
Proof.
  intros A B f g H p ts K HK. rewrite (Er_step _ _ _ _ H p ts K okE HK). unfold seqE. destruct (g ts); reflexivity.
Qed.

Arguments Er_step {A B f g} _ {p ts K k}.
Arguments Er_last {A B f g} _ {p ts K}.

(* a test of the current token, where parser and recogniser both branch on it *)
Lemma strip_peek : forall A k p ts (x y : res (A * pst)) (a b : R),
  strip x = eraseE (a ts) -> strip y = eraseE (b ts) ->
  strip (if peek k (p, ts) then x else y) = eraseE (ifE (is_k k) a b ts).
Proof.
  intros A k p [|t ts] x y a b Hx Hy; [exact Hy|]. unfold peek, ifE, caseE, is_k. cbn [snd hd_error].
  destruct (tkind_beq (tk t) k); assumption.
Qed.

Ltac callee f :=
  let H := fresh in
  eassert (H : Er f _) by (eauto with er);
  first [eapply (Er_step H) | eapply (Er_last H)]; clear H; intros ? ? ?.

Ltac focus e :=
  lazymatch e with
  | match ?x with Ok _ => _ | Err => _ | OutOfFuel => _ end =>
    lazymatch x with ?f (_, _) => callee f | _ => focus x end
  | if ?c then _ else _ => focus c
  | match ?ts with [] => _ | _ :: _ => _ end => first [ is_var ts; destruct ts as [|? ts] | focus ts ]
  | andb ?a _ => focus a
  | orb ?a _ => focus a
  | negb ?a => focus a
  | ?f (?p, ?ts) => lazymatch goal with |- _ = eraseE (?g _) => exact ((ltac:(eauto with er) : Er f g) p ts) end
  | _ => destruct e eqn:?
  end.

Ltac step := flat; lazymatch goal with |- strip ?e = _ => focus e end.
Ltac rw :=
  repeat match goal with
         | H : ?c = true |- context [?c] => rewrite H
         | H : ?c = false |- context [?c] => rewrite H
         end.
(* first along the chain by the lemmas above, as far as parser and recogniser are built alike; the rest by
   evaluating both *)
Ltac go :=
  cbv zeta;
  repeat first
    [ eapply Er_step; [solve [eauto with er] | intros ? ? ?]
    | apply strip_peek; [eapply Er_last; [solve [eauto with er] | intros; reflexivity] | ] ];
  ev; repeat (step; ev); try reflexivity.

Lemma Er_expect : forall k, Er (expect k) (expectE k).
Proof. intros k p ts. unfold expect, expectE, tokE. go. Qed.
Lemma Er_expect_kw : forall w, Er (expect_kw w) (expect_kwE w).
Proof. intros w p ts. unfold expect_kw, expect_kwE, tokE. go. Qed.
#[export] Hint Resolve Er_expect Er_expect_kw : er.
Lemma Er_parse_name : Er parse_name parse_nameE.
Proof. intros p ts. unfold parse_name, parse_nameE. go. Qed.
#[export] Hint Resolve Er_parse_name : er.
Lemma Er_parse_named : Er parse_named parse_nameE.
Proof. intros p ts. unfold parse_named. go. Qed.
#[export] Hint Resolve Er_parse_named : er.

Lemma Er_parse_variable : Er parse_variable parse_variableE.
Proof. intros p ts. unfold parse_variable, parse_variableE. go. Qed.
#[export] Hint Resolve Er_parse_variable : er.

Section Lists.
  Context {A : Type}.
  Variable item : pst -> res (A * pst).
  Variable itemE : R.
  Hypothesis Hi : Er item itemE.

  Lemma Er_many : forall close fuel, Er (many fuel item close) (manyE fuel itemE close).
  Proof.
    intros close. induction fuel as [|f IH]; intros p ts; cbn [many manyE]; [reflexivity|]. go.
  Qed.

  (* the loop with the test "at least one item" that follows it in reverse() and parse_document *)
  Lemma Er_many1 : forall close fuel p ts,
    strip (' (l, st2) <- many fuel item close (p, ts) ;; if is_nil l then Err else Ok (l, st2))
    = eraseE (many1E fuel itemE close ts).
  Proof.
    intros close [|f] p ts; cbn [many many1E]; [reflexivity|]. pose proof (Er_many close) as Hm. go.
  Qed.

  Lemma Er_reverse : forall open close ne fuel, Er (reverse fuel open item close ne) (reverseE fuel open itemE close ne).
  Proof.
    intros open close ne fuel p ts. unfold reverse, reverseE. pose proof (Er_many close) as Hm.
    destruct ne; [ev; step; apply Er_many1 | go].
  Qed.

  Lemma Er_while_peek : forall k fuel, Er (while_peek fuel k item) (whileE fuel k itemE).
  Proof.
    intros k. induction fuel as [|f IH]; intros p ts; cbn [while_peek whileE]; [reflexivity|]. go.
  Qed.

  Lemma Er_sep_by : forall sep fuel, Er (sep_by fuel sep item) (sep_byE fuel sep itemE).
  Proof.
    intros sep. induction fuel as [|f IH]; intros p ts; cbn [sep_by sep_byE]; [reflexivity|]. go.
  Qed.
End Lists.
#[export] Hint Resolve Er_many Er_reverse Er_while_peek Er_sep_by : er.

Lemma Er_parse_objfield : forall pv pvE, Er pv pvE -> Er (parse_objfield_with pv) (parse_objfieldE pvE).
Proof. intros pv pvE H p ts. unfold parse_objfield_with, parse_objfieldE. go. Qed.
#[export] Hint Resolve Er_parse_objfield : er.

Lemma Er_parse_value : forall fuel c, Er (parse_value fuel c) (parse_valueE fuel c).
Proof.
  induction fuel as [|f IH]; intros c p ts; cbn [parse_value parse_valueE]; [reflexivity|].
  unfold caseE. ev. destruct ts as [|t ts]; cbn [hd_error]; [reflexivity|].
  pose proof (IH c) as IHc.
  destruct (tk t) eqn:K; try reflexivity; go.
Qed.
#[export] Hint Resolve Er_parse_value : er.

Lemma Er_parse_type : forall fuel, Er (parse_type fuel) (parse_typeE fuel).
Proof.
  induction fuel as [|f IH]; intros p ts; cbn [parse_type parse_typeE]; [reflexivity|].
  unfold caseE. ev. destruct ts as [|t ts]; cbn [hd_error]; [reflexivity|].
  destruct (tk t) eqn:K; try reflexivity; go.
Qed.
#[export] Hint Resolve Er_parse_type : er.

Lemma Er_parse_argument : forall fuel, Er (parse_argument fuel) (parse_argumentE fuel).
Proof. intros fuel p ts. unfold parse_argument, parse_argumentE. go. Qed.
#[export] Hint Resolve Er_parse_argument : er.
Lemma Er_parse_arguments : forall fuel, Er (parse_arguments fuel) (parse_argumentsE fuel).
Proof. intros fuel p ts. unfold parse_arguments, parse_argumentsE. go. Qed.
#[export] Hint Resolve Er_parse_arguments : er.
Lemma Er_parse_directive : forall fuel, Er (parse_directive fuel) (parse_directiveE fuel).
Proof. intros fuel p ts. unfold parse_directive, parse_directiveE. go. Qed.
#[export] Hint Resolve Er_parse_directive : er.
Lemma Er_parse_directives : forall fuel, Er (parse_directives fuel) (parse_directivesE fuel).
Proof. intros fuel. unfold parse_directives, parse_directivesE. auto with er. Qed.
#[export] Hint Resolve Er_parse_directives : er.

Lemma Er_parse_fragment_name : Er parse_fragment_name parse_fragment_nameE.
Proof. intros p ts. unfold parse_fragment_name, parse_fragment_nameE. go. Qed.
#[export] Hint Resolve Er_parse_fragment_name : er.

Section Sel.
  Variable psel : pst -> res (selset * pst).
  Variable pselE : R.
  Hypothesis Hp : Er psel pselE.
  Lemma Er_parse_field : forall fuel, Er (parse_field_with psel fuel) (parse_fieldE pselE fuel).
  Proof. intros fuel p ts. unfold parse_field_with, parse_fieldE. go. Qed.
  Lemma Er_parse_fragment : forall fuel, Er (parse_fragment_with psel fuel) (parse_fragmentE pselE fuel).
  Proof. intros fuel p ts. unfold parse_fragment_with, parse_fragmentE. go; rw; go. Qed.
  Lemma Er_parse_selection : forall fuel, Er (parse_selection_with psel fuel) (parse_selectionE pselE fuel).
  Proof.
    intros fuel p ts. unfold parse_selection_with, parse_selectionE.
    pose proof Er_parse_field. pose proof Er_parse_fragment. go.
  Qed.
End Sel.
#[export] Hint Resolve Er_parse_selection : er.

Lemma Er_parse_selset : forall fuel, Er (parse_selset fuel) (parse_selsetE fuel).
Proof.
  induction fuel as [|f IH]; intros p ts; cbn [parse_selset parse_selsetE]; [reflexivity|]. go.
Qed.
#[export] Hint Resolve Er_parse_selset : er.

Lemma Er_parse_optype : Er parse_optype parse_optypeE.
Proof.
  intros p ts. unfold parse_optype, parse_optypeE, expect, tokE, is_optype. go.
Qed.
#[export] Hint Resolve Er_parse_optype : er.

Lemma Er_parse_vardef : forall fuel, Er (parse_vardef fuel) (parse_vardefE fuel).
Proof. intros fuel p ts. unfold parse_vardef, parse_vardefE, parse_defaultE. go. Qed.
#[export] Hint Resolve Er_parse_vardef : er.
Lemma Er_parse_vardefs : forall fuel, Er (parse_vardefs fuel) (parse_vardefsE fuel).
Proof. intros fuel p ts. unfold parse_vardefs, parse_vardefsE. go. Qed.
#[export] Hint Resolve Er_parse_vardefs : er.
Lemma Er_parse_operation : forall fuel, Er (parse_operation fuel) (parse_operationE fuel).
Proof. intros fuel p ts. unfold parse_operation, parse_operationE. go. Qed.
#[export] Hint Resolve Er_parse_operation : er.
Lemma Er_parse_fragment_definition : forall fuel, Er (parse_fragment_definition fuel) (parse_fragment_definitionE fuel).
Proof. intros fuel p ts. unfold parse_fragment_definition, parse_fragment_definitionE. go. Qed.
#[export] Hint Resolve Er_parse_fragment_definition : er.

Lemma Er_parse_description : Er parse_description descE.
Proof. intros p ts. unfold parse_description, descE. go. Qed.
#[export] Hint Resolve Er_parse_description : er.
Lemma Er_parse_optypedef : Er parse_optypedef parse_optypedefE.
Proof. intros p ts. unfold parse_optypedef, parse_optypedefE. go. Qed.
#[export] Hint Resolve Er_parse_optypedef : er.
Lemma Er_parse_schema : forall fuel, Er (parse_schema_definition fuel) (parse_schemaE fuel).
Proof. intros fuel p ts. unfold parse_schema_definition, parse_schemaE. go. Qed.
Lemma Er_parse_scalar : forall fuel, Er (parse_scalar_definition fuel) (descE ;;; scalar_bodyE fuel).
Proof. intros fuel p ts. unfold parse_scalar_definition, scalar_bodyE. go. Qed.
Lemma Er_parse_ivdef : forall fuel, Er (parse_ivdef fuel) (parse_ivdefE fuel).
Proof. intros fuel p ts. unfold parse_ivdef, parse_ivdefE, parse_defaultE. go. Qed.
#[export] Hint Resolve Er_parse_ivdef : er.
Lemma Er_parse_argdefs : forall fuel, Er (parse_argdefs fuel) (parse_argdefsE fuel).
Proof. intros fuel p ts. unfold parse_argdefs, parse_argdefsE. go. Qed.
#[export] Hint Resolve Er_parse_argdefs : er.
Lemma Er_parse_fielddef : forall fuel, Er (parse_fielddef fuel) (parse_fielddefE fuel).
Proof. intros fuel p ts. unfold parse_fielddef, parse_fielddefE. go. Qed.
#[export] Hint Resolve Er_parse_fielddef : er.
Lemma Er_parse_implements : forall fuel, Er (parse_implements fuel) (parse_implementsE fuel).
Proof. intros fuel p ts. unfold parse_implements, parse_implementsE. go. Qed.
#[export] Hint Resolve Er_parse_implements : er.
Lemma Er_parse_objdef : forall fuel, Er (parse_objdef fuel) (descE ;;; objdef_bodyE fuel).
Proof. intros fuel p ts. unfold parse_objdef, objdef_bodyE. go. Qed.
#[export] Hint Resolve Er_parse_objdef : er.
Lemma Er_parse_interface : forall fuel, Er (parse_interface_definition fuel) (descE ;;; interface_bodyE fuel).
Proof. intros fuel p ts. unfold parse_interface_definition, interface_bodyE. go. Qed.
Lemma Er_parse_union : forall fuel, Er (parse_union_definition fuel) (descE ;;; union_bodyE fuel).
Proof. intros fuel p ts. unfold parse_union_definition, union_bodyE. go. Qed.
Lemma Er_parse_enumvaldef : forall fuel, Er (parse_enumvaldef fuel) (parse_enumvaldefE fuel).
Proof. intros fuel p ts. unfold parse_enumvaldef, parse_enumvaldefE. go. Qed.
#[export] Hint Resolve Er_parse_enumvaldef : er.
Lemma Er_parse_enum : forall fuel, Er (parse_enum_definition fuel) (descE ;;; enum_bodyE fuel).
Proof. intros fuel p ts. unfold parse_enum_definition, enum_bodyE. go. Qed.
Lemma Er_parse_input : forall fuel, Er (parse_input_definition fuel) (descE ;;; input_bodyE fuel).
Proof. intros fuel p ts. unfold parse_input_definition, input_bodyE. go. Qed.
Lemma Er_parse_extend : forall fuel, Er (parse_extend_definition fuel) (parse_extendE fuel).
Proof. intros fuel p ts. unfold parse_extend_definition, parse_extendE. go. Qed.
Lemma Er_parse_directive_definition : forall fuel, Er (parse_directive_definition fuel) (descE ;;; directive_bodyE fuel).
Proof. intros fuel p ts. unfold parse_directive_definition, directive_bodyE. go. Qed.

#[export] Hint Resolve Er_parse_scalar Er_parse_interface Er_parse_union Er_parse_enum Er_parse_input
  Er_parse_directive_definition : er.

Lemma desc_not_name : forall t, is_desc t = true -> tkind_beq (tk t) NAME = false /\ tkind_beq (tk t) BRACE_L = false.
Proof. intros t H. unfold is_desc, is_k in H. destruct (tk t); cbn in H; try discriminate H; split; reflexivity. Qed.

(* a definition that takes a description, entered at the description or at the keyword *)
Lemma Er_body_desc : forall A (f : pst -> res (A * pst)) body, Er f (descE ;;; body) ->
  forall p t ts, is_desc t = true -> strip (f (p, t :: ts)) = eraseE (body ts).
Proof.
  intros A f body H p t ts D. rewrite (H p (t :: ts)). unfold seqE, descE, ifE, caseE. cbn [hd_error].
  rewrite D. reflexivity.
Qed.
Lemma Er_body_nodesc : forall A (f : pst -> res (A * pst)) body, Er f (descE ;;; body) ->
  forall p t ts, is_desc t = false -> strip (f (p, t :: ts)) = eraseE (body (t :: ts)).
Proof.
  intros A f body H p t ts D. rewrite (H p (t :: ts)). unfold seqE, descE, ifE, caseE. cbn [hd_error].
  rewrite D. reflexivity.
Qed.

Lemma strip_map : forall A B (r : res (A * pst)) (g : A -> B),
  strip (' (o, st1) <- r ;; Ok (g o, st1)) = strip r.
Proof. intros A B [[a st]| |] g; reflexivity. Qed.

Lemma strip_if : forall (b : bool) A (x y : res (A * pst)) (x' y' : R) ts,
  strip x = eraseE (x' ts) -> strip y = eraseE (y' ts) -> strip (if b then x else y) = eraseE ((if b then x' else y') ts).
Proof. intros [|]; trivial. Qed.

Lemma Er_parse_tsd : forall fuel, Er (parse_type_system_definition fuel) (parse_tsdE fuel).
Proof.
  intros fuel p ts. unfold parse_type_system_definition, parse_tsdE, keyword_token.
  destruct ts as [|t ts]; [reflexivity|].
  unfold ifE, caseE at 1. cbn [hd_error snd]. unfold peek_description, peek. cbn [snd].
  change (tkind_beq (tk t) STRING || tkind_beq (tk t) BLOCK_STRING) with (is_desc t).
  destruct (is_desc t) eqn:D.
  - (* a description: the keyword is the next token; what takes no description fails at the description *)
    destruct (desc_not_name _ D) as [DN DB].
    unfold seqE at 1. cbn [anyE tokE].
    destruct ts as [|k ts]; [reflexivity|].
    unfold tsd_kwE, caseE. cbn [hd_error]. unfold is_k at 1.
    destruct (tkind_beq (tk k) NAME) eqn:K; cbn [negb]; [|reflexivity].
    cbv beta iota zeta. repeat simple apply strip_if; try reflexivity; rewrite ?strip_map;
      try (eapply Er_body_desc; [solve [eauto with er]|exact D]);
      unfold parse_fragment_definition, parse_operation, parse_schema_definition, parse_extend_definition,
        peek, parse_optype, expect, expect_kw; cbn [snd]; rewrite ?DB, ?DN; reflexivity.
  - unfold tsd_kwE, caseE. cbn [hd_error]. unfold is_k at 1.
    destruct (tkind_beq (tk t) NAME) eqn:K; cbn [negb]; [|reflexivity].
    cbv beta iota zeta. repeat simple apply strip_if; try reflexivity; rewrite ?strip_map;
      first [eapply Er_body_nodesc; [solve [eauto with er]|exact D] | apply Er_parse_fragment_definition
            | apply Er_parse_operation | apply Er_parse_schema | apply Er_parse_extend].
Qed.
#[export] Hint Resolve Er_parse_tsd : er.

Lemma Er_parse_definition : forall fuel, Er (parse_definition fuel) (parse_definitionE fuel).
Proof. intros fuel p ts. unfold parse_definition, parse_definitionE. go. Qed.
#[export] Hint Resolve Er_parse_definition : er.

(* parse_document starts from PrevEnd 0 and returns the document alone *)
Definition strip_doc (r : res Ast.document) : res (list token) :=
  match r with Ok _ => Ok [] | Err => Err | OutOfFuel => OutOfFuel end.

Theorem Er_parse_document : forall fuel ts, strip_doc (parse_document fuel ts) = eraseE (parse_documentE fuel ts).
Proof.
  intros fuel ts. unfold parse_document, parse_documentE, seqE.
  pose proof (Er_many1 _ _ (Er_parse_definition fuel) EOF fuel 0%N ts) as H.
  destruct (many fuel (parse_definition fuel) EOF (0%N, ts)) as [[[|d l] [p1 ts1]]| |]; cbn in H |- *;
    destruct (many1E fuel (parse_definitionE fuel) EOF ts); try discriminate H; try reflexivity.
  injection H as <-. destruct ts1; reflexivity.
Qed.

Corollary Er_parse_tokens : forall ts, strip_doc (parse_tokens ts) = eraseE (parse_tokensE ts).
Proof. intro ts. exact (Er_parse_document (S (2 * List.length ts)) ts). Qed.

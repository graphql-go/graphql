(* C04: every response the executor builds conforms to schema and query, whatever the
   resolver outcomes are.  By induction on the derivations of Proofs/ExecInv.v. *)
From Coq Require Import List ZArith String Bool Lia.
From GQL Require Import Exec.Syntax Exec.Coerce Exec.Exec Exec.Conform Proofs.ExecInv.
Import ListNotations.
Open Scope string_scope.
Open Scope list_scope.

Definition notthunk (q : presp) : Prop := forall a b c d e, q <> QThunk a b c d e.

Lemma quot_in_int32 : forall n d,
  ((n <? -2147483648 * Zpos d) || (n >? 2147483647 * Zpos d))%Z = false ->
  in_int32 (Z.quot n (Zpos d)) = true.
Proof.
  intros n d H. apply orb_false_iff in H. destruct H as [H1 H2].
  apply Z.ltb_ge in H1. rewrite Z.gtb_ltb in H2. apply Z.ltb_ge in H2.
  unfold in_int32. apply andb_true_iff. split; apply Z.leb_le.
  - rewrite <- (Z.quot_mul (-2147483648) (Zpos d)) by lia. apply Z.quot_le_mono; lia.
  - rewrite <- (Z.quot_mul 2147483647 (Zpos d)) by lia. apply Z.quot_le_mono; lia.
Qed.

Lemma parse_value_scalar_legal : forall k j, nullish (parse_value_scalar k j) = false ->
  legal_scalar k (parse_value_scalar k j).
Proof.
  intros k j H. destruct k; destruct j as [|b|z|n d|str|l|l]; cbn [parse_value_scalar] in *;
    try (cbn in H; discriminate); try exact I.
  - destruct b; reflexivity.
  - destruct (in_int32 z) eqn:E; [exact E|cbn in H; discriminate].
  - destruct ((n <? -2147483648 * Z.pos d)%Z || (n >? 2147483647 * Z.pos d)%Z) eqn:E; [cbn in H; discriminate|].
    cbn [legal_scalar]. apply quot_in_int32. exact E.
  - destruct (Z.odd z) eqn:E; [exact E|cbn in H; discriminate].
Qed.

Lemma serialize_scalar_legal : forall k v, nullish (serialize_scalar k v) = false ->
  legal_scalar k (serialize_scalar k v).
Proof.
  (* the placeholder string is generalised first: the case analysis would copy it sixty times *)
  intros k v. unfold serialize_scalar. generalize "<unmodelled %v formatting>". intros u H. destruct v.
  2-5: exact (parse_value_scalar_legal _ _ H).
  all: destruct k; try discriminate H; exact I.
Qed.

Lemma enum_name_of_legal : forall vals v, nullish (enum_name_of vals v) = false ->
  exists nm, enum_name_of vals v = JStr nm /\ amem nm vals = true.
Proof.
  induction vals as [|[n iv] vals IH]; intros v H; [discriminate|].
  cbn [enum_name_of] in *. destruct (jv_eqb iv v).
  - exists n. split; [reflexivity|]. cbn. rewrite String.eqb_refl. reflexivity.
  - destruct (IH v H) as [nm [E1 E2]]. exists nm. split; [exact E1|]. cbn. rewrite E2. apply orb_true_r.
Qed.

Lemma serialize_enum_legal : forall vals v, nullish (serialize_enum vals v) = false ->
  exists nm, serialize_enum vals v = JStr nm /\ amem nm vals = true.
Proof.
  intros vals v H. unfold serialize_enum in *. destruct v; try discriminate; apply enum_name_of_legal; exact H.
Qed.

Definition okp {A : Type} (Q : A -> Prop) (r : xres A) : Prop :=
  match r with XOk a _ => Q a | _ => True end.

Lemma okp_impl : forall A (Q Q' : A -> Prop) r, (forall a, Q a -> Q' a) -> okp Q r -> okp Q' r.
Proof. intros A Q Q' [a s|e s|] H Hr; cbn; auto. Qed.

Lemma okp_xmap : forall A B (f : A -> B) (Q : A -> Prop) (Q' : B -> Prop) r,
  (forall a, Q a -> Q' (f a)) -> okp Q r -> okp Q' (xmap f r).
Proof. intros A B f Q Q' [a s|e s|] H Hr; cbn; auto. Qed.

Section Inv.
Variable E : env.

(* what CompleteValue returns: never a deferred value itself *)
Definition cnf (t : tyref) (occs : list occ) (q : presp) : Prop := PConf E t occs q /\ notthunk q.

Lemma okp_catch : forall t occs r, okp (PConf E t occs) r -> okp (PConf E t occs) (catch_at t r).
Proof.
  intros t occs [q s|e s|] H; cbn in *; auto.
  destruct (is_nonnull t) eqn:En; cbn; [exact I|]. apply PC_null. exact En.
Qed.

Lemma caught : forall t occs r y s', okp (cnf t occs) r -> catch_at t r = XOk y s' -> PConf E t occs y.
Proof.
  intros t occs r y s' H Ec. apply (okp_impl _ _ (PConf E t occs)) in H; [|intros q Hq; apply Hq].
  apply okp_catch in H. rewrite Ec in H. exact H.
Qed.

Lemma leaf_conf : forall n occs j,
  (nullish j = false -> PConf E (TNamed n) occs (QLeaf j)) -> cnf (TNamed n) occs (leaf j).
Proof.
  intros n occs j H. unfold leaf. destruct (nullish j); (split; [|intros a b c d e Hx; discriminate]).
  - apply PC_null. reflexivity.
  - apply H. reflexivity.
Qed.

(* the dethunk pass refines a response: every typing of q is a typing of y, and nothing but a
   deferred value changes *)
Definition refines (q y : presp) : Prop :=
  (forall t occs, PConf E t occs q -> PConf E t occs y) /\ (atom q -> y = q).
Definition refinesF (a b : name * presp) : Prop := fst a = fst b /\ refines (snd a) (snd b).

Lemma refines_list : forall t occs l l', PConfL E t occs l -> Forall2 refines l l' -> PConfL E t occs l'.
Proof.
  intros t occs l l' H F. revert H. induction F as [|x y l l' [Hxy _] _ IH]; intros H; [constructor|].
  inversion H; subst. constructor; [apply Hxy|apply IH]; assumption.
Qed.

Lemma refines_fields : forall rt g l, PConfG E rt g l -> forall l', Forall2 refinesF l l' -> PConfG E rt g l'.
Proof.
  intros rt g l H.
  induction H as [rt|rt k occs g fs Htn _ IH|rt k occs g fs Htn Hnf _ IH|rt k occs g fs fd q Htn Hfd Hq _ IH];
    intros l' F.
  - inversion F. constructor.
  - inversion F as [|a [k' y] l0 l1 [Hk [_ Hy]] F']; subst. cbn in Hk, Hy. subst k'. rewrite (Hy I).
    apply PG_typename; auto.
  - apply PG_skip; auto.
  - inversion F as [|a [k' y] l0 l1 [Hk [Hy _]] F']; subst. cbn in Hk, Hy. subst k'.
    eapply PG_field; eauto.
Qed.

(* a list, an object or a deferred value is typed by one rule, under non-null wrappers: by
   induction on the typing, which is cheaper to check than inverting it at each type *)
Lemma pconf_list_under : forall t occs l l',
  PConf E t occs (QList l) ->
  (forall t', PConfL E t' occs l -> PConfL E t' occs l') ->
  PConf E t occs (QList l').
Proof.
  intros t occs l l' H Hl. remember (QList l) as q eqn:Eq. induction H; try discriminate Eq.
  - apply PC_nonnull; [discriminate|intros a b c d e Hx; discriminate|auto].
  - injection Eq as ->. apply PC_list, Hl. assumption.
Qed.

Lemma pconf_obj_under : forall t occs l l',
  PConf E t occs (QObj l) ->
  (forall rt g, PConfG E rt g l -> PConfG E rt g l') ->
  PConf E t occs (QObj l').
Proof.
  intros t occs l l' H Hl. remember (QObj l) as q eqn:Eq. induction H; try discriminate Eq.
  - apply PC_nonnull; [discriminate|intros a b c d e Hx; discriminate|auto].
  - injection Eq as ->. eapply PC_obj; try eassumption. apply Hl. assumption.
Qed.

Lemma pconf_thunk_inv : forall t0 occs0 t nodes occs p o,
  PConf E t0 occs0 (QThunk t nodes occs p o) -> t0 = t /\ occs0 = occs.
Proof.
  intros t0 occs0 t nodes occs p o H. remember (QThunk t nodes occs p o) as q eqn:Eq.
  destruct H; try discriminate Eq; [|injection Eq as -> _ -> _ _; split; reflexivity].
  exfalso. eapply H0. exact Eq.
Qed.

Lemma run_conf : forall j, Run E j ->
  match j with
  | Complete t _ occs _ _ _ _ r | Outcome t _ occs _ _ _ r => okp (cnf t occs) r
  | Items t _ occs _ _ _ _ _ r => okp (PConfL E t occs) r
  | Object obj occs _ _ _ r =>
    okp (fun q => forall n, is_composite (en_S E) n -> possible_type (en_S E) n obj = true ->
                  cnf (TNamed n) occs q) r
  | Groups obj _ g _ _ r => okp (PConfG E obj g) r
  | Field obj _ k occs _ _ r =>
    okp (fun y => forall g fs, PConfG E obj g fs -> PConfG E obj ((k, occs) :: g) (keyed k y fs)) r
  | Invoke obj _ _ occs _ _ fd r =>
    String.eqb (first_name occs) "__typename" = false /\
    find_field (first_name occs) (object_fields (en_S E) obj) = Some fd /\
    okp (PConf E (f_type fd) occs) r
  | Dethunk q _ r => okp (refines q) r
  | DList l _ r => okp (Forall2 refines l) r
  | DFields l _ r => okp (Forall2 refinesF l) r
  end.
Proof.
  (* one case per constructor of Run, in the order of its definition *)
  apply Run_ind; cbv beta iota.
  - intros t nodes occs fpath p v s [[]|e s'|] _ IH; cbn in *; auto;
      (destruct IH as [Hq Hn]; split; [apply PC_nonnull; [discriminate|exact Hn|exact Hq]|exact Hn]).
  - intros t nodes occs fpath p v s Hn. split; [apply PC_null, Hn|intros a b c d e Hx; discriminate].
  - intros n k nodes occs fpath p v s El. apply leaf_conf. intro En.
    eapply PC_scalar; [exact El|apply serialize_scalar_legal, En].
  - intros n vals nodes occs fpath p v s El. apply leaf_conf. intro En.
    destruct (serialize_enum_legal vals v En) as [nm [-> Hm]]. eapply PC_enum; eassumption.
  - intros. exact I.
  - intros t nodes occs fpath p l s r _ IH. eapply okp_xmap; [|exact IH]. intros ys Hl.
    split; [apply PC_list, Hl|intros a b c d e Hx; discriminate].
  - intros n rt nodes occs fpath p v s s1 r Hc Hp _ _ IH. eapply okp_impl; [|exact IH]. intros q H. exact (H n Hc Hp).
  - constructor.
  - intros. exact I.
  - intros t nodes occs fpath p x l i s r1 y s' r _ IH Ec _ IHl. eapply okp_xmap; [|exact IHl]. intros ys Hl.
    constructor; [exact (caught _ _ _ _ _ IH Ec)|exact Hl].
  - intros obj occs p src s fuel g r Hg _ IH. eapply okp_xmap; [|exact IH]. intros fs Hfs n Hc Hp.
    split; [eapply PC_obj; eassumption|intros a b c d e Hx; discriminate].
  - constructor.
  - intros. exact I.
  - intros obj src k occs g p s y s' r _ IH _ IHg. eapply okp_xmap; [|exact IHg]. intros fs. apply IH.
  - intros obj src k occs p s Htn g fs. apply PG_typename, Htn.
  - intros obj src k occs p s Htn Hnf g fs. apply PG_skip; assumption.
  - intros obj src k occs p s fd r1 _ [Htn [Hfd IH]]. eapply okp_xmap; [|apply okp_catch, IH].
    intros y Hy g fs. eapply PG_field; eassumption.
  - intros obj src k occs s fd r1 y s' r _ [Htn [Hfd IH]] Ec _ _ IHd. eapply okp_xmap; [|exact IHd].
    intros y' [Hr _] g fs. eapply PG_field; try eassumption. apply Hr.
    apply okp_catch in IH. rewrite Ec in IH. exact IH.
  - intros obj src k occs p s fd fuel args o Htn Hfd _ _ Hnn.
    split; [exact Htn|split; [exact Hfd|apply PC_thunk, Hnn]].
  - intros obj src k occs p s fd fuel args o thunked r Htn Hfd _ _ _ _ IH.
    split; [exact Htn|split; [exact Hfd|]]. destruct r as [q s'|e s'|]; [exact (proj1 IH)|destruct thunked; exact I|exact I].
  - intros t nodes occs p v s r _ IH. exact IH.
  - intros. exact I.
  - intros q s _. split; auto.
  - intros l s r _ IH. eapply okp_xmap; [|exact IH]. intros l' F. split; [|intros []]. intros t occs Hq.
    eapply pconf_list_under; [exact Hq|]. intros t' Hl. eapply refines_list; eassumption.
  - intros l s r _ IH. eapply okp_xmap; [|exact IH]. intros l' F. split; [|intros []]. intros t occs Hq.
    eapply pconf_obj_under; [exact Hq|]. intros rt g Hg. eapply refines_fields; eassumption.
  - intros. exact I.
  - intros t nodes occs p o s r1 y s' r _ IH Ec _ IHd. eapply okp_impl; [|exact IHd]. intros y' [Hr _].
    split; [|intros []]. intros t0 occs0 Hq. destruct (pconf_thunk_inv _ _ _ _ _ _ _ Hq) as [-> ->].
    apply Hr. exact (caught _ _ _ _ _ IH Ec).
  - constructor.
  - intros. exact I.
  - intros x l s y s' r _ IH _ IHl. eapply okp_xmap; [|exact IHl]. intros ys F. constructor; assumption.
  - constructor.
  - intros. exact I.
  - intros k x l s y s' r _ IH _ IHl. eapply okp_xmap; [|exact IHl]. intros ys F. constructor; [split; [reflexivity|exact IH]|exact F].
Qed.
End Inv.

Lemma finished_conforms : forall E rt root g d s, Finished E rt root g (Some d) s ->
  exists fs, PConfG E rt g fs /\ thunks (QObj fs) = [] /\ d = to_resp (QObj fs).
Proof.
  intros E rt root g d s Hfin. inversion Hfin as [fs s1 q s' Sg Sd|]; subst.
  destruct (run_inv E _ Sd [] (thunks_ok_obj_intro _ _ (proj2 (run_inv E _ Sg)))) as [_ Hnil].
  destruct (Dethunk_obj_inv _ _ _ _ _ Sd) as [fs' [-> Hf]].
  exists fs'. split; [|split; [exact Hnil|reflexivity]].
  eapply refines_fields; [apply (run_conf E _ Sg)|apply (run_conf E _ Hf)].
Qed.

(* C05: getArgumentValues and the defaults of getVariableValues (Exec/Coerce.v) against the
   specification of input coercion (Exec/CoerceSpec.v): resolvers receive, for every argument
   of the field definition, the literal coercion of what was written (SL) -- or the coerced value
   of the variable that was written -- with the argument's default in place of null, and null
   entries are dropped from the map. *)
From Coq Require Import List ZArith String Bool.
From GQL Require Import Exec.Syntax Exec.Coerce Exec.CoerceSpec Proofs.CoerceProofs.
Import ListNotations.
Open Scope string_scope.
Open Scope list_scope.

(* what the specification assigns to one argument definition, given what was written for it:
   a variable yields that variable's coerced value, anything else (a constant literal, or
   nothing) its literal coercion *)
Inductive arg_spec (S : schema) (vars : list (name * jv)) (a : argdef) : option value -> jv -> Prop :=
| AS_var x : arg_spec S vars a (Some (VVar x)) (jlookup x vars)
| AS_lit l r : SL S (a_type a) l r -> arg_spec S vars a l r.

(* The arguments of a field are coerced like the fields of an input-object literal that may mention
   variables; every statement about argument maps in Properties/C05.v is an instance. *)
Theorem arguments_SLvF : forall S ovars defs args kvs, SLvF S (vars_of ovars) defs args kvs ->
  forall fuel m, get_argument_values fuel S defs args ovars = Some m -> m = keep_nonnull kvs.
Proof.
  intros S ovars defs args kvs H fuel m Hm. rewrite get_argument_values_unfold in Hm.
  destruct (omap (lit_step fuel S args ovars) defs) as [kvs'|] eqn:E; [|discriminate].
  inversion Hm. f_equal. eapply literal_vars_correct_all; eassumption.
Qed.

Lemma SLvF_map : forall S vars args (r : argdef -> jv) defs,
  (forall a, In a defs -> SLv S vars (a_type a) (alookup (a_name a) args) (r a)) ->
  SLvF S vars defs args (map (fun a => (a_name a, with_default (a_default a) (r a))) defs).
Proof.
  intros S vars args r. induction defs as [|a defs IH]; intros H; constructor.
  - apply H. left. reflexivity.
  - apply IH. intros a0 Ha0. apply H. right. exact Ha0.
Qed.

Lemma arg_spec_SLv : forall S vars a l r, arg_spec S vars a l r -> SLv S vars (a_type a) l r.
Proof. intros S vars a l r [x|l0 r0 H]; [apply SLv_var|apply SL_SLv_all; exact H]. Qed.

Lemma alookup_notin : forall A k (l : list (name * A)), ~ In k (map fst l) -> alookup k l = None.
Proof.
  intros A k l. induction l as [|[k' v] l IH]; intros H; [reflexivity|].
  cbn [alookup]. destruct (String.eqb k k') eqn:Ek.
  - exfalso. apply H. left. symmetry. apply String.eqb_eq. exact Ek.
  - apply IH. intro Hin. apply H. right. exact Hin.
Qed.

Lemma jlookup_keep_nonnull : forall k kvs, NoDup (map fst kvs) ->
  jlookup k (keep_nonnull kvs) = jlookup k kvs.
Proof.
  intros k kvs. unfold jlookup, keep_nonnull. induction kvs as [|[k' v] kvs IH]; intros Hn; [reflexivity|].
  cbn [map fst] in Hn. inversion Hn as [|? ? Hk Hn']; subst.
  cbn [filter snd]. destruct (nullish v) eqn:Ev; cbn [negb alookup].
  - destruct (String.eqb k k') eqn:Ek.
    + apply String.eqb_eq in Ek. subst k'. rewrite (IH Hn'), (alookup_notin _ k kvs Hk).
      destruct v; try discriminate. reflexivity.
    + apply IH. exact Hn'.
  - destruct (String.eqb k k'); [reflexivity|apply IH; exact Hn'].
Qed.

Lemma jlookup_map_defs : forall (f : argdef -> jv) defs a, NoDup (map a_name defs) -> In a defs ->
  jlookup (a_name a) (map (fun a0 => (a_name a0, f a0)) defs) = f a.
Proof.
  intros f defs a. unfold jlookup. induction defs as [|b defs IH]; intros Hn Hin; [contradiction|].
  cbn [map] in Hn. inversion Hn as [|? ? Hb Hn']; subst. cbn [map alookup].
  destruct Hin as [->|Hin].
  - rewrite String.eqb_refl. reflexivity.
  - destruct (String.eqb (a_name a) (a_name b)) eqn:Ek.
    + exfalso. apply String.eqb_eq in Ek. apply Hb. rewrite <- Ek. apply in_map. exact Hin.
    + apply IH; assumption.
Qed.

Lemma get_variable_value_null : forall fuel S d x,
  get_variable_value fuel S d JNull = Some (inl x) ->
  is_nonnull (v_type d) = false /\
  match v_default d with
  | Some dv => value_from_ast fuel S (v_type d) (Some dv) None = Some x
  | None => x = JNull
  end.
Proof.
  intros fuel S d x H. unfold get_variable_value in H.
  destruct (negb (is_input_type S (v_type d))); [discriminate|].
  destruct fuel as [|fuel]; [discriminate|].
  cbn [valid_input nullish] in H.
  destruct (is_nonnull (v_type d)); cbn [negb] in H; [discriminate|]. split; [reflexivity|].
  destruct (v_default d) as [dv|]; [|inversion H; reflexivity].
  destruct (value_from_ast (Datatypes.S fuel) S (v_type d) (Some dv) None) as [y|]; [|discriminate].
  inversion H. reflexivity.
Qed.

Lemma gvv_lookup : forall fuel S ds inputs vars d, NoDup (map v_name ds) -> In d ds ->
  get_variable_values fuel S ds inputs = Some (inl vars) ->
  exists x, get_variable_value fuel S d (jlookup (v_name d) inputs) = Some (inl x) /\
            jlookup (v_name d) vars = x.
Proof.
  intros fuel S ds inputs. induction ds as [|d0 ds IH]; intros vars d Hn Hin H; [contradiction|].
  cbn [map] in Hn. inversion Hn as [|? ? Hd0 Hn']; subst. cbn [get_variable_values] in H.
  destruct (get_variable_value fuel S d0 (jlookup (v_name d0) inputs)) as [[x0|u]|] eqn:E0; try discriminate.
  destruct (get_variable_values fuel S ds inputs) as [[m|e]|] eqn:E1; try discriminate.
  inversion H; subst. unfold jlookup at 2. cbn [alookup].
  destruct Hin as [->|Hin].
  - exists x0. rewrite String.eqb_refl. split; [exact E0|reflexivity].
  - destruct (String.eqb (v_name d) (v_name d0)) eqn:Ek.
    + exfalso. apply String.eqb_eq in Ek. apply Hd0. rewrite <- Ek. apply in_map. exact Hin.
    + destruct (IH m d Hn' Hin eq_refl) as [x [X1 X2]]. exists x. split; [exact X1|exact X2].
Qed.

Lemma gvv_reject : forall S ds inputs d, In d ds -> NC S (v_type d) (jlookup (v_name d) inputs) ->
  forall fuel r, get_variable_values fuel S ds inputs = Some r -> exists n, r = inr n.
Proof.
  intros S ds inputs d. induction ds as [|d0 ds IH]; intros Hin Hnc fuel r Hr; [contradiction|].
  cbn [get_variable_values] in Hr.
  destruct (get_variable_value fuel S d0 (jlookup (v_name d0) inputs)) as [[x|u]|] eqn:E; [| |discriminate].
  - destruct Hin as [->|Hin].
    + pose proof (bad_variable_rejects _ _ _ Hnc _ _ E) as Hb. discriminate.
    + destruct (get_variable_values fuel S ds inputs) as [[m|e]|] eqn:E2; [| |discriminate].
      * destruct (IH Hin Hnc _ _ E2) as [n Hn]. discriminate.
      * inversion Hr. eexists; reflexivity.
  - inversion Hr. eexists; reflexivity.
Qed.

(* ---- non-vacuity: a literal, a variable that is null (argument default applies), an argument
        not written (default), an argument not written without default (dropped) ---- *)
Definition Sa : schema := {|
  s_types := [("Int", TScalar SInt); ("Q", TObject [] [])]; s_query := "Q"; s_mutation := None |}.
Definition defs_a : list argdef :=
  [{| a_name := "a"; a_type := TNonNull (TNamed "Int"); a_default := None |};
   {| a_name := "b"; a_type := TNamed "Int"; a_default := Some (JInt 5) |};
   {| a_name := "c"; a_type := TList (TNamed "Int"); a_default := Some (JList [JInt 9]) |};
   {| a_name := "d"; a_type := TNamed "Int"; a_default := None |}].
Definition args_a : list (name * value) := [("a", VInt 1); ("b", VVar "x")].
Definition spec_a (a : argdef) : jv := if String.eqb (a_name a) "a" then JInt 1 else JNull.

Example arguments_nonvacuous :
  (forall a, In a defs_a -> arg_spec Sa [("x", JNull)] a (alookup (a_name a) args_a) (spec_a a)) /\
  get_argument_values 5 Sa defs_a args_a (Some [("x", JNull)])
  = Some [("a", JInt 1); ("b", JInt 5); ("c", JList [JInt 9])].
Proof.
  split; [|reflexivity].
  intros a [<-|[<-|[<-|[<-|[]]]]]; cbn.
  - apply AS_lit. apply SL_nonnull. eapply SL_scalar; [reflexivity|]. apply sl_int. reflexivity.
  - apply (AS_var Sa [("x", JNull)] _ "x").
  - apply AS_lit. apply SL_absent. reflexivity.
  - apply AS_lit. apply SL_absent. reflexivity.
Qed.

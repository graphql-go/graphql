(* C20, "exactly once unless an earlier failure already nulled the enclosing object":
   every object value that survives in the response has had, for each of its response keys that
   names a field of its runtime type, one resolver invocation with that key's path, the runtime
   type as parent, the object's source, the field's name, its coerced arguments and all the merged
   occurrences (PCall / PCallG).  Together with request_calls_nodup (at most once) this is
   "exactly once".  All resolver outcomes, deferred values at any depth, any fuel. *)
From Coq Require Import List NArith String Bool.
From GQL Require Import Exec.Syntax Exec.Coerce Exec.Exec Exec.Request Exec.Conform
     Proofs.ExecField Proofs.ExecInv Proofs.ExecPaths.
Import ListNotations.
Open Scope string_scope.
Open Scope list_scope.

Definition first_args (occs : list occ) : list (name * value) :=
  match occs with o :: _ => oc_args o | [] => [] end.

Section Cov.
Variable E : env.
Variable C : call -> Prop.     (* "has been invoked" *)

Inductive PCall : list occ -> path -> presp -> Prop :=
| K_null occs b : PCall occs b QNull
| K_leaf occs b v : PCall occs b (QLeaf v)
| K_list occs b l : PCallL occs b 0%N l -> PCall occs b (QList l)
| K_obj occs b rt src fuel g fs :
    collect_all fuel (en_S E) (en_D E) (en_vars E) rt (map oc_sub occs) [] [] = Some g ->
    PCallG rt src b g fs -> PCall occs b (QObj fs)
| K_thunk occs b t nodes o : PCall occs b (QThunk t nodes occs b o)
with PCallL : list occ -> path -> N -> list presp -> Prop :=
| KL_nil occs b i : PCallL occs b i []
| KL_cons occs b i q l : PCall occs (b ++ [PIdx i]) q -> PCallL occs b (i + 1)%N l -> PCallL occs b i (q :: l)
with PCallG : name -> rv -> path -> groups -> list (name * presp) -> Prop :=
| KG_nil rt src b : PCallG rt src b [] []
| KG_typename rt src b k occs g fs :
    String.eqb (first_name occs) "__typename" = true ->
    PCallG rt src b g fs -> PCallG rt src b ((k, occs) :: g) ((k, QLeaf (JStr rt)) :: fs)
| KG_skip rt src b k occs g fs :
    String.eqb (first_name occs) "__typename" = false ->
    find_field (first_name occs) (object_fields (en_S E) rt) = None ->
    PCallG rt src b g fs -> PCallG rt src b ((k, occs) :: g) fs
| KG_field rt src b k occs g fs fd fuel args q :
    String.eqb (first_name occs) "__typename" = false ->
    find_field (first_name occs) (object_fields (en_S E) rt) = Some fd ->
    get_argument_values fuel (en_S E) (f_args fd) (first_args occs) (Some (en_vars E)) = Some args ->
    C {| c_path := b ++ [PKey k]; c_parent := rt; c_field := first_name occs; c_source := src;
         c_args := args; c_nodes := map oc_id occs |} ->
    PCall occs (b ++ [PKey k]) q ->
    PCallG rt src b g fs -> PCallG rt src b ((k, occs) :: g) ((k, q) :: fs).
End Cov.

Scheme PCall_ind' := Minimality for PCall Sort Prop
  with PCallL_ind' := Minimality for PCallL Sort Prop
  with PCallG_ind' := Minimality for PCallG Sort Prop.
Combined Scheme PCall_mutind from PCall_ind', PCallL_ind', PCallG_ind'.

Lemma PCall_mono_all : forall E (C C' : call -> Prop), (forall c, C c -> C' c) ->
  (forall occs b q, PCall E C occs b q -> PCall E C' occs b q) /\
  (forall occs b i l, PCallL E C occs b i l -> PCallL E C' occs b i l) /\
  (forall rt src b g fs, PCallG E C rt src b g fs -> PCallG E C' rt src b g fs).
Proof.
  intros E C C' HC. apply PCall_mutind; intros; try (constructor; assumption).
  - eapply K_obj; eassumption.
  - eapply KG_field; try eassumption. apply HC. assumption.
Qed.

Lemma PCall_inv : forall E C occs b q, PCall E C occs b q ->
  match q with
  | QList l => PCallL E C occs b 0%N l
  | QObj fs => exists rt src fuel g,
      collect_all fuel (en_S E) (en_D E) (en_vars E) rt (map oc_sub occs) [] [] = Some g /\ PCallG E C rt src b g fs
  | QThunk _ _ occs' b' _ => occs' = occs /\ b' = b
  | _ => True
  end.
Proof. intros E C occs b q H. destruct H; eauto 8. Qed.

Definition called (s : st) : call -> Prop := fun c => In c (st_calls s).

Lemma called_mono : forall s s', incl (st_calls s) (st_calls s') -> forall c, called s c -> called s' c.
Proof. intros s s' H c Hc. apply H. exact Hc. Qed.

Section Inv.
Variable E : env.

Lemma PCall_up : forall s s' occs b q, incl (st_calls s) (st_calls s') ->
  PCall E (called s) occs b q -> PCall E (called s') occs b q.
Proof. intros s s' occs b q H. apply (PCall_mono_all E _ _ (called_mono s s' H)). Qed.

(* the shape of the invariant: the trace only grows, and the result is covered by the final trace *)
Definition covr {A : Type} (Q : A -> st -> Prop) : st -> xres A -> Prop :=
  post (fun s s' => incl (st_calls s) (st_calls s')) (fun _ => True) Q.

Lemma grows_trans : forall a b c : st,
  incl (st_calls a) (st_calls b) -> incl (st_calls b) (st_calls c) -> incl (st_calls a) (st_calls c).
Proof. intros a b c. apply incl_tran. Qed.

Definition cov (occs : list occ) (b : path) : presp -> st -> Prop := fun y s' => PCall E (called s') occs b y.

Lemma covr_catch : forall occs b s t r, covr (cov occs b) s r -> covr (cov occs b) s (catch_at t r).
Proof.
  intros occs b s t [y s'|e s'|] H; cbn in *; auto.
  destruct (is_nonnull t); cbn; [exact H|]. split; [apply H|constructor].
Qed.

(* forcing refines a response: leaves stay, and in any later trace what covers q covers the result *)
Definition refines (q y : presp) (s' : st) : Prop :=
  (atom q -> y = q) /\
  forall s'', incl (st_calls s') (st_calls s'') -> forall occs b, PCall E (called s'') occs b q -> PCall E (called s'') occs b y.

Lemma refines_up : forall q y s' s'', incl (st_calls s') (st_calls s'') -> refines q y s' -> refines q y s''.
Proof. intros q y s' s'' H [A R]. split; [exact A|]. intros s3 H3. apply R. eapply incl_tran; eassumption. Qed.

Lemma refines_list : forall s' s'' l ys, incl (st_calls s') (st_calls s'') -> Forall2 (fun x y => refines x y s') l ys ->
  forall occs b i, PCallL E (called s'') occs b i l -> PCallL E (called s'') occs b i ys.
Proof.
  intros s' s'' l ys Hi F. induction F as [|x y l ys [_ R] _ IH]; intros occs b i H; inversion H; subst; constructor.
  - apply R; assumption.
  - apply IH. assumption.
Qed.

Lemma refines_fields : forall s' s'' l ys, incl (st_calls s') (st_calls s'') ->
  Forall2 (fun kx ky => fst kx = fst ky /\ refines (snd kx) (snd ky) s') l ys ->
  forall rt src b g, PCallG E (called s'') rt src b g l -> PCallG E (called s'') rt src b g ys.
Proof.
  intros s' s'' l ys Hi F rt src b g H. revert ys F.
  induction H as [rt src b|rt src b k occs g fs Htn _ IH|rt src b k occs g fs Htn Hnf _ IH
                  |rt src b k occs g fs fd fuel args q Htn Hfd Ha Hc Hq _ IH]; intros ys F.
  - inversion F; subst. constructor.
  - inversion F as [|? [k' y] ? ys' [Hk [A _]] F']; subst. cbn in Hk, A. subst k'. rewrite (A I).
    apply KG_typename; [exact Htn|apply IH; exact F'].
  - apply KG_skip; [exact Htn|exact Hnf|apply IH; exact F].
  - inversion F as [|? [k' y] ? ys' [Hk [_ R]] F']; subst. cbn in Hk, R. subst k'.
    eapply KG_field; try eassumption; [apply R; assumption|apply IH; exact F'].
Qed.

(* what ExecuteField leaves behind for response key k, seen from any later trace *)
Definition fcov (obj : name) (src : rv) (k : name) (occs : list occ) (p : path) (y : option presp) (s' : st) : Prop :=
  forall s'', incl (st_calls s') (st_calls s'') -> forall g fs,
    PCallG E (called s'') obj src p g fs -> PCallG E (called s'') obj src p ((k, occs) :: g) (keyed k y fs).

(* the invocation for key k is on record: from s' on, a covered value at k extends a covering of the other keys *)
Definition recorded (obj : name) (src : rv) (k : name) (occs : list occ) (p : path) (s' : st) : Prop :=
  forall s'', incl (st_calls s') (st_calls s'') -> forall q g fs,
    PCall E (called s'') occs (p ++ [PKey k]) q -> PCallG E (called s'') obj src p g fs ->
    PCallG E (called s'') obj src p ((k, occs) :: g) ((k, q) :: fs).

(* ... which it is from some s2 on, whatever becomes of its value *)
Definition icov (obj : name) (src : rv) (k : name) (occs : list occ) (p : path) (s : st) (r : xres presp) : Prop :=
  exists s2, incl (st_calls s) (st_calls s2) /\ recorded obj src k occs p s2 /\ covr (cov occs (p ++ [PKey k])) s2 r.

Lemma icov_intro : forall obj src k occs p s fd fuel args r,
  String.eqb (first_name occs) "__typename" = false ->
  find_field (first_name occs) (object_fields (en_S E) obj) = Some fd ->
  get_argument_values fuel (en_S E) (f_args fd) (first_args occs) (Some (en_vars E)) = Some args ->
  covr (cov occs (p ++ [PKey k])) (after_call E obj src k occs p args s) r ->
  icov obj src k occs p s r.
Proof.
  intros obj src k occs p s fd fuel args r Htn Hfd Ha Hr. eexists. split; [|split; [|exact Hr]].
  - rewrite after_call_calls. apply incl_appl, incl_refl.
  - intros s'' Hi q g fs Hq Hg. eapply KG_field; try eassumption.
    apply Hi. rewrite after_call_calls. apply in_or_app. right. left. reflexivity.
Qed.

Lemma icov_caught : forall obj src k occs p s r t, icov obj src k occs p s r ->
  covr (fun y s' => recorded obj src k occs p s' /\ cov occs (p ++ [PKey k]) y s') s (catch_at t r).
Proof.
  intros obj src k occs p s r t [s2 [Hi [Hrec Hr]]]. eapply (post_pre _ _ grows_trans); [exact Hi|].
  apply (covr_catch _ _ _ t) in Hr. destruct (catch_at t r) as [y s'|e s'|]; cbn in *; auto.
  destruct Hr as [Hi2 Hy]. split; [exact Hi2|]. split; [|exact Hy].
  intros s'' Hi3. apply Hrec. eapply incl_tran; eassumption.
Qed.

Lemma run_cov : forall j, Run E j ->
  match j with
  | Complete _ _ occs _ p _ s r | Object _ occs p _ s r | Outcome _ _ occs p _ s r => covr (cov occs p) s r
  | Items _ _ occs _ p _ i s r => covr (fun ys s' => PCallL E (called s') occs p i ys) s r
  | Groups obj src g p s r => covr (fun fs s' => PCallG E (called s') obj src p g fs) s r
  | Field obj src k occs p s r => covr (fcov obj src k occs p) s r
  | Invoke obj src k occs p s _ r => icov obj src k occs p s r
  | Dethunk q s r => covr (refines q) s r
  | DList l s r => covr (fun ys s' => Forall2 (fun x y => refines x y s') l ys) s r
  | DFields l s r =>
    covr (fun ys s' => Forall2 (fun kx ky => fst kx = fst ky /\ refines (snd kx) (snd ky) s') l ys) s r
  end.
Proof.
  assert (Hnil : forall A (Q : A -> st -> Prop) s a, Q a s -> covr Q s (XOk a s)) by (intros; split; [apply incl_refl|assumption]).
  assert (Htc : forall fpath v s s1, s1 = s \/ s1 = add_tcall (fpath, v) s -> incl (st_calls s) (st_calls s1))
    by (intros fpath v s s1 [->| ->]; apply incl_refl).
  apply Run_ind; cbv beta iota.
  - intros t nodes occs fpath p v s [[]|e s'|] _ IH; try exact IH. split; [apply IH|exact I].
  - intros. apply Hnil. constructor.
  - intros. apply Hnil. unfold leaf. destruct (nullish _); constructor.
  - intros. apply Hnil. unfold leaf. destruct (nullish _); constructor.
  - intros t nodes occs fpath p v s s' Hs. split; [exact (Htc _ _ _ _ Hs)|exact I].
  - intros t nodes occs fpath p l s r _ IH. eapply post_xmap; [|exact IH]. intros ys s'. apply K_list.
  - intros n rt nodes occs fpath p v s s1 r _ _ Hs _ IH. eapply (post_pre _ _ grows_trans); [exact (Htc _ _ _ _ Hs)|exact IH].
  - intros. apply Hnil. constructor.
  - intros t nodes occs fpath p x l i s r1 e s' _ IH Ec. apply (covr_catch _ _ _ t) in IH. rewrite Ec in IH. exact IH.
  - intros t nodes occs fpath p x l i s r1 y s' r _ IH Ec _ IH2. apply (covr_catch _ _ _ t) in IH. rewrite Ec in IH.
    eapply (post_next _ _ grows_trans); [exact IH|exact IH2|]. intros ys s'' Hi Hy Hys. constructor; [eapply PCall_up; eassumption|exact Hys].
  - intros obj occs p src s fuel g r Eg _ IH. eapply post_xmap; [|exact IH]. intros fs s' Hg. exact (K_obj E _ _ _ _ _ _ _ _ Eg Hg).
  - intros. apply Hnil. constructor.
  - intros obj src k occs g p s e s' _ IH. exact IH.
  - intros obj src k occs g p s y s' r _ IH _ IH2. eapply (post_next _ _ grows_trans); [exact IH|exact IH2|].
    intros fs s'' Hi Hy Hfs. apply Hy; assumption.
  - intros obj src k occs p s Htn. apply Hnil. intros s'' _ g fs Hg. apply KG_typename; assumption.
  - intros obj src k occs p s Htn Hnf. apply Hnil. intros s'' _ g fs Hg. apply KG_skip; assumption.
  - intros obj src k occs p s fd r1 _ IH. eapply post_xmap; [|exact (icov_caught _ _ _ _ _ _ _ (f_type fd) IH)].
    intros y s' [Hrec Hy] s'' Hi g fs Hg. apply Hrec; [exact Hi|eapply PCall_up; eassumption|exact Hg].
  - intros obj src k occs s fd r1 y s' r _ IH Ec _ _ IHd.
    apply (icov_caught _ _ _ _ _ _ _ (f_type fd)) in IH. rewrite Ec in IH. destruct IH as [H1 [Hrec Hy]].
    eapply (post_pre _ _ grows_trans); [exact H1|].
    destruct r as [y' s''|e s''|]; cbn in IHd |- *; auto. destruct IHd as [Hi' [_ R]]. split; [exact Hi'|].
    intros s3 Hi g fs Hg. apply Hrec; [eapply incl_tran; eassumption| |exact Hg].
    apply R; [exact Hi|]. eapply PCall_up; [|exact Hy]. eapply incl_tran; eassumption.
  - intros obj src k occs p s fd fuel args o Htn Hfd Ha _ _. eapply icov_intro; try eassumption. apply Hnil. constructor.
  - intros obj src k occs p s fd fuel args o thunked r Htn Hfd Ha _ _ _ IH. eapply icov_intro; try eassumption.
    destruct r as [q s'|e s'|]; try exact IH. destruct thunked; exact IH.
  - intros t nodes occs p v s r _ IH. exact IH.
  - intros. split; [apply incl_refl|exact I].
  - intros q s _. apply Hnil. split; [reflexivity|auto].
  - intros l s r _ IH. eapply post_xmap; [|exact IH]. intros ys s' F. split; [intros []|].
    intros s'' Hi occs b Hq. constructor. exact (refines_list _ _ _ _ Hi F _ _ _ (PCall_inv _ _ _ _ _ Hq)).
  - intros l s r _ IH. eapply post_xmap; [|exact IH]. intros ys s' F. split; [intros []|].
    intros s'' Hi occs b Hq. destruct (PCall_inv _ _ _ _ _ Hq) as [rt [src [fuel [g [Eg Hg]]]]].
    exact (K_obj E _ _ _ _ _ _ _ _ Eg (refines_fields _ _ _ _ Hi F _ _ _ _ Hg)).
  - intros t nodes occs p o s r1 e s' _ IH Ec. apply (covr_catch _ _ _ t) in IH. rewrite Ec in IH. exact IH.
  - intros t nodes occs p o s r1 y s' r _ IH Ec _ IHd. apply (covr_catch _ _ _ t) in IH. rewrite Ec in IH.
    destruct IH as [H1 H2]. eapply (post_pre _ _ grows_trans); [exact H1|]. destruct r as [y' s''|e s''|]; cbn in IHd |- *; auto.
    destruct IHd as [Hi' [_ R]]. split; [exact Hi'|]. split; [intros []|]. intros s3 Hi occs0 b Hq.
    destruct (PCall_inv _ _ _ _ _ Hq) as [-> ->]. apply R; [exact Hi|]. eapply PCall_up; [|exact H2]. eapply incl_tran; eassumption.
  - intros. apply Hnil. constructor.
  - intros x l s e s' _ IH. exact IH.
  - intros x l s y s' r _ IH _ IH2. eapply (post_next _ _ grows_trans); [exact IH|exact IH2|]. intros ys s'' Hi Hy Hys.
    constructor; [eapply refines_up; eassumption|exact Hys].
  - intros. apply Hnil. constructor.
  - intros k x l s e s' _ IH. exact IH.
  - intros k x l s y s' r _ IH _ IH2. eapply (post_next _ _ grows_trans); [exact IH|exact IH2|]. intros ys s'' Hi Hy Hys.
    constructor; [split; [reflexivity|eapply refines_up; eassumption]|exact Hys].
Qed.
End Inv.

Definition called_once (s : st) : call -> Prop :=
  fun c => In c (st_calls s) /\ forall c', In c' (st_calls s) -> c_path c' = c_path c -> c' = c.

Lemma nodup_map_inj : forall (A B : Type) (f : A -> B) (l : list A) a b,
  NoDup (map f l) -> In a l -> In b l -> f a = f b -> a = b.
Proof.
  intros A B f. induction l as [|x l IH]; intros a b Hn Ha Hb Hf; [contradiction|].
  cbn [map] in Hn. inversion Hn as [|? ? Hx Hn']; subst.
  destruct Ha as [->|Ha]; destruct Hb as [->|Hb]; auto.
  - exfalso. apply Hx. rewrite Hf. apply in_map. exact Hb.
  - exfalso. apply Hx. rewrite <- Hf. apply in_map. exact Ha.
Qed.

(* the root object is covered by the trace of the selection set, forcing refines it, and no
   two invocations share a path (request_calls_nodup) *)
Theorem request_calls_exactly_once : forall fuel S D opn inputs root or tor d s,
  request fuel S D opn inputs root or tor = RDone (Some d) s ->
  exists op rt vars g fs,
    get_operation D opn = Some op /\ root_type S op = Some rt /\
    get_variable_values fuel S (o_vars op) inputs = Some (inl vars) /\
    (exists v, collect fuel S D vars rt (o_sel op) [] [] = Some (g, v)) /\
    let E := {| en_S := S; en_D := D; en_vars := vars; en_or := or; en_tor := tor;
                en_serial := match o_kind op with OpMutation => true | _ => false end |} in
    PCallG E (called_once s) rt root [] g fs /\ d = to_resp (QObj fs).
Proof.
  intros fuel S D opn inputs root or tor d s H.
  pose proof (request_calls_nodup _ _ _ _ _ _ _ _ _ _ H) as Hn.
  destruct (request_run _ _ _ _ _ _ _ _ _ _ H) as [op [rt [vars [g [v [Eop [Ert [Ev [Ec Hf]]]]]]]]].
  match type of Hf with Finished ?E0 _ _ _ _ _ => set (E := E0) in * end.
  inversion Hf as [fs s1 q s' Hg1 Hd1|]; subst.
  destruct (Dethunk_obj_inv _ _ _ _ _ Hd1) as [fs' [-> Hl]].
  destruct (run_cov E _ Hg1) as [_ G]. destruct (run_cov E _ Hl) as [Hi F].
  exists op, rt, vars, g, fs'. repeat (split; [assumption|]). split; [exists v; exact Ec|].
  split; [|reflexivity].
  assert (Hon : forall c, called s c -> called_once s c).
  { intros c Hc. split; [exact Hc|]. intros c' Hc' Hp. eapply nodup_map_inj; eassumption. }
  apply (proj2 (proj2 (PCall_mono_all E _ _ Hon))).
  eapply refines_fields; [apply incl_refl|exact F|].
  exact (proj2 (proj2 (PCall_mono_all E _ _ (called_mono _ _ Hi))) _ _ _ _ _ G).
Qed.

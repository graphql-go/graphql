(* Simple validation rules: the model of each rule reports an error exactly when the
   declarative violation predicate holds.  A rule runs a check on every element of a list
   (the items of the TypeInfo walk, the operations, their variables or usages), so each
   equivalence is flat_map_some / flat_map_some2 applied to what the check does on one element. *)
From Coq Require Import List Arith Lia Bool String NArith.
From GQL Require Import Exec.Syntax Validate.VSyntax Validate.Overlap Validate.Rules.
Import ListNotations.
Open Scope string_scope.
Open Scope list_scope.

Lemma or_iff : forall A B C D : Prop, (A <-> B) -> (C <-> D) -> (A \/ C <-> B \/ D).
Proof. intros A B C D [H1 H2] [H3 H4]. split; intros [H|H]; auto. Qed.

Lemma no_report : forall {A}, ([] : list A) <> [] <-> False.
Proof. intro A. split; [intro H; apply H; reflexivity | intros []]. Qed.

Lemma not_true_iff : forall (b : bool) (P : Prop), (b = true <-> P) -> (b = false <-> ~ P).
Proof.
  intros [] P [H1 H2]; split; try discriminate; auto.
  - intro H. destruct (H (H1 eq_refl)).
  - intros _ HP. discriminate (H2 HP).
Qed.

Lemma nonempty_ex : forall {A} (l : list A), l <> [] <-> exists x, In x l.
Proof.
  intros A [|y l]; split; try discriminate; [intro H; destruct H; reflexivity | intros (x & []) | intros _; exists y; left; reflexivity].
Qed.

Lemma app_nonempty : forall {A} (l1 l2 : list A), l1 ++ l2 <> [] <-> (l1 <> [] \/ l2 <> []).
Proof.
  intros A [|x l1] l2; simpl.
  - split; [auto | intros [H|H]; [destruct H; reflexivity | exact H]].
  - split; [left|]; discriminate.
Qed.

Lemma flat_map_nonempty : forall {A B} (f : A -> list B) (l : list A),
  flat_map f l <> [] <-> exists x, In x l /\ f x <> [].
Proof.
  intros A B f l. induction l as [|x r IH]; simpl.
  - split; [congruence | intros (x & [] & _)].
  - rewrite app_nonempty, IH. split.
    + intros [H|(z & Hz & H)]; eauto.
    + intros (z & [<-|Hz] & H); eauto.
Qed.

Lemma flat_map_some : forall {A B} (f : A -> list B) (P : A -> Prop) l,
  (forall x, f x <> [] <-> P x) -> (flat_map f l <> [] <-> exists x, In x l /\ P x).
Proof.
  intros A B f P l H. rewrite flat_map_nonempty.
  split; intros (x & Hx & Hf); exists x; (split; [exact Hx | apply H; exact Hf]).
Qed.

Lemma flat_map_some2 : forall {A B C} (g : A -> list B) (f : A -> B -> list C) (P : A -> B -> Prop) l,
  (forall a b, f a b <> [] <-> P a b) ->
  (flat_map (fun a => flat_map (f a) (g a)) l <> [] <-> exists a b, In a l /\ In b (g a) /\ P a b).
Proof.
  intros A B C g f P l H. etransitivity; [apply flat_map_some; intro a; apply flat_map_some, H|].
  split; [intros (a & Ha & b & Hb) | intros (a & b & Ha & Hb)]; eauto.
Qed.

Lemma flat_map_nonempty2 : forall {A B C} (g : A -> list B) (f : A -> B -> list C) l,
  flat_map (fun a => flat_map (f a) (g a)) l <> [] <-> exists a b, In a l /\ In b (g a) /\ f a b <> [].
Proof. intros. apply flat_map_some2. reflexivity. Qed.

Lemma app_some : forall {A} (l1 l2 : list A) (P Q : Prop),
  (l1 <> [] <-> P) -> (l2 <> [] <-> Q) -> (l1 ++ l2 <> [] <-> P \/ Q).
Proof. intros A l1 l2 P Q H1 H2. etransitivity; [apply app_nonempty | apply or_iff; assumption]. Qed.

Lemma flat_map_located : forall {A B} (f : A -> list B) (Q : B -> Prop) l,
  (forall a, In a l -> forall x, In x (f a) -> Q x) -> forall x, In x (flat_map f l) -> Q x.
Proof. intros A B f Q l H x Hx. apply in_flat_map in Hx. destruct Hx as (a & Ha & Hx). exact (H a Ha x Hx). Qed.

Lemma flat_map_located2 : forall {A B C} (g : A -> list B) (f : A -> B -> list C) (Q : C -> Prop) l,
  (forall a b, In a l -> In b (g a) -> forall x, In x (f a b) -> Q x) ->
  forall x, In x (flat_map (fun a => flat_map (f a) (g a)) l) -> Q x.
Proof. intros A B C g f Q l H. apply flat_map_located. intros a Ha. apply flat_map_located. intros b. exact (H a b Ha). Qed.

Lemma app_located : forall {A} (Q : A -> Prop) l1 l2,
  (forall x, In x l1 -> Q x) -> (forall x, In x l2 -> Q x) -> forall x, In x (l1 ++ l2) -> Q x.
Proof. intros A Q l1 l2 H1 H2 x H. apply in_app_or in H. destruct H; auto. Qed.

Lemma ForallOrdPairs_impl : forall {A} (R R' : A -> A -> Prop) l,
  (forall a b, In a l -> In b l -> R a b -> R' a b) -> ForallOrdPairs R l -> ForallOrdPairs R' l.
Proof.
  intros A R R' l H FO. induction FO as [|a r Ha _ IH]; constructor.
  - rewrite Forall_forall in *. intros b Hb. apply H; [left; reflexivity | right; exact Hb | apply Ha, Hb].
  - apply IH. intros x y Hx Hy. apply H; right; assumption.
Qed.

Lemma alookup_in : forall {A} k (l : list (name * A)) v, alookup k l = Some v -> In (k, v) l.
Proof.
  intros A k l. induction l as [|[k' v'] r IH]; simpl; intros v H; [discriminate|].
  destruct (String.eqb_spec k k') as [<-|_]; [left; congruence | right; apply IH; exact H].
Qed.

Lemma alookup_none : forall {A} k (l : list (name * A)), alookup k l = None <-> ~ In k (map fst l).
Proof.
  intros A k l. induction l as [|[k' v'] r IH]; simpl; [split; [intros _ [] | reflexivity]|].
  destruct (String.eqb_spec k k') as [<-|E].
  - split; [discriminate | intros []; left; reflexivity].
  - split; [intros H [E'|H']; [congruence | exact (proj1 IH H H')] | intro H; apply IH; intro H'; apply H; right; exact H'].
Qed.

Lemma NoDup_app_one : forall {A} (l : list A) x, NoDup l -> ~ In x l -> NoDup (l ++ [x]).
Proof.
  intros A l x ND NI. apply (NoDup_Add (Add_app x l [])). rewrite app_nil_r. split; assumption.
Qed.

Lemma list_max_map_le : forall {A} (f : A -> nat) l n, (forall x, In x l -> f x <= n) -> list_max (map f l) <= n.
Proof.
  intros A f l n H. apply list_max_le, Forall_forall. intros k Hk. apply in_map_iff in Hk.
  destruct Hk as [x [<- Hx]]. exact (H x Hx).
Qed.

Lemma list_max_in_le : forall l x, In x l -> x <= list_max l.
Proof.
  intros l x H. pose proof (proj1 (list_max_le l (list_max l)) (le_n _)) as F.
  rewrite Forall_forall in F. apply F. exact H.
Qed.

Lemma dup_firsts_spec : forall l seen,
  NoDup (map fst seen) ->
  (dup_firsts seen l <> [] <-> ~ NoDup (map fst seen ++ map fst l)).
Proof.
  induction l as [|[n id] r IH]; intros seen ND; simpl.
  - rewrite app_nil_r. tauto.
  - destruct (alookup n seen) as [first|] eqn:E.
    + split; [intros _ ND' | discriminate].
      apply NoDup_remove_2 in ND'. apply ND', in_or_app. left.
      apply (in_map fst _ _ (alookup_in _ _ _ E)).
    + apply alookup_none in E.
      rewrite IH, map_app, <- app_assoc; [reflexivity|].
      rewrite map_app. apply NoDup_app_one; assumption.
Qed.

Lemma dup_firsts_iff : forall {A} (key : A -> name * N) l,
  dup_firsts [] (map key l) <> [] <-> ~ NoDup (map (fun a => fst (key a)) l).
Proof. intros A key l. rewrite (dup_firsts_spec _ [] (NoDup_nil _)), map_map. reflexivity. Qed.

Lemma dup_firsts_located : forall l seen x, In x (dup_firsts seen l) -> In x (map snd seen) \/ In x (map snd l).
Proof.
  induction l as [|[n id] r IH]; intros seen x H; simpl in H; [destruct H|].
  destruct (alookup n seen) as [first|] eqn:E; [destruct H as [<-|H]|].
  - left. apply (in_map snd _ _ (alookup_in _ _ _ E)).
  - destruct (IH _ x H); [left | right; right]; assumption.
  - destruct (IH _ x H) as [K|K]; [|right; right; exact K].
    rewrite map_app in K. apply in_app_or in K. destruct K as [K|[K|[]]]; [left | right; left]; exact K.
Qed.

Lemma dup_firsts_in : forall {A} (key : A -> name * N) l x,
  In x (dup_firsts [] (map key l)) -> exists a, In a l /\ x = snd (key a).
Proof.
  intros A key l x H. destruct (dup_firsts_located _ [] x H) as [[]|K].
  rewrite map_map in K. apply in_map_iff in K. destruct K as (a & E & Ha). eauto.
Qed.

Lemma nmem_in : forall k l, nmem k l = true <-> In k l.
Proof.
  intros k l. induction l as [|x r IH]; simpl; [split; [discriminate | intros []]|].
  destruct (String.eqb_spec k x) as [<-|E]; simpl; [split; auto|].
  split; [right; apply IH; assumption | intros [H|H]; [congruence | apply IH; exact H]].
Qed.

Lemma nmem_not_in : forall k l, nmem k l = false <-> ~ In k l.
Proof. intros k l. apply not_true_iff, nmem_in. Qed.

Lemma dedup_incl : forall l seen x, In x (dedup l seen) -> In x l.
Proof.
  induction l as [|y r IH]; intros seen x H; simpl in *; [exact H|].
  destruct (nmem y seen).
  - right. apply (IH seen). exact H.
  - destruct H as [H|H]; [left; exact H | right; apply (IH (y :: seen)); exact H].
Qed.

Lemma dedup_complete : forall l seen x, In x l -> In x seen \/ In x (dedup l seen).
Proof.
  induction l as [|y r IH]; intros seen x H; [destruct H|]. simpl.
  destruct (nmem y seen) eqn:E.
  - destruct H as [H|H]; [subst; left; apply nmem_in; exact E | apply IH; exact H].
  - destruct H as [H|H]; [subst; right; left; reflexivity|].
    destruct (IH (y :: seen) x H) as [[K|K]|K]; [subst; right; left; reflexivity | left; exact K | right; right; exact K].
Qed.

(* the measure of the loops that visit every name at most once *)
Definition fresh (names seen : list name) : nat := List.length (filter (fun n => negb (nmem n seen)) names).

Lemma fresh_le : forall names seen, fresh names seen <= List.length names.
Proof.
  intros names seen. unfold fresh. induction names as [|x r IH]; simpl; [lia|].
  destruct (negb (nmem x seen)); simpl; lia.
Qed.

Lemma fresh_mono : forall names seen seen', incl seen seen' -> fresh names seen' <= fresh names seen.
Proof.
  intros names seen seen' H. unfold fresh. induction names as [|x r IH]; simpl; [lia|].
  destruct (nmem x seen') eqn:E', (nmem x seen) eqn:E; simpl; try lia.
  apply nmem_in in E. apply H, nmem_in in E. congruence.
Qed.

Lemma fresh_lt : forall names seen seen' n,
  incl seen seen' -> In n names -> ~ In n seen -> In n seen' -> fresh names seen' < fresh names seen.
Proof.
  intros names seen seen' n H Hn Hs Hs'. induction names as [|x r IH]; [destruct Hn|].
  pose proof (fresh_mono r seen seen' H) as M. unfold fresh in *. simpl. destruct Hn as [->|Hn].
  - rewrite (proj2 (nmem_in n seen') Hs'), (proj2 (nmem_not_in n seen) Hs). simpl. lia.
  - specialize (IH Hn). destruct (nmem x seen') eqn:E', (nmem x seen) eqn:E; simpl; try lia.
    apply nmem_in in E. apply H, nmem_in in E. congruence.
Qed.

(* the lookups in which the last entry of a name wins *)
Lemma fold_last_some : forall {A B} (p : A -> bool) (h : A -> B) l acc y,
  fold_left (fun acc x => if p x then Some (h x) else acc) l acc = Some y ->
  acc = Some y \/ exists x, In x l /\ p x = true /\ h x = y.
Proof.
  intros A B p h l. induction l as [|x r IH]; intros acc y H; simpl in H; [left; exact H|].
  destruct (IH _ _ H) as [E|(z & Hz & E)]; [|right; exists z; split; [right; exact Hz | exact E]].
  destruct (p x) eqn:Ex; [|left; exact E]. right. exists x. injection E as E. split; [left; reflexivity | split; assumption].
Qed.

Lemma fold_last_none : forall {A B} (p : A -> bool) (h : A -> B) l acc,
  fold_left (fun acc x => if p x then Some (h x) else acc) l acc = None <->
  acc = None /\ forall x, In x l -> p x = false.
Proof.
  intros A B p h l. induction l as [|x r IH]; intro acc; simpl; [split; [intro H; split; [exact H | intros x []] | intros [H _]; exact H]|].
  rewrite IH. split; intros [Ha H].
  - destruct (p x) eqn:Ex; [discriminate|]. split; [exact Ha|]. intros z [<-|Hz]; auto.
  - rewrite (H x (or_introl eq_refl)). auto.
Qed.

Section WValInd.
Variable P : wvalue -> Prop.
Hypothesis Hvar : forall id n, P (WVar id n).
Hypothesis Hint : forall id z, P (WInt id z).
Hypothesis Hfloat : forall id n d, P (WFloat id n d).
Hypothesis Hstr : forall id s, P (WStr id s).
Hypothesis Hbool : forall id b, P (WBool id b).
Hypothesis Henum : forall id n, P (WEnum id n).
Hypothesis Hlist : forall id l, Forall P l -> P (WList id l).
Hypothesis Hobj : forall id l, Forall (fun p => P (snd (snd p))) l -> P (WObj id l).
Fixpoint wvalue_ind' (v : wvalue) : P v :=
  match v with
  | WVar id n => Hvar id n
  | WInt id z => Hint id z
  | WFloat id n d => Hfloat id n d
  | WStr id s => Hstr id s
  | WBool id b => Hbool id b
  | WEnum id n => Henum id n
  | WList id l =>
    Hlist id l ((fix go (l : list wvalue) : Forall P l :=
                   match l with [] => Forall_nil P | x :: r => Forall_cons x (wvalue_ind' x) (go r) end) l)
  | WObj id l =>
    Hobj id l ((fix go (l : list (N * (name * wvalue))) : Forall (fun p => P (snd (snd p))) l :=
                  match l with [] => Forall_nil _ | x :: r => Forall_cons x (wvalue_ind' (snd (snd x))) (go r) end) l)
  end.
End WValInd.

Section R.
Variable S : schema.
Variable W : wdoc.

(* 20 UniqueOperationNames (the anonymous operation counts as the name "") *)
Definition Violates_unique_operation_names : Prop :=
  ~ NoDup (map (fun o => fst (op_key o)) (w_ops W)).

Lemma unique_operation_names_iff :
  rule_unique_operation_names W <> [] <-> Violates_unique_operation_names.
Proof. apply dup_firsts_iff. Qed.

(* 18 UniqueFragmentNames *)
Definition Violates_unique_fragment_names : Prop := ~ NoDup (map wf_name (w_frags W)).

Lemma unique_fragment_names_iff :
  rule_unique_fragment_names W <> [] <-> Violates_unique_fragment_names.
Proof. apply dup_firsts_iff. Qed.

(* 21 UniqueVariableNames *)
Definition Violates_unique_variable_names : Prop :=
  exists o, In o (w_ops W) /\ ~ NoDup (map wv_name (wo_vars o)).

Lemma unique_variable_names_iff :
  rule_unique_variable_names W <> [] <-> Violates_unique_variable_names.
Proof. apply flat_map_some. intro o. apply dup_firsts_iff. Qed.

(* 17 UniqueArgumentNames *)
Definition dup_args (args : list warg) : Prop := ~ NoDup (map wa_name args).
Definition bad_unique_args (i : item) : Prop :=
  match i with
  | IField _ _ _ _ args _ _ => dup_args args
  | IDir _ _ d => dup_args (wd_args d)
  | _ => False
  end.
Definition Violates_unique_argument_names : Prop :=
  exists i, In i (doc_items S W) /\ bad_unique_args i.

Lemma arg_dups_iff : forall args, arg_dups args <> [] <-> dup_args args.
Proof. intro args. apply dup_firsts_iff. Qed.

Lemma unique_argument_names_iff :
  rule_unique_argument_names S W <> [] <-> Violates_unique_argument_names.
Proof. apply flat_map_some. intros []; try exact no_report; apply arg_dups_iff. Qed.

(* 8 LoneAnonymousOperation *)
Definition Violates_lone_anonymous : Prop :=
  1 < List.length (w_ops W) /\ exists o, In o (w_ops W) /\ wo_name o = None.

Lemma lone_anonymous_iff : rule_lone_anonymous W <> [] <-> Violates_lone_anonymous.
Proof.
  unfold rule_lone_anonymous, Violates_lone_anonymous.
  destruct (Nat.ltb_spec 1 (List.length (w_ops W))) as [E|E]; [|split; [congruence | lia]].
  rewrite (flat_map_some _ (fun o => wo_name o = None)); [tauto|].
  intro o. destruct (wo_name o); split; congruence.
Qed.

(* 6 KnownFragmentNames *)
Lemma fragw_none : forall g, fragw W g = None <-> ~ In g (map wf_name (w_frags W)).
Proof.
  intro g. unfold fragw. rewrite (fold_last_none (fun f => String.eqb g (wf_name f)) (fun f => f)), in_map_iff.
  split.
  - intros [_ H] (f & <- & Hf). apply H in Hf. rewrite String.eqb_refl in Hf. discriminate.
  - intro H. split; [reflexivity|]. intros f Hf. apply String.eqb_neq. intros ->. eauto.
Qed.

Lemma fragw_some : forall g f, fragw W g = Some f -> In f (w_frags W) /\ wf_name f = g.
Proof.
  intros g f H. apply (fold_last_some (fun f => String.eqb g (wf_name f)) (fun f => f)) in H.
  destruct H as [H|(f' & Hf & E & <-)]; [discriminate|]. apply String.eqb_eq in E. auto.
Qed.

Definition Violates_known_fragment_names : Prop :=
  exists pt id nid g, In (ISpread pt id nid g) (doc_items S W) /\ ~ In g (map wf_name (w_frags W)).

Lemma known_fragment_names_iff :
  rule_known_fragment_names S W <> [] <-> Violates_known_fragment_names.
Proof.
  etransitivity; [apply flat_map_nonempty|]. split.
  - intros ([| pt id nid g | | | |] & Hi & H); try contradiction.
    exists pt, id, nid, g. split; [exact Hi|].
    apply fragw_none. destruct (fragw W g); [contradiction | reflexivity].
  - intros (pt & id & nid & g & Hi & H). exists (ISpread pt id nid g). split; [exact Hi|].
    apply fragw_none in H. rewrite H. discriminate.
Qed.

(* 16 ScalarLeafs *)
Definition bad_scalar_leaf (i : item) : Prop :=
  match i with
  | IField _ (Some fd) _ _ _ _ hassub =>
    (is_leaf S (named_of (f_type fd)) = true /\ hassub = true) \/
    (is_leaf S (named_of (f_type fd)) = false /\ hassub = false)
  | _ => False
  end.
Definition Violates_scalar_leafs : Prop := exists i, In i (doc_items S W) /\ bad_scalar_leaf i.

Lemma scalar_leafs_iff : rule_scalar_leafs S W <> [] <-> Violates_scalar_leafs.
Proof.
  apply flat_map_some. intros [pt [fd|] id nm args ssid hs| | | | |]; try exact no_report.
  simpl. destruct (is_leaf S (named_of (f_type fd))), hs; split; try (intros [[? ?]|[? ?]]); auto; congruence.
Qed.

(* 2 FieldsOnCorrectType *)
Definition Violates_fields_on_correct_type : Prop :=
  exists t id nm args ssid hs, In (IField (Some t) None id nm args ssid hs) (doc_items S W).

Lemma fields_on_correct_type_iff :
  rule_fields_on_correct_type S W <> [] <-> Violates_fields_on_correct_type.
Proof.
  etransitivity; [apply flat_map_nonempty|]. split.
  - intros ([[t|] [fd|] id nm args ssid hs| | | | |] & Hi & H); try contradiction.
    exists t, id, nm, args, ssid, hs. exact Hi.
  - intros (t & id & nm & args & ssid & hs & Hi). exists (IField (Some t) None id nm args ssid hs).
    split; [exact Hi | discriminate].
Qed.

(* 5 KnownDirectives *)
Definition bad_directive (i : item) : Prop :=
  match i with
  | IDir loc None _ => True
  | IDir loc (Some dd) _ => ~ In loc (dd_locs dd)
  | _ => False
  end.
Definition Violates_known_directives : Prop := exists i, In i (doc_items S W) /\ bad_directive i.

Lemma dloc_eqb_eq : forall a b, dloc_eqb a b = true <-> a = b.
Proof.
  intros a b. split; [|intros ->; destruct b; reflexivity]. destruct a, b; (reflexivity || discriminate).
Qed.

Lemma known_directives_iff : rule_known_directives S W <> [] <-> Violates_known_directives.
Proof.
  apply flat_map_some. intros [| | |loc [dd|] d| |]; try exact no_report; simpl; [|split; [trivial | discriminate]].
  destruct (existsb (dloc_eqb loc) (dd_locs dd)) eqn:E.
  - apply existsb_exists in E. destruct E as (l & Hl & E). apply dloc_eqb_eq in E. subst l.
    split; [intro H; destruct H; reflexivity | contradiction].
  - split; [intros _ Hin | discriminate].
    rewrite (proj2 (existsb_exists _ _)) in E; [discriminate|]. exists loc. split; [exact Hin | apply dloc_eqb_eq; reflexivity].
Qed.

(* 4 KnownArgumentNames *)
Definition bad_argument_name (i : item) : Prop :=
  match i with
  | IArg (OField (Some fd) _) _ a => ~ In (wa_name a) (map a_name (f_args fd))
  | IArg (ODir (Some dd)) _ a => ~ In (wa_name a) (map a_name (dd_args dd))
  | _ => False
  end.
Definition Violates_known_argument_names : Prop :=
  exists i, In i (doc_items S W) /\ bad_argument_name i.

Lemma find_argdef_alookup : forall n l, find_argdef n l = alookup n (map (fun a => (a_name a, a)) l).
Proof. intros n l. induction l as [|a r IH]; simpl; [|rewrite IH]; reflexivity. Qed.

Lemma find_argdef_none : forall n l, find_argdef n l = None <-> ~ In n (map a_name l).
Proof. intros n l. rewrite find_argdef_alookup, alookup_none, map_map. reflexivity. Qed.

Lemma known_argument_names_iff :
  rule_known_argument_names S W <> [] <-> Violates_known_argument_names.
Proof.
  assert (G : forall n l (x : N), match find_argdef n l with Some _ => [] | None => [x] end <> [] <->
                                  ~ In n (map a_name l)).
  { intros n l x. rewrite <- find_argdef_none. destruct (find_argdef n l); split; congruence. }
  apply flat_map_some. intros [| | | |[[fd|] pt|[dd|]] ad a|]; try exact no_report; apply G.
Qed.

(* 15 ProvidedNonNullArguments *)
Definition missing (defs : list argdef) (args : list warg) : Prop :=
  exists ad, In ad defs /\ is_nonnull (a_type ad) = true /\ ~ In (a_name ad) (map wa_name args).
Definition bad_provided (i : item) : Prop :=
  match i with
  | IField _ (Some fd) _ _ args _ _ => missing (f_args fd) args
  | IDir _ (Some dd) d => missing (dd_args dd) (wd_args d)
  | _ => False
  end.
Definition Violates_provided_non_null_arguments : Prop :=
  exists i, In i (doc_items S W) /\ bad_provided i.

Lemma provided_args_existsb : forall n args,
  existsb (fun a => String.eqb (wa_name a) n) args = true <-> In n (map wa_name args).
Proof.
  intros n args. rewrite existsb_exists, in_map_iff.
  split; intros (a & H1 & H2); exists a; [apply String.eqb_eq in H2 | apply String.eqb_eq in H1]; auto.
Qed.

Lemma missing_required_iff : forall defs args x,
  missing_required defs args x <> [] <-> missing defs args.
Proof.
  intros defs args x. apply flat_map_some. intro ad.
  destruct (is_nonnull (a_type ad)); [|split; [intro H; destruct H; reflexivity | intros [H _]; discriminate]].
  destruct (existsb _ args) eqn:E; simpl.
  - apply provided_args_existsb in E. split; [intro H; destruct H; reflexivity | intros [_ H]; contradiction].
  - split; [intros _ | discriminate]. split; [reflexivity|]. intro H. apply provided_args_existsb in H. congruence.
Qed.

Lemma provided_non_null_arguments_iff :
  rule_provided_non_null_arguments S W <> [] <-> Violates_provided_non_null_arguments.
Proof.
  apply flat_map_some. intros [pt [fd|] id nm args ssid hs| | |loc [dd|] d| |];
    try exact no_report; apply missing_required_iff.
Qed.

(* 10 NoUndefinedVariables / 12 NoUnusedVariables (over RecursiveVariableUsages) *)
Definition Violates_no_undefined_variables : Prop :=
  exists o u, In o (w_ops W) /\ In u (rec_uses S W o) /\ ~ In (fst (snd u)) (map wv_name (wo_vars o)).

Lemma unless_nmem : forall k l (x : N), (if nmem k l then [] else [x]) <> [] <-> ~ In k l.
Proof. intros k l x. rewrite <- nmem_not_in. destruct (nmem k l); split; congruence. Qed.

Lemma no_undefined_variables_iff :
  rule_no_undefined_variables S W <> [] <-> Violates_no_undefined_variables.
Proof.
  apply flat_map_some2.
  intros o u. apply unless_nmem.
Qed.

Definition Violates_no_unused_variables : Prop :=
  exists o v, In o (w_ops W) /\ In v (wo_vars o) /\
              ~ In (wv_name v) (map (fun u => fst (snd u)) (rec_uses S W o)).

Lemma no_unused_variables_iff :
  rule_no_unused_variables S W <> [] <-> Violates_no_unused_variables.
Proof.
  apply flat_map_some2.
  intros o v. apply unless_nmem.
Qed.

(* 22 VariablesAreInputTypes *)
Definition Violates_variables_are_input_types : Prop :=
  exists o v, In o (w_ops W) /\ In v (wo_vars o) /\
    known S (snd (type_named (wv_type v))) = true /\ is_input S (snd (type_named (wv_type v))) = false.

Lemma variables_are_input_types_iff :
  rule_variables_are_input_types S W <> [] <-> Violates_variables_are_input_types.
Proof.
  apply flat_map_some2.
  intros _ v. destruct (known S _), (is_input S _); simpl; split; try (intros [? ?]); auto; congruence.
Qed.

(* 14 PossibleFragmentSpreads *)
Definition bad_spread (i : item) : Prop :=
  match i with
  | IInline (Some p) (Some t) _ _ => types_overlap S t p = false
  | ISpread (Some p) _ _ g =>
    exists f t, fragw W g = Some f /\ resolve S (wf_cond f) = Some t /\ types_overlap S t p = false
  | _ => False
  end.
Definition Violates_possible_fragment_spreads : Prop := exists i, In i (doc_items S W) /\ bad_spread i.

Lemma possible_fragment_spreads_iff :
  rule_possible_fragment_spreads S W <> [] <-> Violates_possible_fragment_spreads.
Proof.
  apply flat_map_some. intros [|[p|] id nid g|[p|] [t|] id tc| | |]; try exact no_report; simpl.
  - destruct (fragw W g) as [f|]; [|split; [congruence | intros (f & t & H & _); discriminate]].
    destruct (resolve S (wf_cond f)) as [t|] eqn:E; [|split; [congruence | intros (f' & t & H & H' & _); congruence]].
    destruct (types_overlap S t p) eqn:Eo; split; try congruence.
    + intros (f' & t' & H & H' & H''). congruence.
    + eauto.
  - destruct (types_overlap S t p); split; congruence.
Qed.

(* 0 ArgumentsOfCorrectType (relative to the model of isValidLiteralValue) *)
Definition Violates_arguments_of_correct_type : Prop :=
  exists ow ad a, In (IArg ow (Some ad) a) (doc_items S W) /\ vlit S (wa_val a) (a_type ad) = false.

Lemma arguments_of_correct_type_iff :
  rule_arguments_of_correct_type S W <> [] <-> Violates_arguments_of_correct_type.
Proof.
  etransitivity; [apply flat_map_nonempty|]. split.
  - intros ([| | | |ow [ad|] a|] & Hi & H); try contradiction.
    exists ow, ad, a. split; [exact Hi|]. destruct (vlit S (wa_val a) (a_type ad)); [contradiction | reflexivity].
  - intros (ow & ad & a & Hi & H). exists (IArg ow (Some ad) a). split; [exact Hi|]. rewrite H. discriminate.
Qed.

(* 1 DefaultValuesOfCorrectType *)
Definition Violates_default_values_of_correct_type : Prop :=
  exists o v d t, In o (w_ops W) /\ In v (wo_vars o) /\ wv_default v = Some d /\
    type_from_ast S (erase_type (wv_type v)) = Some t /\ (is_nonnull t = true \/ vlit S d t = false).

Lemma default_values_of_correct_type_iff :
  rule_default_values_of_correct_type S W <> [] <-> Violates_default_values_of_correct_type.
Proof.
  split.
  - intro H. apply flat_map_nonempty2 in H. destruct H as (o & v & Ho & Hv & H).
    destruct (wv_default v) as [d|] eqn:Ed; [|destruct H; reflexivity].
    destruct (type_from_ast S _) as [t|] eqn:Et; [|destruct H; reflexivity].
    exists o, v, d, t. repeat (split; [assumption|]).
    destruct (is_nonnull t); [left; reflexivity|]. destruct (vlit S d t); [destruct H; reflexivity | right; reflexivity].
  - intros (o & v & d & t & Ho & Hv & Ed & Et & H). apply flat_map_nonempty2. exists o, v.
    split; [exact Ho|]. split; [exact Hv|]. rewrite Ed, Et.
    destruct H as [-> | ->]; [discriminate|]. destruct (is_nonnull t); discriminate.
Qed.

(* 23 VariablesInAllowedPosition *)
Definition Violates_variables_in_allowed_position : Prop :=
  exists o u vd ut vt, In o (w_ops W) /\ In u (rec_uses S W o) /\
    find_vardef (fst (snd u)) (wo_vars o) = Some vd /\ snd (snd u) = Some ut /\
    type_from_ast S (erase_type (wv_type vd)) = Some vt /\
    subtype S (effective_type vt vd) ut = false.

Lemma variables_in_allowed_position_iff :
  rule_variables_in_allowed_position S W <> [] <-> Violates_variables_in_allowed_position.
Proof.
  split.
  - intro H. apply flat_map_nonempty2 in H. destruct H as (o & u & Ho & Hu & H).
    destruct (find_vardef _ (wo_vars o)) as [vd|] eqn:Ev; [|destruct H; reflexivity].
    destruct (snd (snd u)) as [ut|] eqn:Eu; [|destruct H; reflexivity].
    destruct (type_from_ast S _) as [vt|] eqn:Et; [|destruct H; reflexivity].
    destruct (subtype S (effective_type vt vd) ut) eqn:Es; [destruct H; reflexivity|].
    exists o, u, vd, ut, vt. repeat (split; [assumption|]). exact Es.
  - intros (o & u & vd & ut & vt & Ho & Hu & Ev & Eu & Et & Es). apply flat_map_nonempty2. exists o, u.
    split; [exact Ho|]. split; [exact Hu|]. rewrite Ev, Eu, Et, Es. discriminate.
Qed.

(* 3 FragmentsOnCompositeTypes *)
Definition Violates_fragments_on_composite : Prop :=
  (exists pt t id tc, In (IInline pt (Some t) id (Some tc)) (doc_items S W) /\ is_composite S t = false) \/
  (exists f t, In f (w_frags W) /\ resolve S (wf_cond f) = Some t /\ is_composite S t = false).

Lemma fragments_on_composite_iff :
  rule_fragments_on_composite S W <> [] <-> Violates_fragments_on_composite.
Proof.
  apply app_some; (etransitivity; [apply flat_map_nonempty|]); split.
  - intros ([| |pt [t|] id [tc|]| | |] & Hi & H); try contradiction.
    exists pt, t, id, tc. split; [exact Hi|]. destruct (is_composite S t); [contradiction | reflexivity].
  - intros (pt & t & id & tc & Hi & H). exists (IInline pt (Some t) id (Some tc)). split; [exact Hi|]. rewrite H. discriminate.
  - intros (f & Hf & H). destruct (resolve S (wf_cond f)) as [t|] eqn:E; [|contradiction].
    exists f, t. split; [exact Hf|]. split; [exact E|]. destruct (is_composite S t); [contradiction | reflexivity].
  - intros (f & t & Hf & E & H). exists f. split; [exact Hf|]. rewrite E, H. discriminate.
Qed.

(* 7 KnownTypeNames *)
Definition unknown_tc (i : item) : Prop :=
  match i with IInline _ _ _ (Some tc) => known S (snd tc) = false | _ => False end.
Definition Violates_known_type_names : Prop :=
  (exists o v, In o (w_ops W) /\ In v (wo_vars o) /\ known S (snd (type_named (wv_type v))) = false) \/
  (exists i, In i (flat_map (op_items S) (w_ops W)) /\ unknown_tc i) \/
  (exists f, In f (w_frags W) /\
     (known S (wf_cond f) = false \/ exists i, In i (frag_items S f) /\ unknown_tc i)).

Lemma unknown_named_iff : forall p, unknown_named S p <> [] <-> known S (snd p) = false.
Proof. intros p. unfold unknown_named. destruct (known S (snd p)); split; congruence. Qed.

Lemma inline_tc_iff : forall l,
  flat_map (fun i => match i with IInline _ _ _ (Some tc) => unknown_named S tc | _ => [] end) l <> []
  <-> exists i, In i l /\ unknown_tc i.
Proof.
  intro l. apply flat_map_some. intros [| |pt t id [tc|]| | |]; try exact no_report; apply unknown_named_iff.
Qed.

Lemma known_type_names_iff : rule_known_type_names S W <> [] <-> Violates_known_type_names.
Proof.
  repeat apply app_some.
  - apply flat_map_some2.
    intros _ v. apply unknown_named_iff.
  - apply inline_tc_iff.
  - apply flat_map_some. intro f. apply app_some; [apply (unknown_named_iff (wf_tcid f, wf_cond f)) | apply inline_tc_iff].
Qed.

End R.

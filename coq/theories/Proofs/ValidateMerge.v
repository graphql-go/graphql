(* L0 merge safety (one level): if a selection set passes the brute-force overlap layer L1,
   then whatever CollectFields (Exec.collect, the executor's reference semantics) groups
   under one response key for an object type has one field name and equal arguments. *)
From Coq Require Import List Bool.
From GQL Require Import Exec.Syntax Exec.Exec Validate.Overlap Validate.OverlapSpec
     Proofs.ValidateOverlap.
Import ListNotations.
Open Scope string_scope.
Open Scope list_scope.

Definition occ_of (e : fentry) : occ :=
  {| oc_id := fe_id e; oc_name := fe_name e; oc_args := fe_args e; oc_sub := fe_sub e |}.

Lemma add_occ_in : forall k o g k' os x,
  In (k', os) (add_occ k o g) -> In x os ->
  (k' = k /\ x = o) \/ (exists os', In (k', os') g /\ In x os').
Proof.
  intros k o g. induction g as [|[k0 os0] r IH]; intros k' os x H Hx; simpl in H.
  - destruct H as [H|[]]. inversion H; subst. destruct Hx as [Hx|[]]. left. auto.
  - destruct (String.eqb k k0) eqn:E.
    + apply String.eqb_eq in E. subst k0. destruct H as [H|H].
      * inversion H; subst. apply in_app_or in Hx. destruct Hx as [Hx|[Hx|[]]].
        -- right. exists os0. split; [left; reflexivity | exact Hx].
        -- left. auto.
      * right. exists os. split; [right; exact H | exact Hx].
    + destruct H as [H|H].
      * inversion H; subst. right. exists os. split; [left; reflexivity | exact Hx].
      * destruct (IH k' os x H Hx) as [L|[os' [H1 H2]]]; [left; exact L|].
        right. exists os'. split; [right; exact H1 | exact H2].
Qed.

Section Merge.
Variable S : schema.
Variable D : document.
Hypothesis frag_names_unique : NoDup (map fr_name (d_frags D)).

(* with unique names, "first definition" (executor) and "last definition" (validator) agree *)
Lemma last_fragment_first : forall n fs acc f,
  NoDup (map fr_name fs) -> find_fragment n fs = Some f -> last_fragment n fs acc = Some f.
Proof.
  intros n fs. induction fs as [|x r IH]; intros acc f ND H; simpl in *; [discriminate|].
  inversion ND as [|? ? Hx ND']; subst.
  destruct (String.eqb n (fr_name x)) eqn:E.
  - inversion H; subst. apply String.eqb_eq in E. subst n.
    apply last_fragment_skip. intros y Hy Ey. apply Hx. rewrite <- Ey. apply in_map, Hy.
  - apply IH; assumption.
Qed.

Lemma frag_of_find : forall n f, find_fragment n (d_frags D) = Some f -> frag D n = Some f.
Proof. intros n f H. unfold frag. apply last_fragment_first; assumption. Qed.

Notation EF := (EF S D).
Notation fields := (OverlapSpec.fields S).

(* an entry's parent type is a type condition that matches the object collected for *)
Definition pt_ok (obj : name) (p : ptype) : Prop :=
  exists P, p = Some P /\ fragment_matches S (Some P) obj = true.

Lemma fragment_matches_known : forall c obj,
  fragment_matches S (Some c) obj = true -> resolve S c = Some c.
Proof.
  intros c obj H. unfold fragment_matches in H. unfold resolve, known.
  destruct (lookup_type S c); [reflexivity | discriminate].
Qed.

Lemma EF_tail : forall pt x rest e, EF (pt, rest) e -> EF (pt, x :: rest) e.
Proof.
  intros pt x rest e H. remember (pt, rest) as s eqn:Es. destruct H as [s e Hin | s g b e Hin Eb He]; subst s.
  - apply EF_d. unfold OverlapSpec.fields in *. simpl in *. unfold dfields in *. simpl.
    apply in_or_app. right. exact Hin.
  - eapply EF_s; [|exact Eb|exact He]. unfold frs in *. simpl in *. unfold dspreads_raw in *. simpl.
    apply in_or_app. right. exact Hin.
Qed.

Lemma EF_inline : forall pt id tc ds sub rest e,
  EF (inline_pt S pt tc, sub) e -> EF (pt, SInline id tc ds sub :: rest) e.
Proof.
  intros pt id tc ds sub rest e H. remember (inline_pt S pt tc, sub) as s eqn:Es.
  destruct H as [s e Hin | s g b e Hin Eb He]; subst s.
  - apply EF_d. unfold OverlapSpec.fields in *. cbn [fst snd] in *. unfold dfields at 1.
    cbn [flat_map]. apply in_or_app. left. rewrite dfields_inline. exact Hin.
  - eapply EF_s; [|exact Eb|exact He]. unfold frs in *. cbn [fst snd] in *. unfold dspreads_raw at 1.
    cbn [flat_map]. apply in_or_app. left. rewrite dspreads_inline. exact Hin.
Qed.

Lemma EF_spread : forall pt id g ds rest f e,
  frag D g = Some f -> EF (resolve S (fr_cond f), fr_sel f) e -> EF (pt, SSpread id g ds :: rest) e.
Proof.
  intros pt id g ds rest f e Hf H.
  apply (EF_s S D (pt, SSpread id g ds :: rest) g (resolve S (fr_cond f), fr_sel f) e).
  - unfold frs. simpl. left. reflexivity.
  - unfold fbody. rewrite Hf. reflexivity.
  - exact H.
Qed.

Lemma EF_field_here : forall pt id al nm args ds sub rest,
  EF (pt, SField id al nm args ds sub :: rest) (mk_entry S pt id al nm args sub).
Proof.
  intros. apply EF_d. unfold OverlapSpec.fields, dfields. simpl. left. reflexivity.
Qed.

Definition ginv (Q : fentry -> Prop) (obj : name) (g : groups) : Prop :=
  forall k os o, In (k, os) g -> In o os ->
    exists e, Q e /\ fe_key e = k /\ occ_of e = o /\ pt_ok obj (fe_pt e).

Lemma collect_inv : forall (Q : fentry -> Prop) obj fuel vars pt sels visited g g' v',
  (forall e, EF (pt, sels) e -> Q e) ->
  pt_ok obj pt ->
  ginv Q obj g ->
  collect fuel S D vars obj sels visited g = Some (g', v') ->
  ginv Q obj g'.
Proof.
  intros Q obj fuel. induction fuel as [|f IH]; intros vars pt sels visited g g' v' Hsub Hpt Hg H;
    cbn [collect] in H; [discriminate|].
  destruct sels as [|x rest]; [inversion H; subst; exact Hg|].
  assert (Rest : forall vis g0, ginv Q obj g0 -> collect f S D vars obj rest vis g0 = Some (g', v') -> ginv Q obj g').
  { intros vis g0. apply (IH vars pt rest vis g0 g' v'); [|exact Hpt]. intros e He. apply Hsub, EF_tail, He. }
  destruct x as [id al nm args ds sub | id nm ds | id tc ds sub].
  - destruct (included S ds vars); [|apply (Rest _ _ Hg H)]. apply (Rest _ _) in H; [exact H|].
    intros k os o Hin Ho.
    destruct (add_occ_in _ _ _ _ _ _ Hin Ho) as [[Ek Eo]|[os' [H1 H2]]]; [|apply (Hg k os' o H1 H2)].
    exists (mk_entry S pt id al nm args sub). split; [apply Hsub; apply EF_field_here|].
    split; [simpl; symmetry; exact Ek|]. split; [subst o; reflexivity | exact Hpt].
  - destruct (included S ds vars && negb (nmem nm visited)); [|apply (Rest _ _ Hg H)].
    destruct (find_fragment nm (d_frags D)) as [fr|] eqn:Ef; [|apply (Rest _ _ Hg H)].
    destruct (fragment_matches S (Some (fr_cond fr)) obj) eqn:Em; [|apply (Rest _ _ Hg H)].
    destruct (collect f S D vars obj (fr_sel fr) (nm :: visited) g) as [[g1 v1]|] eqn:Ec; [|discriminate].
    apply (Rest v1 g1); [|exact H].
    apply (IH vars (resolve S (fr_cond fr)) (fr_sel fr) (nm :: visited) g g1 v1); [| |exact Hg|exact Ec].
    + intros e He. apply Hsub. eapply EF_spread; [apply frag_of_find; exact Ef | exact He].
    + exists (fr_cond fr). split; [apply (fragment_matches_known _ obj); exact Em | exact Em].
  - destruct (included S ds vars && fragment_matches S tc obj) eqn:Ei; [|apply (Rest _ _ Hg H)].
    apply andb_true_iff in Ei. destruct Ei as [_ Em].
    destruct (collect f S D vars obj sub visited g) as [[g1 v1]|] eqn:Ec; [|discriminate].
    apply (Rest v1 g1); [|exact H].
    apply (IH vars (inline_pt S pt tc) sub visited g g1 v1); [| |exact Hg|exact Ec].
    + intros e He. apply Hsub. apply EF_inline. exact He.
    + destruct tc as [c|]; simpl; [|exact Hpt].
      exists c. split; [apply (fragment_matches_known _ obj); exact Em | exact Em].
Qed.

(* two type conditions that both match one object type are not "mutually exclusive" *)
Lemma not_excl : forall obj a b, pt_ok obj (fe_pt a) -> pt_ok obj (fe_pt b) -> excl S a b = false.
Proof.
  intros obj a b [Pa [Ea Ma]] [Pb [Eb Mb]]. unfold excl. rewrite Ea, Eb. simpl.
  destruct (String.eqb Pa Pb) eqn:E; [reflexivity|]. simpl.
  unfold is_object. destruct (lookup_type S Pa) as [[| |fa ia| | |]|] eqn:La; try reflexivity.
  destruct (lookup_type S Pb) as [[| |fb ib| | |]|] eqn:Lb; try reflexivity. simpl.
  (* both are object types matching obj: both equal obj *)
  exfalso. unfold fragment_matches in Ma, Mb. rewrite La in Ma. rewrite Lb in Mb.
  unfold possible_type in Ma, Mb. rewrite La in Ma. rewrite Lb in Mb.
  rewrite orb_diag in Ma, Mb. apply String.eqb_eq in Ma, Mb. subst. rewrite String.eqb_refl in E. discriminate.
Qed.

(* "L1 for a union of sets": all entries satisfying Q with one response key are compatible *)
Definition LU (Q : fentry -> Prop) : Prop :=
  forall a b, Q a -> Q b -> fe_key a = fe_key b -> compat S D (base2 S) false a b.

Lemma group_agree : forall Q obj g, LU Q -> ginv Q obj g ->
  forall k os o1 o2, In (k, os) g -> In o1 os -> In o2 os ->
    oc_name o1 = oc_name o2 /\ same_args (oc_args o1) (oc_args o2) = true.
Proof.
  intros Q obj g HL Hg k os o1 o2 Hin H1 H2.
  destruct (Hg k os o1 Hin H1) as [a [Qa [Ka [Oa Pa]]]].
  destruct (Hg k os o2 Hin H2) as [b [Qb [Kb [Ob Pb]]]].
  assert (Hk : fe_key a = fe_key b) by congruence.
  pose proof (HL a b Qa Qb Hk) as C. inversion C as [fl a' b' Hbase _]; subst.
  unfold OverlapSpec.exf in Hbase. rewrite (not_excl obj a b Pa Pb) in Hbase. simpl in Hbase.
  unfold base2, base_ok in Hbase. simpl in Hbase. rewrite !andb_true_iff, String.eqb_eq in Hbase. tauto.
Qed.

Theorem merge_safe_level : forall (s : fset) obj fuel vars visited g v,
  L1 S D (base2 S) s ->
  pt_ok obj (fst s) ->
  collect fuel S D vars obj (snd s) visited [] = Some (g, v) ->
  forall k os o1 o2, In (k, os) g -> In o1 os -> In o2 os ->
    oc_name o1 = oc_name o2 /\ same_args (oc_args o1) (oc_args o2) = true.
Proof.
  intros [pt sels] obj fuel vars visited g v HL Hpt Hc. apply (group_agree (EF (pt, sels)) obj g HL).
  apply (collect_inv (EF (pt, sels)) obj fuel vars pt sels visited [] g v); auto. intros k' os' o [].
Qed.

Lemma collect_all_inv : forall (Q : fentry -> Prop) obj fuel vars (sets : list fset) visited g g',
  (forall s, In s sets -> forall e, EF s e -> Q e) ->
  (forall s, In s sets -> pt_ok obj (fst s)) ->
  ginv Q obj g ->
  collect_all fuel S D vars obj (map snd sets) visited g = Some g' ->
  ginv Q obj g'.
Proof.
  intros Q obj fuel vars sets. induction sets as [|[pt sels] r IH]; intros visited g g' HQ Hpt Hg H; simpl in H.
  - inversion H; subst. exact Hg.
  - destruct (collect fuel S D vars obj sels visited g) as [[g1 v1]|] eqn:Ec; [|discriminate].
    apply (IH v1 g1 g'); [| | |exact H].
    + intros s Hs. apply HQ. right. exact Hs.
    + intros s Hs. apply Hpt. right. exact Hs.
    + apply (collect_inv Q obj fuel vars pt sels visited g g1 v1); [| |exact Hg|exact Ec].
      * apply (HQ (pt, sels)). left. reflexivity.
      * apply (Hpt (pt, sels)). left. reflexivity.
Qed.

(* the entries that can be collected under response key k for the object type obj *)
Definition group_entries (Q : fentry -> Prop) (obj : name) (k : name) (e : fentry) : Prop :=
  Q e /\ fe_key e = k /\ pt_ok obj (fe_pt e).
(* the fields of their merged sub-selections *)
Definition sub_entries (Q : fentry -> Prop) (obj : name) (k : name) (e' : fentry) : Prop :=
  exists e, group_entries Q obj k e /\ has_sub e = true /\ EF (subset_of e) e'.

(* merge safety to depth n: what CollectFields groups under one key has one name and equal
   arguments, and so, recursively, for the merged sub-selections of each group collected for
   any object type obj' that the (static) types of the group's fields admit *)
Fixpoint MS (n : nat) (Q : fentry -> Prop) (obj : name) : Prop :=
  match n with
  | O => True
  | Datatypes.S n' =>
    forall fuel vars (sets : list fset) visited g,
      (forall s, In s sets -> forall e, EF s e -> Q e) ->
      (forall s, In s sets -> pt_ok obj (fst s)) ->
      collect_all fuel S D vars obj (map snd sets) visited [] = Some g ->
      forall k os, In (k, os) g ->
        (forall o1 o2, In o1 os -> In o2 os ->
           oc_name o1 = oc_name o2 /\ same_args (oc_args o1) (oc_args o2) = true) /\
        (forall obj', (forall e, group_entries Q obj k e -> has_sub e = true -> pt_ok obj' (sub_pt e)) ->
                      MS n' (sub_entries Q obj k) obj')
  end.

Lemma LU_sub : forall Q obj k, LU Q -> LU (sub_entries Q obj k).
Proof.
  intros Q obj k H a' b' [ea [[Qa [Ka Pa]] [Sa Ha]]] [eb [[Qb [Kb Pb]] [Sb Hb]]] Hk.
  assert (Hkk : fe_key ea = fe_key eb) by congruence.
  pose proof (H ea eb Qa Qb Hkk) as C. inversion C as [fl a b Hbase Hrec]; subst.
  unfold OverlapSpec.exf in Hrec. rewrite (not_excl obj ea eb Pa Pb) in Hrec. simpl in Hrec.
  apply Hrec; [split; assumption | exact Ha | exact Hb | exact Hk].
Qed.

Theorem merge_safe_rec : forall n Q obj, LU Q -> MS n Q obj.
Proof.
  induction n as [|n IH]; intros Q obj HL; simpl; [exact I|].
  intros fuel vars sets visited g HQ Hpt Hc k os Hin.
  assert (Hg : ginv Q obj g).
  { apply (collect_all_inv Q obj fuel vars sets visited [] g HQ Hpt); [|exact Hc]. intros k' os' o []. }
  split; [intros o1 o2; apply (group_agree Q obj g HL Hg k os o1 o2 Hin)|].
  intros obj' _. apply IH. apply LU_sub. exact HL.
Qed.

Corollary merge_safe_set : forall n (s : fset) obj, L1 S D (base2 S) s -> MS n (EF s) obj.
Proof. intros n s obj H. apply merge_safe_rec. exact H. Qed.

End Merge.

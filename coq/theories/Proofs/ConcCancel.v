(* Proofs about the cancellation LTS of ExecutePlan (Conc/CancelLts.v). *)
From Coq Require Import List Arith Bool Lia.
From GQL Require Import Conc.CancelLts Proofs.ConcLts.
Import ListNotations.

Section Proofs.
Variable n : nat.
Variable cap : nat.

Notation step := (step n cap).
Notation step_fn := (step_fn n cap).
Notation run := (run n cap).
Notation reach := (reach n cap).
Notation measure := (measure n).


(* The transitions as rules, one for each way `step_fn` answers `Some`. *)
Inductive rule : st -> label -> st -> Prop :=
| RCall b c d v g l e : rule (mk CIdle b c d v g l e) LCall (mk CInit b c d v g l e)
| RDone p b c d v g l e : rule (mk p b c d v g l e) LDone (mk p b c true v g l e)
| ROpenVars ok p b c d g l e : rule (mk p b c d None g l e) (LOpenVars ok) (mk p b c d (Some ok) g l e)
| ROpen o p b c d v g l e (L : length g < n) : rule (mk p b c d v g l e) (LOpen o) (mk p b c d v (g ++ [o]) l e)
| RSpawn c d v g l e : rule (mk CInit BNone c d v g l e) LSpawn (mk CSelect BVars c d v g l e)
| RRetCtx b c v g l e : rule (mk CSelect b c true v g l e) LRetCtx (mk (CReturned RetCtx) b c true v g l e)
| RRetRes b r c d v g l e :
    rule (mk CSelect b (r :: c) d v g l e) LRetRes (mk (CReturned (RetResp r)) b c d v g l e)
| RVarsOk p c d g l e : rule (mk p BVars c d (Some true) g l e) LVars (mk p (BRun 0) c d (Some true) g l e)
| RVarsErr p c d g l e :
    rule (mk p BVars c d (Some false) g l e) LVars (mk p (BFinish RespVarErr) c d (Some false) g l e)
| RResolve p k c d v g l e o (K : k < n) (G : nth_error g k = Some o) :
    rule (mk p (BRun k) c d v g l e) LResolve (mk p (BRun (S k)) c d v g (l ++ [o]) (if o then e else e ++ [k]))
| RAssemble p c d v g l e :
    rule (mk p (BRun n) c d v g l e) LAssemble (mk p (BFinish (RespFull l e)) c d v g l e)
| RSend p r c d v g l e (L : length c < cap) :
    rule (mk p (BFinish r) c d v g l e) LSend (mk p BExit (c ++ [r]) d v g l e).

Lemma step_rule : forall s l s', step s l s' -> rule s l s'.
Proof.
  intros [p b c d v g lg e] l s' H. unfold CancelLts.step, CancelLts.step_fn in H. cbn [cp bp ch done vgate gates log errs] in H.
  destruct l;
    repeat match type of H with
           | context [match ?x with _ => _ end] => (is_var x; destruct x) || destruct x eqn:?; try discriminate H
           end;
    injection H as <-;
    repeat match goal with
           | E : (_ <? _) = true |- _ => apply Nat.ltb_lt in E
           | E : (_ =? _) = true |- _ => apply Nat.eqb_eq in E; subst
           end; constructor; assumption.
Qed.

Lemma run_ok : is_run step_fn run.
Proof.
  intros s ls s'. split.
  - destruct 1; eauto.
  - destruct ls; [intros ->; apply run_nil|intros (s1 & H1 & H2); eapply run_cons; eauto].
Qed.

Lemma reach_ind : forall (P : st -> Prop),
  P init -> (forall s l s', P s -> step s l s' -> P s') -> forall s, reach s -> P s.
Proof. intros P H0 HS s (ls & H). exact (run_invariant _ _ run_ok P HS ls init s H H0). Qed.

Lemma reach_run : forall s ls s', reach s -> run s ls s' -> reach s'.
Proof. intros s ls s' (l0 & R) R2. exists (l0 ++ ls). eapply (run_app _ _ run_ok); eauto. Qed.

Lemma exec_trace_run : forall ls s s', exec_trace n cap s ls = Some s' <-> run s ls s'.
Proof. exact (exec_run _ _ run_ok). Qed.

Lemma accepts_iff_run : forall ls, accepts n cap ls = true <-> exists s, run init ls s.
Proof. exact (accepts_run _ _ run_ok init). Qed.

Lemma lib_decreases : forall s l s', lib l = true -> step s l s' -> measure s' < measure s.
Proof.
  intros s l s' L H. destruct (step_rule _ _ _ H); try discriminate L; unfold CancelLts.measure; cbn; lia.
Qed.

Lemma lib_run_bounded : forall s ls s', run s ls s' -> Forall (fun l => lib l = true) ls ->
  length ls + measure s' <= measure s.
Proof. intros s ls s'. exact (run_bounded _ _ run_ok _ _ lib_decreases ls s s'). Qed.

Definition good_resp' (g : list bool) (v : option bool) (r : resp) : Prop :=
  match r with
  | RespFull outs e => length outs = n /\ (exists rest, g = outs ++ rest) /\ v = Some true /\ e = errors_of outs
  | RespVarErr => v = Some false
  end.
Notation good_resp s := (good_resp' (gates s) (vgate s)).
Definition returned' (c : cpc) : bool := match c with CReturned _ => true | _ => false end.
Definition spawned (b : bpc) : bool := match b with BNone => false | _ => true end.

Definition inv (s : st) : Prop :=
  length (gates s) <= n /\
  ((exists rest, gates s = log s ++ rest) /\ errs s = errors_of (log s)) /\
  match bp s with
  | BNone => ch s = [] /\ (cp s = CIdle \/ cp s = CInit) /\ log s = []
  | BVars => ch s = [] /\ log s = []
  | BRun k => ch s = [] /\ length (log s) = k /\ k <= n /\ vgate s = Some true
  | BFinish r => ch s = [] /\ good_resp s r /\ match r with RespFull outs _ => outs = log s | RespVarErr => True end
  | BExit => (returned' (cp s) = false -> exists r, ch s = [r]) /\ (returned' (cp s) = true -> length (ch s) <= 1)
  end /\
  Forall (good_resp s) (ch s) /\
  match cp s with
  | CReturned (RetResp r) => good_resp s r
  | CReturned RetCtx => done s = true
  | CIdle | CInit => spawned (bp s) = false
  | CSelect => spawned (bp s) = true
  end.

Lemma good_resp_gates : forall g v g' v' r, v' = v \/ v = None ->
  (exists t, g' = g ++ t) -> good_resp' g v r -> good_resp' g' v' r.
Proof.
  intros g v g' v' [outs e|] Hv (t & Hg) H; cbn in *.
  - destruct H as (L & (rest & E) & V & Ee). split; [exact L|]. split; [exists (rest ++ t); rewrite Hg, E, app_assoc; reflexivity|].
    split; [destruct Hv as [Hv|Hv]; congruence|exact Ee].
  - destruct Hv as [Hv|Hv]; congruence.
Qed.

Lemma inv_init : inv init.
Proof. unfold inv; cbn. repeat split; try lia; auto. exists []. reflexivity. Qed.

Lemma errors_from_snoc : forall l k o, errors_from k (l ++ [o]) = errors_from k l ++ (if o then [] else [k + length l]).
Proof.
  induction l as [|a l IH]; intros k o; cbn.
  - destruct o; cbn; [reflexivity|rewrite Nat.add_0_r; reflexivity].
  - destruct a; rewrite IH; cbn; rewrite Nat.add_succ_r; reflexivity.
Qed.

(* the environment only opens gates: nothing the invariant says is lost *)
Lemma inv_open : forall p b c d v g l e v' g', v' = v \/ v = None -> (exists t, g' = g ++ t) -> length g' <= n ->
  inv (mk p b c d v g l e) -> inv (mk p b c d v' g' l e).
Proof.
  intros p b c d v g l e v' g' Hv Hg Hn (Ig & ((rest & Il) & Ie) & Ib & Ic & Ip). unfold inv in *; cbn in *.
  pose proof (fun r => good_resp_gates g v g' v' r Hv Hg) as G. destruct Hg as (t & ->).
  split; [exact Hn|]. split; [split; [exists (rest ++ t); rewrite Il, app_assoc; reflexivity|exact Ie]|].
  split; [|split; [eapply Forall_impl; [exact G|exact Ic]|destruct p as [| | |[|]]; auto]].
  destruct b as [| |k|r|]; try exact Ib.
  - destruct Ib as (I1 & I2 & I3 & I4). repeat split; auto. destruct Hv as [->| ->]; [exact I4|discriminate I4].
  - destruct Ib as (I1 & I2 & I3). split; [exact I1|split; [apply G, I2|exact I3]].
Qed.

Lemma inv_step : forall s l s', inv s -> step s l s' -> inv s'.
Proof.
  intros s l s' I H. pose proof I as (Ig & ((rest & Il) & Ie) & Ib & Ic & Ip).
  destruct (step_rule _ _ _ H);
    [ | |apply (inv_open _ _ _ _ None g); auto; exists []; symmetry; apply app_nil_r
        |apply (inv_open _ _ _ _ v g); auto; [exists [o]; reflexivity|rewrite app_length; cbn in *; lia]
        | | | | | | | | ];
    clear I; unfold inv; cbn in *;
    (split; [assumption|split; [try (split; [exists rest|]; assumption)|]]).
  - destruct b; try discriminate Ip. destruct Ib as (I1 & _ & I3). repeat split; auto.
  - split; [exact Ib|]. split; [exact Ic|]. destruct p as [| | |[|]]; auto.
  - destruct Ib as (I1 & _ & I3). repeat split; auto.
  - split; [|split; [exact Ic|reflexivity]].
    destruct b; auto; try discriminate Ip. split; [discriminate|]. intros _. destruct Ib as ((r & ->) & _); [reflexivity|]. cbn. lia.
  - inversion Ic as [|? ? G1 G2]; subst. split; [|split; assumption].
    destruct b; try (destruct Ib as (I1 & _); discriminate I1). split; [discriminate|].
    intros _. destruct Ib as ((r1 & E) & _); [reflexivity|]. injection E as _ ->. cbn. lia.
  - destruct Ib as (-> & ->). repeat split; auto. lia.
  - repeat split; auto; apply Ib.
  - destruct Ib as (_ & <- & _). subst g. rewrite nth_error_app2, Nat.sub_diag in G by lia.
    destruct rest as [|x rest']; [discriminate G|]. injection G as ->.
    split; [exists rest'; rewrite <- app_assoc; reflexivity|].
    rewrite errors_from_snoc, <- Ie. destruct o; [rewrite app_nil_r|]; reflexivity.
  - destruct Ib as (-> & <- & _ & ->). rewrite app_length. cbn. repeat split; auto; lia.
  - destruct Ib as (I1 & I2 & _ & I4). repeat split; eauto.
  - destruct Ib as (-> & Gr & _). cbn. repeat split; eauto.
Qed.

Lemma inv_reach : forall s, reach s -> inv s.
Proof. apply reach_ind; [apply inv_init|]. intros; eapply inv_step; eauto. Qed.

Lemma prefix_full : forall (outs g rest : list bool), g = outs ++ rest -> length g <= length outs -> outs = g.
Proof.
  intros outs g rest E L. subst g. rewrite app_length in L. destruct rest; [rewrite app_nil_r; reflexivity|cbn in L; lia].
Qed.

Theorem two_outcomes : forall s r, reach s -> cp s = CReturned r ->
  match r with
  | RetCtx => done s = true
  | RetResp (RespFull outs e) => length outs = n /\ outs = gates s /\ vgate s = Some true /\ e = errors_of outs
  | RetResp RespVarErr => vgate s = Some false
  end.
Proof.
  intros s r R E. destruct (inv_reach s R) as (Ig & _ & _ & _ & Ip). rewrite E in Ip.
  destruct r as [[outs e|]|]; cbn in Ip; auto.
  destruct Ip as (L & (rest & Eg) & V & Ee). split; [exact L|]. split; [eapply prefix_full; [exact Eg|lia]|split; [exact V|exact Ee]].
Qed.


Theorem prompt_return : forall s, reach s -> done s = true -> returned s = false -> cp s <> CIdle ->
  exists ls s', run s ls s' /\ Forall (fun l => caller l = true) ls /\ length ls <= 2 /\ returned s' = true.
Proof.
  intros [p b c d v g l e] R D NR NI. destruct (inv_reach _ R) as (_ & _ & _ & _ & Ip). cbn in *. subst d.
  destruct p as [| | |r]; try discriminate NR; [contradiction| |].
  - (* CInit: spawn, then the ctx arm *)
    destruct b; try discriminate Ip. eexists [LSpawn; LRetCtx], _. split.
    + eapply run_cons; [reflexivity|]. eapply run_cons; [reflexivity|apply run_nil].
    + split; [repeat constructor|]. split; [cbn; lia|reflexivity].
  - eexists [LRetCtx], _. split.
    + eapply run_cons; [reflexivity|apply run_nil].
    + split; [repeat constructor|]. split; [cbn; lia|reflexivity].
Qed.

Theorem send_never_blocks : 1 <= cap -> forall s r, reach s -> bp s = BFinish r -> exists s', step s LSend s'.
Proof.
  intros C s r R E. destruct (inv_reach s R) as (_ & _ & Ib & _). rewrite E in Ib. destruct Ib as (I1 & _).
  unfold CancelLts.step, CancelLts.step_fn. rewrite E, I1. destruct cap; [lia|]. eexists. reflexivity.
Qed.

Definition released (s : st) : Prop := vgate s <> None /\ (vgate s = Some true -> length (gates s) = n).

Theorem call_returns : 1 <= cap -> forall s, reach s -> cp s <> CIdle -> done s = true \/ released s ->
  exists ls s', run s ls s' /\ Forall (fun l => lib l = true) ls /\ returned s' = true.
Proof.
  intros C s R NI H.
  apply (terminates _ _ run_ok _ _ lib_decreases (fun s => inv s /\ cp s <> CIdle /\ (done s = true \/ released s))).
  - intros s1 l s2 (I & N1 & H1) Hl Hs. split; [eapply inv_step; eauto|].
    unfold released in *. destruct (step_rule _ _ _ Hs); try discriminate Hl; cbn in *; (split; [try discriminate; try assumption|]); auto.
  - intros [p b c d v g l e] ((Ig & ((rest & Il) & Ie) & Ib & Ic & Ip) & N1 & H1). unfold released, returned, CancelLts.step in *. cbn in *.
    destruct p as [| | |r]; [contradiction| | |left; reflexivity]; right.
    + exists LSpawn. destruct b; try discriminate Ip. eexists. split; reflexivity.
    + destruct H1 as [->|(V & Gs)]; [exists LRetCtx; eexists; split; reflexivity|].
      destruct b as [| |k|r|].
      * discriminate Ip.
      * exists LVars. destruct v as [[|]|]; [| |contradiction]; eexists; split; reflexivity.
      * destruct Ib as (I1 & I2 & I3 & I4). destruct (Nat.eq_dec k n) as [->|Nk].
        -- exists LAssemble. cbn. rewrite Nat.eqb_refl. eexists. split; reflexivity.
        -- exists LResolve. unfold CancelLts.step_fn. cbn [bp gates]. assert (Lk : k < n) by lia. rewrite (proj2 (Nat.ltb_lt _ _) Lk).
           destruct (nth_error g k) as [o|] eqn:En; [eexists; split; reflexivity|].
           apply nth_error_None in En. rewrite (Gs I4) in En. lia.
      * exists LSend. destruct Ib as (-> & _). cbn. destruct cap; [lia|]. eexists. split; reflexivity.
      * exists LRetRes. destruct Ib as ((r & ->) & _); [reflexivity|]. eexists. split; reflexivity.
  - split; [apply inv_reach; exact R|split; assumption].
Qed.

Theorem unbuffered_leaks : cap = 0 ->
  exists s, reach s /\ cp s = CReturned RetCtx /\ bp s = BFinish RespVarErr /\
            forall l s', lib l = true -> ~ step s l s'.
Proof.
  intros C. exists (mk (CReturned RetCtx) (BFinish RespVarErr) [] true (Some false) [] [] []).
  split; [exists [LCall; LSpawn; LOpenVars false; LVars; LDone; LRetCtx]; apply exec_trace_run; reflexivity|].
  split; [reflexivity|]. split; [reflexivity|].
  intros l s' L H. unfold CancelLts.step in H. destruct l; try discriminate L; cbn in H; try discriminate H.
  rewrite C in H. discriminate H.
Qed.

Notation orun := (orun n cap).
Notation obs_run := (obs_run n cap).

Lemma list_eqb_eq : forall A (eqb : A -> A -> bool), (forall a b, eqb a b = true -> a = b) ->
  forall x y, list_eqb eqb x y = true -> x = y.
Proof.
  intros A eqb E. induction x as [|a x IH]; destruct y as [|b y]; cbn; intros H; try discriminate H; [reflexivity|].
  apply andb_true_iff in H. destruct H as (H1 & H2). f_equal; [apply E; exact H1|apply IH; exact H2].
Qed.
Lemma list_eqb_refl : forall A (eqb : A -> A -> bool), (forall a, eqb a a = true) -> forall x, list_eqb eqb x x = true.
Proof. intros A eqb E. induction x as [|a x IH]; cbn; [reflexivity|]. rewrite E, IH. reflexivity. Qed.

Lemma resp_eqb_eq : forall a b, resp_eqb a b = true -> a = b.
Proof.
  intros [x e|] [y f|] H; cbn in H; try discriminate H; try reflexivity.
  apply andb_true_iff in H. destruct H as (H1 & H2).
  apply (list_eqb_eq _ _ eqb_prop) in H1. apply (list_eqb_eq _ Nat.eqb (fun a b => proj1 (Nat.eqb_eq a b))) in H2. subst. reflexivity.
Qed.
Lemma resp_eqb_refl : forall a, resp_eqb a a = true.
Proof. intros [x e|]; cbn; [|reflexivity]. rewrite (list_eqb_refl _ _ eqb_reflx), (list_eqb_refl _ _ Nat.eqb_refl). reflexivity. Qed.

Lemma ret_eqb_eq : forall a b, ret_eqb a b = true -> a = b.
Proof. intros [x|] [y|] H; cbn in H; try discriminate H; try reflexivity. f_equal. apply resp_eqb_eq. exact H. Qed.
Lemma ret_eqb_refl : forall a, ret_eqb a a = true.
Proof. intros [x|]; cbn; [apply resp_eqb_refl|reflexivity]. Qed.

Lemma labels_lib : forall l, In l lib_labels <-> lib l = true.
Proof.
  intros l. split; [|destruct l; try discriminate; cbn; tauto].
  cbn. intros H. repeat (destruct H as [<-|H]; [reflexivity|]). contradiction.
Qed.

Definition vis (s : st) (o : obs) (s1 : st) : Prop :=
  (exists l, env_obs l = Some o /\ step s l s1) \/ (holds o s /\ s1 = s).

Lemma orun_ok : is_orun step_fn lib obs vis orun.
Proof.
  split.
  - apply or_nil.
  - intros. eapply or_lib; eauto.
  - intros s o s1 os s2 [(l & E & H)|(Ho & ->)] Or; [eapply or_env; eauto|apply or_state; assumption].
  - intros P Pn Pl Pv s os s' Or. induction Or as [s|s l s1 os s2 Hl H Or IH|s l s1 o os s2 E H Or IH|s o os s2 Ho Or IH].
    + apply Pn.
    + exact (Pl _ _ _ _ _ Hl H IH).
    + apply (Pv s o s1); [left; exists l; split; assumption|exact IH].
    + apply (Pv s o s); [right; split; [exact Ho|reflexivity]|exact IH].
Qed.

Lemma vis_run : forall s o s1, vis s o s1 -> exists ls, run s ls s1.
Proof.
  intros s o s1 [(l & _ & H)|(_ & ->)]; [exists [l]; eapply run_cons; [exact H|apply run_nil]|exists []; apply run_nil].
Qed.

Lemma obs_step_sound : forall s o s1, In s1 (obs_step n cap s o) -> vis s o s1.
Proof.
  intros s o s1 H. destruct o; cbn [obs_step] in H; try (apply in_opt_list in H; left; eexists; split; [|exact H]; reflexivity); right.
  - destruct (cp s) as [| | |r'] eqn:E; try contradiction. destruct (ret_eqb r r') eqn:Er; [|contradiction].
    destruct H as [<-|[]]. apply ret_eqb_eq in Er. subst r'. split; [exact E|reflexivity].
  - destruct (returned s) eqn:E; [contradiction|]. destruct H as [<-|[]]. split; [exact E|reflexivity].
  - destruct (bg_gone s) eqn:E; [|contradiction]. destruct H as [<-|[]]. split; [exact E|reflexivity].
Qed.

Lemma obs_step_complete : forall s o s1, vis s o s1 -> In s1 (obs_step n cap s o).
Proof.
  intros s o s1 [(l & E & H)|(Ho & ->)].
  - destruct l; try discriminate E; injection E as <-; apply in_opt_list; exact H.
  - destruct o; try contradiction; cbn in Ho |- *; rewrite Ho, ?ret_eqb_refl; left; reflexivity.
Qed.

Theorem accepts_obs_sound : forall os, accepts_obs n cap os = true -> exists s, orun init os s /\ reach s.
Proof.
  intros os H. destruct (acceptor_sound _ _ run_ok _ _ labels_lib _ _ _ _ obs_step_sound _ _ orun_ok init os H) as (s & Or).
  exists s. split; [exact Or|]. exact (orun_is_run _ _ run_ok _ _ _ vis_run _ orun_ok _ _ _ Or).
Qed.

Lemma cpc_eqb_eq : forall a b, cpc_eqb a b = true -> a = b.
Proof. intros [| | |x] [| | |y] H; cbn in H; try discriminate H; try reflexivity. f_equal. apply ret_eqb_eq. exact H. Qed.
Lemma bpc_eqb_eq : forall a b, bpc_eqb a b = true -> a = b.
Proof.
  intros [| |x|x|] [| |y|y|] H; cbn in H; try discriminate H; try reflexivity.
  - apply Nat.eqb_eq in H. subst. reflexivity.
  - f_equal. apply resp_eqb_eq. exact H.
Qed.
Lemma ob_eqb_eq : forall a b, ob_eqb a b = true -> a = b.
Proof. intros [x|] [y|] H; cbn in H; try discriminate H; try reflexivity. apply eqb_prop in H. subst. reflexivity. Qed.

Lemma st_eqb_eq : forall a b, st_eqb a b = true -> a = b.
Proof.
  intros [a1 a2 a3 a4 a5 a6 a7 a8] [b1 b2 b3 b4 b5 b6 b7 b8] H. unfold st_eqb in H. cbn [cp bp ch done vgate gates log errs] in H.
  repeat (apply andb_true_iff in H; let H' := fresh "E" in destruct H as (H & H')).
  apply cpc_eqb_eq in H. apply bpc_eqb_eq in E5. apply (list_eqb_eq _ _ resp_eqb_eq) in E4. apply eqb_prop in E3.
  apply ob_eqb_eq in E2. apply (list_eqb_eq _ _ eqb_prop) in E1. apply (list_eqb_eq _ _ eqb_prop) in E0.
  apply (list_eqb_eq _ Nat.eqb (fun a b => proj1 (Nat.eqb_eq a b))) in E. subst. reflexivity.
Qed.

Lemma measure_bound : forall s, measure s <= 2 * n + 9.
Proof.
  intros s. unfold CancelLts.measure.
  assert (match cp s with CIdle => 3 | CInit => 2 | CSelect => 1 | CReturned _ => 0 end <= 3) by (destruct (cp s); lia).
  destruct (bp s); lia.
Qed.

Theorem accepts_obs_complete : forall os s, orun init os s -> accepts_obs n cap os = true.
Proof.
  intros os s. apply (acceptor_complete _ _ run_ok _ _ lib_decreases _ labels_lib _ st_eqb_eq _ _ _ obs_step_complete (fun _ => 2 * n + 12)); [|exact orun_ok].
  intros ss s0 _. pose proof (measure_bound s0). lia.
Qed.

End Proofs.

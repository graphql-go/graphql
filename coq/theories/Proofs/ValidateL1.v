(* Reflection of the executable brute-force oracle: whenever [L1o] returns a verdict (it
   returns None when it runs out of fuel), the verdict is the truth value of the Spec
   [L1_accepts] -- for every schema and document, cyclic or not. *)
From Coq Require Import List Bool.
From GQL Require Import Exec.Syntax Validate.Overlap Validate.OverlapSpec Proofs.ValidateRules
     Proofs.ValidateRun Proofs.ValidateCost.
Import ListNotations.
Open Scope string_scope.
Open Scope list_scope.

(* a three-valued verdict that, when there is one, is the truth value of P *)
Definition reflects (o : option bool) (P : Prop) : Prop :=
  (o = Some true -> P) /\ (o = Some false -> ~ P).

Lemma reflects_iff : forall o (P Q : Prop), (P <-> Q) -> reflects o P -> reflects o Q.
Proof. intros o P Q E [T F]. split; intro H; [apply E, T, H | intro K; apply (F H), E, K]. Qed.

Lemma all_o_cons : forall {A} (f : A -> option bool) y r,
  (all_o f (y :: r) = Some true <-> f y = Some true /\ all_o f r = Some true) /\
  (all_o f (y :: r) = Some false <-> f y = Some false \/ all_o f r = Some false).
Proof. intros A f y r. simpl. destruct (f y) as [[|]|], (all_o f r) as [[|]|]; intuition discriminate. Qed.

Lemma all_o_reflects : forall {A} (f : A -> option bool) (P : A -> Prop) l,
  (forall x, In x l -> reflects (f x) (P x)) -> reflects (all_o f l) (forall x, In x l -> P x).
Proof.
  intros A f P l. induction l as [|y r IH]; intro H; [split; [intros _ x [] | discriminate]|].
  destruct (H y (or_introl eq_refl)) as [Ty Fy]. destruct (IH (fun x Hx => H x (or_intror Hx))) as [Tr Fr].
  destruct (all_o_cons f y r) as [CT CF]. split; intro E.
  - apply CT in E. destruct E as [Ey Er]. intros x [Hx|Hx]; [subst x; apply Ty, Ey | apply (Tr Er x Hx)].
  - apply CF in E. intro K.
    destruct E as [Ey|Er]; [apply (Fy Ey), K; left; reflexivity | apply (Fr Er); intros x Hx; apply K; right; exact Hx].
Qed.

(* the test "same response key, then compare" inside the two nested sweeps *)
Lemma all_o_pairs_reflects : forall (g : fentry -> fentry -> option bool) (P : fentry -> fentry -> Prop) la lb,
  (forall a b, reflects (g a b) (P a b)) ->
  reflects (all_o (fun a => all_o (fun b => if String.eqb (fe_key a) (fe_key b) then g a b else Some true) lb) la)
           (forall a b, In a la -> In b lb -> fe_key a = fe_key b -> P a b).
Proof.
  intros g P la lb H.
  apply (reflects_iff _ (forall a, In a la -> forall b, In b lb -> fe_key a = fe_key b -> P a b)); [split; auto|].
  apply all_o_reflects. intros a _. apply all_o_reflects. intros b _.
  destruct (String.eqb (fe_key a) (fe_key b)) eqn:E.
  - apply String.eqb_eq in E. apply (reflects_iff _ (P a b)); [tauto | apply H].
  - apply String.eqb_neq in E. split; [tauto | discriminate].
Qed.

Section L1R.
Variable S : schema.
Variable D : document.
Notation EF := (EF S D).
Notation fbody := (fbody S D).
Notation compat := (compat S D (base2 S)).
Notation Fs := (fun s : fset => dfields S (fst s) (snd s)).
Definition bodyf (fr : fragment) : fset := (resolve S (fr_cond fr), fr_sel fr).

Lemma fbody_some : forall g b, fbody g = Some b <-> exists fr, frag D g = Some fr /\ b = bodyf fr.
Proof.
  intros g b. unfold OverlapSpec.fbody. destruct (frag D g) as [fr|]; simpl; split.
  - intro H. inversion H. exists fr. auto.
  - intros [fr' [H1 H2]]. inversion H1; subst. reflexivity.
  - discriminate.
  - intros [fr' [H1 _]]. discriminate.
Qed.

(* names reachable from [init] through the spreads of fragment bodies *)
Inductive RG (init : list name) : name -> Prop :=
| RG0 : forall g, In g init -> RG init g
| RGS : forall h g fr, RG init h -> frag D h = Some fr -> In g (dspreads (fr_sel fr)) -> RG init g.

Lemma reach_o_spec : forall init n seen gs,
  reach_o D n seen = Some gs ->
  (forall x, In x seen -> RG init x) -> incl init seen ->
  (forall x, In x gs -> RG init x) /\ incl init gs /\
  (forall h fr g, In h gs -> frag D h = Some fr -> In g (dspreads (fr_sel fr)) -> In g gs).
Proof.
  intros init n. induction n as [|n IH]; intros seen gs H Hs Hi; simpl in H; [discriminate|].
  destruct (forallb (fun x => nmem x seen) (flat_map (frag_spreads D) seen)) eqn:E.
  - inversion H; subst gs. split; [exact Hs|]. split; [exact Hi|].
    intros h fr g Hh Hf Hg. rewrite forallb_forall in E. apply nmem_in. apply E.
    apply in_flat_map. exists h. split; [exact Hh|]. unfold frag_spreads. rewrite Hf. exact Hg.
  - apply (IH _ gs H).
    + intros x Hx. apply dedup_incl in Hx. apply in_app_or in Hx. destruct Hx as [Hx|Hx]; [apply Hs; exact Hx|].
      apply in_flat_map in Hx. destruct Hx as [h [Hh Hx]]. unfold frag_spreads in Hx.
      destruct (frag D h) as [fr|] eqn:Ef; [|destruct Hx]. apply (RGS init h x fr (Hs h Hh) Ef Hx).
    + intros x Hx. destruct (dedup_complete (seen ++ flat_map (frag_spreads D) seen) [] x) as [[]|K]; [|exact K].
      apply in_or_app. left. apply Hi. exact Hx.
Qed.

Lemma EF_RG : forall s e,
  EF s e <-> (In e (Fs s) \/ exists g fr, RG (dspreads (snd s)) g /\ frag D g = Some fr /\ In e (Fs (bodyf fr))).
Proof.
  intros s e. split.
  - intro H. induction H as [s e Hin | s g b e Hin Eb He IH]; [left; exact Hin|]. right.
    apply fbody_some in Eb. destruct Eb as [fr [Ef Ebb]]. subst b.
    assert (Rg : RG (dspreads (snd s)) g) by (apply RG0; apply dspreads_iff; exact Hin).
    destruct IH as [Hd|[g' [fr' [R' [Ef' Hin']]]]].
    + exists g, fr. auto.
    + exists g', fr'. split; [|auto].
      clear -R' Rg Ef. simpl in R'. induction R' as [g' Hg'|h g' fr0 Rh IHh Ef0 Hg'].
      * apply (RGS _ g g' fr Rg Ef Hg').
      * apply (RGS _ h g' fr0 IHh Ef0 Hg').
  - intros [Hd|[g [fr [R [Ef Hin]]]]]; [apply EF_d; exact Hd|].
    assert (G : forall g, RG (dspreads (snd s)) g -> forall fr e, frag D g = Some fr -> EF (bodyf fr) e -> EF s e).
    { clear. intros g R. induction R as [g Hg|h g fr0 Rh IHh Ef0 Hg]; intros fr e Ef He.
      - apply (EF_s S D s g (bodyf fr) e); [apply dspreads_iff; exact Hg | apply fbody_some; eauto | exact He].
      - apply (IHh fr0 e Ef0).
        apply (EF_s S D (bodyf fr0) g (bodyf fr) e); [apply dspreads_iff; exact Hg | apply fbody_some; eauto | exact He]. }
    apply (G g R fr e Ef). apply EF_d. exact Hin.
Qed.

Lemma expanded_o_spec : forall s l, expanded_o S D s = Some l -> forall e, In e l <-> EF s e.
Proof.
  intros s l H e. unfold expanded_o in H.
  destruct (reach_o D (Datatypes.S (Datatypes.S (List.length (d_frags D)))) (dspreads (snd s))) as [gs|] eqn:Er; [|discriminate].
  inversion H; subst l. clear H.
  destruct (reach_o_spec (dspreads (snd s)) _ _ gs Er (fun x Hx => RG0 _ x Hx) (incl_refl _)) as (Hs & Hi & Hc).
  rewrite EF_RG. rewrite in_app_iff. split.
  - intros [Hd|Hf]; [left; exact Hd|]. right. apply in_flat_map in Hf. destruct Hf as [g [Hg Hf]].
    unfold frag_fields in Hf. destruct (frag D g) as [fr|] eqn:Ef; [|destruct Hf].
    exists g, fr. split; [apply Hs; exact Hg|]. split; [exact Ef | exact Hf].
  - intros [Hd|[g [fr [R [Ef Hin]]]]]; [left; exact Hd|]. right. apply in_flat_map. exists g. split.
    + assert (Hgs : forall g0, RG (dspreads (snd s)) g0 -> In g0 gs).
      { intros g0 R0. induction R0 as [g0 Hg|h g0 fr0 Rh IHh Ef0 Hg]; [apply Hi; exact Hg|].
        apply (Hc h fr0 g0 IHh Ef0 Hg). }
      apply Hgs. exact R.
    + unfold frag_fields. rewrite Ef. exact Hin.
Qed.

Lemma compat_o_reflect : forall f fl a b, reflects (compat_o S D f fl a b) (compat fl a b).
Proof.
  induction f as [|f IH]; intros fl a b; [split; intro H; discriminate|]. simpl.
  destruct (negb (base2_ok S (fl || excl S a b) a b)) eqn:Eb.
  - split; [intro H; discriminate|]. intros _ C. inversion C as [fl' a' b' Hb _]; subst.
    unfold OverlapSpec.exf, base2 in Hb. unfold base2_ok in Eb. rewrite Hb in Eb. discriminate.
  - apply negb_false_iff in Eb.
    destruct (has_sub a && has_sub b) eqn:Eh.
    + apply andb_true_iff in Eh.
      destruct (expanded_o S D (sub_pt a, fe_sub a)) as [la|] eqn:Ea; [|split; intro H; discriminate].
      destruct (expanded_o S D (sub_pt b, fe_sub b)) as [lb|] eqn:Ebb; [|split; intro H; discriminate].
      pose proof (expanded_o_spec _ _ Ea) as Sa. pose proof (expanded_o_spec _ _ Ebb) as Sb.
      eapply reflects_iff; [|apply (all_o_pairs_reflects _ _ la lb (IH (fl || excl S a b)))]. split.
      * intro H. constructor; [exact Eb|]. intros _ a' b' Ha Hb. apply H; [apply Sa, Ha | apply Sb, Hb].
      * intros C a' b' Ha Hb. inversion C as [fl' a0 b0 _ Hrec]; subst. apply (Hrec Eh); [apply Sa, Ha | apply Sb, Hb].
    + split; [|intro H; discriminate]. intros _. constructor; [exact Eb|].
      intros [H1 H2]. rewrite H1, H2 in Eh. discriminate.
Qed.

Lemma L1_set_o_reflect : forall fuel s, reflects (L1_set_o S D fuel s) (L1 S D (base2 S) s).
Proof.
  intros fuel s. unfold L1_set_o. destruct (expanded_o S D s) as [l|] eqn:E; [|split; intro H; discriminate].
  pose proof (expanded_o_spec _ _ E) as Sl.
  eapply reflects_iff; [|apply (all_o_pairs_reflects _ _ l l (compat_o_reflect fuel false))].
  split; intros H a b Ha Hb; apply H; apply Sl; assumption.
Qed.

Lemma doc_sets_iff : forall s, doc_sets S D s <-> In s (all_sets S D ++ frag_bodies S D).
Proof.
  intro s. unfold doc_sets. rewrite in_app_iff. split; intros [H|H]; try (left; exact H); right.
  - destruct H as [g Hg]. apply fbody_some in Hg. destruct Hg as [fr [Ef Eb]]. subst s.
    apply (frag_body_in S D g fr Ef).
  - unfold frag_bodies in H. apply in_flat_map in H. destruct H as [f0 [Hf0 H]].
    destruct (frag D (fr_name f0)) as [fr|] eqn:Ef; [|destruct H]. destruct H as [H|[]]. subst s.
    exists (fr_name f0). apply fbody_some. exists fr. auto.
Qed.

Theorem L1o_reflect : forall fuel,
  (L1o S D fuel = Some true -> L1_accepts S D) /\
  (L1o S D fuel = Some false -> ~ L1_accepts S D).
Proof.
  intro fuel. eapply reflects_iff; [|apply (all_o_reflects _ _ _ (fun s _ => L1_set_o_reflect fuel s))].
  split; intros H s Hs; apply H, doc_sets_iff, Hs.
Qed.

End L1R.

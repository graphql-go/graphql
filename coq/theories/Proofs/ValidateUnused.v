(* NoUnusedFragments: a fragment definition is reported exactly when no operation reaches it
   through spreads; the closure computed by RecursivelyReferencedFragments is reachability. *)
From Coq Require Import List Bool String.
From GQL Require Import Exec.Syntax Validate.VSyntax Validate.Overlap Validate.Rules Proofs.ValidateRules
     Proofs.ValidateClosure.
Import ListNotations.
Open Scope string_scope.
Open Scope list_scope.

Section Unused.
Variable W : wdoc.

(* names reachable from the spreads [init] of a selection set *)
Inductive Reach (init : list name) : name -> Prop :=
| R0 : forall g, In g init -> Reach init g
| RS : forall h g, Reach init h -> In g (wfrag_spreads W h) -> Reach init g.

Definition Violates_no_unused_fragments : Prop :=
  exists f, In f (w_frags W) /\
            forall o, In o (w_ops W) -> ~ Reach (spread_names (wo_sel o)) (wf_name f).

Lemma closure_of_iff : forall ss g, In g (closure_of W ss) <-> Reach (spread_names ss) g.
Proof.
  intros ss g. unfold closure_of. split.
  - assert (G : forall n seen, (forall x, In x seen -> Reach (spread_names ss) x) ->
                forall g, In g (iter n (close_step W) seen) -> Reach (spread_names ss) g).
    { induction n as [|n IH]; intros seen H x Hx; simpl in Hx; [exact (H x Hx)|].
      apply (IH (close_step W seen)); [clear x Hx; intros x Hx | exact Hx].
      apply (cstep_in (wfrag_spreads W)) in Hx.
      destruct Hx as [Hx|(h & Hh & Hx)]; [exact (H x Hx) | exact (RS _ h x (H h Hh) Hx)]. }
    apply G. intros x Hx. apply R0, (dedup_incl _ _ _ Hx).
  - intro R. induction R as [g Hg|h g Rh IH Hg].
    + destruct (dedup_complete _ [] g Hg) as [[]|K]. revert K. generalize (dedup (spread_names ss) []).
      induction (Datatypes.S (List.length (w_frags W))) as [|n IH]; intros seen K; simpl; [exact K|].
      apply IH, (cstep_in (wfrag_spreads W)). left. exact K.
    + apply (proj1 (stable_b_true (wfrag_spreads W) _) (closure_stable_always W ss) h g IH Hg).
Qed.

Lemma referenced_iff : forall ss g,
  In g (referenced W ss) <-> Reach (spread_names ss) g /\ exists f, fragw W g = Some f.
Proof.
  intros ss g. unfold referenced. rewrite filter_In.
  split; intros [H K]; (split; [apply closure_of_iff; exact H|]).
  - destruct (fragw W g) as [f|]; [exists f; reflexivity | discriminate].
  - destruct K as [f ->]. reflexivity.
Qed.

Theorem no_unused_fragments_iff : rule_no_unused_fragments W <> [] <-> Violates_no_unused_fragments.
Proof.
  etransitivity; [apply flat_map_nonempty|].
  split; intros (f & Hf & H); exists f; (split; [exact Hf|]).
  - intros o Ho R. destruct (nmem (wf_name f) (used_fragments W)) eqn:E; [destruct H; reflexivity|].
    apply nmem_not_in in E. apply E, in_flat_map. exists o. split; [exact Ho|]. apply referenced_iff. split; [exact R|].
    destruct (fragw W (wf_name f)) eqn:Ef; [eauto|]. apply fragw_none in Ef. destruct Ef. apply in_map, Hf.
  - rewrite (proj2 (nmem_not_in _ _)); [discriminate|]. intro E. apply in_flat_map in E.
    destruct E as (o & Ho & E). apply referenced_iff in E. apply (H o Ho), E.
Qed.
End Unused.

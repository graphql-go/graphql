(* The shape of the overlap run.  Every function of Validate/Overlap.v from fc to within_set
   is a state transformer put together from the same few pieces: running one step after
   another and concatenating the conflicts ([andthen], [seq]), and a memo lookup that either
   returns at once or records its entry and runs a body ([guard]).  The equations of the
   first section say so once, with the recursive calls one unit of fuel down.  The second
   section draws the consequence used for every state invariant: a preorder on memo states
   that holds across the elementary updates holds across every call.  After it, two more
   judgments carried through the pieces: "every reported node satisfies W" ([reports]) and
   "when the step ends well, P holds" ([covariant]), for the witness, reflection and memo
   theorems.  With W empty the first gives [silent_run]: the executable algorithm (with or
   without the memo tables, any fuel) reports no conflict whenever the questions it asks lie
   in a family of predicates closed under the one-step checks of the A-J decomposition.  The
   declarative layer L2 is such a family, so the model never rejects a document on which
   every check passes; with the decomposition theorem, it never rejects an acyclic L1-valid
   document. *)
From Coq Require Import List Bool String NArith RelationClasses.
From GQL Require Import Exec.Syntax Validate.Overlap Validate.OverlapSpec Proofs.ValidateRules Proofs.ValidateOverlap.
Import ListNotations.
Open Scope string_scope.
Open Scope list_scope.

Definition act := mst -> list N * mst.
Definition ret : act := fun st => ([], st).
Definition andthen (p q : act) : act :=
  fun st => (fst (p st) ++ fst (q (snd (p st))), snd (q (snd (p st)))).
Definition guard (memo : bool) (hit : mst -> bool) (add : mst -> mst) (body : act) : act :=
  fun st => if memo && hit st then ([], st) else body (if memo then add st else st).

Definition sat (R : mst -> mst -> Prop) (p : act) : Prop := forall st, R st (snd (p st)).

Lemma let_pair : forall {A B C} (x : A * B) (F : A -> B -> C),
  (let '(a, b) := x in F a b) = F (fst x) (snd x).
Proof. intros A B C [a b] F. reflexivity. Qed.

Lemma seq_step : forall {A} (step : A -> act) x r st,
  seq step (x :: r) st = andthen (step x) (seq step r) st.
Proof.
  intros A step x r st. unfold seq, andthen. simpl. destruct (step x st) as [cs st1]. simpl.
  revert cs st1. induction r as [|y r IH]; intros cs st1; simpl; [rewrite app_nil_r; reflexivity|].
  destruct (step y st1) as [cs' st2]. simpl. rewrite (IH (cs ++ cs')), (IH cs'), <- app_assoc. reflexivity.
Qed.

Section Equations.
Variable S : schema.
Variable D : document.
Variable memo : bool.
Notation fields := (fields S).
Notation fbody := (fbody S D).
Notation fc := (Overlap.fc S D memo).
Notation between := (between S D memo).
Notation subsets := (Overlap.subsets S D memo).
Notation ffrag := (ffrag S D memo).
Notation frfr := (frfr S D memo).

Lemma fc_S : forall f fl a b st,
  fc (Datatypes.S f) fl a b st =
  if negb (base_ok S (exf S fl a b) a b) then ([fe_id a], inc_fc st)
  else if has_sub a && has_sub b then
    let r := subsets f (exf S fl a b) (subset_of a) (subset_of b) (inc_fc st) in
    (match fst r with [] => [] | _ => [fe_id a] end, snd r)
  else ([], inc_fc st).
Proof.
  intros. simpl. unfold exf, subset_of. destruct (negb _); [reflexivity|].
  destruct (has_sub a && has_sub b); [|reflexivity]. destruct (Overlap.subsets _ _ _ _ _ _ _ _); reflexivity.
Qed.

Lemma between_S : forall f fl l1 l2 st,
  between (Datatypes.S f) fl l1 l2 st =
  seq (fun k => seq (fun a => seq (fc f fl a) (with_key k l2)) (with_key k l1)) (keys_of l1) st.
Proof. reflexivity. Qed.

Lemma subsets_S : forall f fl s1 s2 st,
  subsets (Datatypes.S f) fl s1 s2 st =
  andthen (between f fl (fields s1) (fields s2))
   (andthen (seq (ffrag f fl s1) (dspreads (snd s2)))
     (andthen (seq (ffrag f fl s2) (dspreads (snd s1)))
              (seq (fun g1 => seq (frfr f fl g1) (dspreads (snd s2))) (dspreads (snd s1))))) st.
Proof.
  intros. simpl. rewrite !let_pair. reflexivity.
Qed.

Lemma ffrag_S : forall f fl s g st,
  ffrag (Datatypes.S f) fl s g st =
  guard memo (fun st => ff_has st (fst s) (first_id (snd s)) g fl)
             (fun st => ff_add st (fst s) (first_id (snd s)) g fl)
    match fbody g with
    | None => ret
    | Some b => if same_set s b then ret
                else andthen (between f fl (fields s) (fields b)) (seq (ffrag f fl s) (dspreads (snd b)))
    end st.
Proof.
  intros. unfold guard, andthen, OverlapSpec.fields, OverlapSpec.fbody. simpl.
  destruct (memo && _); [reflexivity|]. destruct (frag D g) as [fr|]; [|reflexivity]. simpl.
  destruct (same_set _ _); [reflexivity|]. rewrite !let_pair. reflexivity.
Qed.

Lemma frfr_S : forall f fl g1 g2 st,
  frfr (Datatypes.S f) fl g1 g2 st =
  match fbody g1, fbody g2 with
  | Some b1, Some b2 =>
    if String.eqb g1 g2 then ret st
    else guard memo (fun st => pair_has st g1 g2 fl) (fun st => pair_add st g1 g2 fl)
           (andthen (between f fl (fields b1) (fields b2))
             (andthen (seq (frfr f fl g1) (dspreads (snd b2)))
                      (seq (fun h => frfr f fl h g2) (dspreads (snd b1))))) st
  | _, _ => ret st
  end.
Proof.
  intros. unfold guard, andthen, OverlapSpec.fields, OverlapSpec.fbody. simpl.
  destruct (frag D g1) as [f1|]; [|reflexivity]. destruct (frag D g2) as [f2|]; [|reflexivity]. simpl.
  destruct (String.eqb g1 g2); [reflexivity|]. destruct (memo && _); [reflexivity|].
  rewrite !let_pair. reflexivity.
Qed.

Lemma pairs_within_cons : forall f a r st,
  pairs_within S D memo f (a :: r) st = andthen (seq (fc f false a) r) (pairs_within S D memo f r) st.
Proof.
  intros. simpl. rewrite !let_pair. reflexivity.
Qed.

Lemma frags_within_cons : forall f s g r st,
  frags_within S D memo f s (g :: r) st =
  andthen (ffrag f false s g) (andthen (seq (frfr f false g) r) (frags_within S D memo f s r)) st.
Proof.
  intros. simpl. rewrite !let_pair. reflexivity.
Qed.

Lemma within_set_eq : forall f s st,
  within_set S D memo f s st =
  andthen (seq (fun k => pairs_within S D memo f (with_key k (fields s))) (keys_of (fields s)))
          (frags_within S D memo f s (dspreads (snd s))) st.
Proof.
  intros. unfold within_set. rewrite !let_pair. reflexivity.
Qed.

End Equations.

Section Sat.
Context {R : mst -> mst -> Prop} {HR : PreOrder R}.
Notation sat := (sat R).

Lemma sat_ext : forall p q : act, (forall st, p st = q st) -> sat q -> sat p.
Proof. intros p q E H st. rewrite E. apply H. Qed.

Lemma sat_ret : sat ret.
Proof. intro st. reflexivity. Qed.

Lemma sat_andthen : forall p q, sat p -> sat q -> sat (andthen p q).
Proof. intros p q Hp Hq st. transitivity (snd (p st)); [apply Hp | apply Hq]. Qed.

Lemma sat_seq : forall {A} (step : A -> act) l, (forall x, In x l -> sat (step x)) -> sat (seq step l).
Proof.
  intros A step l. induction l as [|x r IH]; intro H; [apply sat_ret|].
  apply (sat_ext _ _ (seq_step step x r)). apply sat_andthen; [apply H; left; reflexivity|].
  apply IH. intros y Hy. apply H. right. exact Hy.
Qed.

Lemma sat_guard : forall memo hit add body,
  (forall st, memo = true -> hit st = false -> R st (add st)) -> sat body -> sat (guard memo hit add body).
Proof.
  intros memo hit add body Ha Hb st. unfold guard. destruct memo; simpl; [|apply Hb].
  destruct (hit st) eqn:E; [reflexivity|]. transitivity (add st); [exact (Ha st eq_refl E) | apply Hb].
Qed.

Section Run.
Variable S : schema.
Variable D : document.
Variable memo : bool.
Notation fields := (fields S).
Notation fbody := (fbody S D).
Notation fc := (Overlap.fc S D memo).
Notation between := (between S D memo).
Notation subsets := (Overlap.subsets S D memo).
Notation ffrag := (ffrag S D memo).
Notation frfr := (frfr S D memo).

Lemma pairs_within_sat : forall f l,
  (forall a b, In a l -> In b l -> sat (fc f false a b)) -> sat (pairs_within S D memo f l).
Proof.
  intros f l. induction l as [|a r IH]; intro H; [apply sat_ret|].
  apply (sat_ext _ _ (pairs_within_cons S D memo f a r)). apply sat_andthen.
  - apply sat_seq. intros b Hb. apply H; [left; reflexivity | right; exact Hb].
  - apply IH. intros x y Hx Hy. apply H; right; assumption.
Qed.

Lemma frags_within_sat : forall f s gs,
  (forall g, In g gs -> sat (ffrag f false s g)) ->
  (forall g h, In g gs -> In h gs -> sat (frfr f false g h)) -> sat (frags_within S D memo f s gs).
Proof.
  intros f s gs. induction gs as [|g r IH]; intros H1 H2; [apply sat_ret|].
  apply (sat_ext _ _ (frags_within_cons S D memo f s g r)).
  apply sat_andthen; [apply H1; left; reflexivity|]. apply sat_andthen.
  - apply sat_seq. intros h Hh. apply H2; [left; reflexivity | right; exact Hh].
  - apply IH; [intros x Hx; apply H1 | intros x y Hx Hy; apply H2]; right; assumption.
Qed.

Lemma within_set_sat : forall f s,
  (forall a b, In a (fields s) -> In b (fields s) -> sat (fc f false a b)) ->
  (forall g, In g (dspreads (snd s)) -> sat (ffrag f false s g)) ->
  (forall g h, In g (dspreads (snd s)) -> In h (dspreads (snd s)) -> sat (frfr f false g h)) ->
  sat (within_set S D memo f s).
Proof.
  intros f s H1 H2 H3. apply (sat_ext _ _ (within_set_eq S D memo f s)). apply sat_andthen.
  - apply sat_seq. intros k _. apply pairs_within_sat. intros a b Ha Hb.
    apply filter_In in Ha, Hb. apply H1; [apply Ha | apply Hb].
  - apply frags_within_sat; assumption.
Qed.

(* R across the elementary updates of a memo state; the two additions only after a failed lookup *)
Hypothesis R_fc : forall st, R st (inc_fc st).
Hypothesis R_oof : forall st, R st (set_oof st).
Hypothesis R_ff : forall st p k g fl, ff_has st p k g fl = false -> R st (ff_add st p k g fl).
Hypothesis R_pair : forall st g1 g2 fl, frag D g1 <> None -> frag D g2 <> None -> g1 <> g2 ->
  pair_has st g1 g2 fl = false -> R st (pair_add st g1 g2 fl).

Theorem run_sat : forall f,
  (forall fl a b, sat (fc f fl a b)) /\ (forall fl l1 l2, sat (between f fl l1 l2)) /\
  (forall fl s1 s2, sat (subsets f fl s1 s2)) /\ (forall fl s g, sat (ffrag f fl s g)) /\
  (forall fl g1 g2, sat (frfr f fl g1 g2)).
Proof.
  induction f as [|f (Ifc & Ibt & Isub & Iff & Ifr)]; [repeat split; intros; intro st; apply R_oof|].
  repeat split.
  - intros fl a b st. rewrite fc_S. destruct (negb _); [apply R_fc|].
    destruct (has_sub a && has_sub b); [|apply R_fc]. transitivity (inc_fc st); [apply R_fc | apply Isub].
  - intros fl l1 l2. apply (sat_ext _ _ (between_S S D memo f fl l1 l2)). repeat (apply sat_seq; intros ? _). apply Ifc.
  - intros fl s1 s2. apply (sat_ext _ _ (subsets_S S D memo f fl s1 s2)).
    repeat apply sat_andthen; [apply Ibt | | | apply sat_seq; intros ? _]; apply sat_seq; intros ? _; auto.
  - intros fl s g. apply (sat_ext _ _ (ffrag_S S D memo f fl s g)). apply sat_guard; [intros st _; apply R_ff|].
    destruct (fbody g) as [b|]; [|apply sat_ret]. destruct (same_set s b); [apply sat_ret|].
    apply sat_andthen; [apply Ibt | apply sat_seq; intros ? _; apply Iff].
  - intros fl g1 g2 st. rewrite frfr_S.
    destruct (fbody g1) as [b1|] eqn:E1; [|reflexivity]. destruct (fbody g2) as [b2|] eqn:E2; [|reflexivity].
    destruct (String.eqb g1 g2) eqn:Eg; [reflexivity|]. revert st. apply sat_guard.
    + unfold OverlapSpec.fbody in E1, E2. intros st _.
      apply R_pair; [destruct (frag D g1) | destruct (frag D g2) | apply String.eqb_neq; exact Eg]; discriminate.
    + repeat apply sat_andthen; [apply Ibt | |]; apply sat_seq; intros ? _; apply Ifr.
Qed.

Corollary within_set_run_sat : forall f s, sat (within_set S D memo f s).
Proof.
  intros f s. destruct (run_sat f) as (Ifc & _ & _ & Iff & Ifr).
  apply within_set_sat; intros; [apply Ifc | apply Iff | apply Ifr].
Qed.

Corollary all_sets_run_sat : forall f st, R st (snd (seq (within_set S D memo f) (all_sets S D) st)).
Proof. intros f. apply sat_seq. intros s _. apply within_set_run_sat. Qed.
End Run.
End Sat.

(* "Every node the step reports satisfies W" passes through the pieces a run is made of;
   with W empty it says that the step reports nothing. *)
Definition reports (W : N -> Prop) (p : act) : Prop := forall st x, In x (fst (p st)) -> W x.
Notation silent := (reports (fun _ => False)).

Definition clean (r : list N * mst) : Prop := fst r = [] /\ m_oof (snd r) = false.

Lemma silent_nil : forall (p : act) st, silent p -> fst (p st) = [].
Proof. intros p st H. destruct (fst (p st)) as [|x r] eqn:E; [reflexivity|]. destruct (H st x). rewrite E. left. reflexivity. Qed.

Lemma reports_nil : forall W (p : act), (forall st, fst (p st) = []) -> reports W p.
Proof. intros W p H st x Hx. rewrite H in Hx. destruct Hx. Qed.

Lemma reports_weaken : forall (W W' : N -> Prop) p, (forall x, W x -> W' x) -> reports W p -> reports W' p.
Proof. intros W W' p H Hp st x Hx. apply H, (Hp st x Hx). Qed.

Section Reports.
Variable W : N -> Prop.

Lemma reports_ext : forall p q : act, (forall st, p st = q st) -> reports W q -> reports W p.
Proof. intros p q E H st. rewrite E. apply H. Qed.

Lemma reports_ret : reports W ret.
Proof. apply reports_nil. reflexivity. Qed.

Lemma reports_andthen : forall p q, reports W p -> reports W q -> reports W (andthen p q).
Proof. intros p q Hp Hq st x Hx. apply in_app_or in Hx. destruct Hx as [Hx|Hx]; [apply (Hp _ _ Hx) | apply (Hq _ _ Hx)]. Qed.

Lemma reports_seq : forall {A} (step : A -> act) l, (forall x, In x l -> reports W (step x)) -> reports W (seq step l).
Proof.
  intros A step l. induction l as [|x r IH]; intro H; [apply reports_ret|].
  apply (reports_ext _ _ (seq_step step x r)). apply reports_andthen; [apply H; left; reflexivity|].
  apply IH. intros y Hy. apply H. right. exact Hy.
Qed.

Lemma reports_guard : forall memo hit add body, reports W body -> reports W (guard memo hit add body).
Proof. intros memo hit add body H st. unfold guard. destruct (memo && hit st); [intros x []|apply H]. Qed.

Lemma reports_within_set : forall S D memo f s,
  (forall k, In k (keys_of (fields S s)) ->
     ForallOrdPairs (fun a b => reports W (Overlap.fc S D memo f false a b)) (with_key k (fields S s))) ->
  (forall g, In g (dspreads (snd s)) -> reports W (ffrag S D memo f false s g)) ->
  ForallOrdPairs (fun g h => reports W (frfr S D memo f false g h)) (dspreads (snd s)) ->
  reports W (within_set S D memo f s).
Proof.
  intros S D memo f s H1 H2 H3. apply (reports_ext _ _ (within_set_eq S D memo f s)). apply reports_andthen.
  - apply reports_seq. intros k Hk. induction (H1 k Hk) as [|a r Ha _ IH]; [apply reports_ret|].
    apply (reports_ext _ _ (pairs_within_cons S D memo f a r)). apply reports_andthen; [|exact IH].
    apply reports_seq. apply Forall_forall, Ha.
  - revert H2. induction H3 as [|g r Hg _ IH]; intro H2; [apply reports_ret|].
    apply (reports_ext _ _ (frags_within_cons S D memo f s g r)).
    repeat apply reports_andthen; [apply H2; left; reflexivity | | apply IH; intros h Hh; apply H2; right; exact Hh].
    apply reports_seq. apply Forall_forall, Hg.
Qed.
End Reports.

Lemma dspreads_raw_in : forall ss g, In g (dspreads ss) -> In g (dspreads_raw ss).
Proof. intros ss g H. unfold dspreads in H. apply dedup_incl in H. exact H. Qed.

Lemma with_key_in : forall k l e, In e (with_key k l) -> In e l /\ fe_key e = k.
Proof.
  intros k l e H. unfold with_key in H. apply filter_In in H. destruct H as [H1 H2].
  apply String.eqb_eq in H2. auto.
Qed.

Lemma dspreads_iff : forall ss g, In g (dspreads ss) <-> In g (dspreads_raw ss).
Proof.
  intros ss g. split; [apply dspreads_raw_in|]. intro H. unfold dspreads.
  destruct (dedup_complete _ [] g H) as [[]|K]. exact K.
Qed.

Lemma with_key_mem : forall k l e, In e l -> fe_key e = k -> In e (with_key k l).
Proof.
  intros k l e H E. unfold with_key. apply filter_In. split; [exact H | apply String.eqb_eq; exact E].
Qed.

Lemma keys_of_mem : forall l e, In e l -> In (fe_key e) (keys_of l).
Proof.
  intros l e H. unfold keys_of.
  destruct (dedup_complete (map fe_key l) [] (fe_key e) (in_map fe_key l e H)) as [[]|K]. exact K.
Qed.

Lemma same_set_refl : forall s, same_set s s = true.
Proof.
  intros [p ss]. unfold same_set. simpl. rewrite N.eqb_refl.
  destruct p; simpl; [rewrite String.eqb_refl|]; reflexivity.
Qed.

Lemma fbody_frag : forall S D g fr,
  frag D g = Some fr -> fbody S D g = Some (resolve S (fr_cond fr), fr_sel fr).
Proof. intros S D g fr H. unfold fbody. rewrite H. reflexivity. Qed.

(* Any family of questions closed under the one-step checks is answered silently: the
   greatest-fixed-point reading of the decomposition.  It needs neither acyclicity nor fuel,
   since running out of fuel or hitting a memo entry only ends a call early. *)
Section Silent.
Variable S : schema.
Variable D : document.
Variable memo : bool.
Variable Cfc : bool -> fentry -> fentry -> Prop.
Variable Csub : bool -> fset -> fset -> Prop.
Variable Cff : bool -> fset -> name -> Prop.
Variable Cfr : bool -> name -> name -> Prop.
Notation fields := (fields S).
Notation fbody := (fbody S D).

Definition Cbt (fl : bool) (l1 l2 : list fentry) : Prop :=
  forall a b, In a l1 -> In b l2 -> fe_key a = fe_key b -> Cfc fl a b.

Hypothesis Ufc : forall fl a b, Cfc fl a b ->
  base_ok S (exf S fl a b) a b = true /\
  (has_sub a && has_sub b = true -> Csub (exf S fl a b) (subset_of a) (subset_of b)).
Hypothesis Usub : forall fl s1 s2, Csub fl s1 s2 ->
  Cbt fl (fields s1) (fields s2) /\
  (forall g, In g (dspreads (snd s2)) -> Cff fl s1 g) /\
  (forall g, In g (dspreads (snd s1)) -> Cff fl s2 g) /\
  (forall g1 g2, In g1 (dspreads (snd s1)) -> In g2 (dspreads (snd s2)) -> Cfr fl g1 g2).
Hypothesis Uff : forall fl s g b, Cff fl s g -> fbody g = Some b -> same_set s b = false ->
  Cbt fl (fields s) (fields b) /\ (forall h, In h (dspreads (snd b)) -> Cff fl s h).
Hypothesis Ufr : forall fl g1 g2 b1 b2, Cfr fl g1 g2 ->
  fbody g1 = Some b1 -> fbody g2 = Some b2 -> String.eqb g1 g2 = false ->
  Cbt fl (fields b1) (fields b2) /\
  (forall h, In h (dspreads (snd b2)) -> Cfr fl g1 h) /\
  (forall h, In h (dspreads (snd b1)) -> Cfr fl h g2).

Lemma silent_run : forall f,
  (forall fl a b, Cfc fl a b -> silent (Overlap.fc S D memo f fl a b)) /\
  (forall fl l1 l2, Cbt fl l1 l2 -> silent (between S D memo f fl l1 l2)) /\
  (forall fl s1 s2, Csub fl s1 s2 -> silent (Overlap.subsets S D memo f fl s1 s2)) /\
  (forall fl s g, Cff fl s g -> silent (ffrag S D memo f fl s g)) /\
  (forall fl g1 g2, Cfr fl g1 g2 -> silent (frfr S D memo f fl g1 g2)).
Proof.
  induction f as [|f (Ifc & Ibt & Isub & Iff & Ifr)]; [repeat split; intros; apply reports_nil; reflexivity|].
  split; [|split; [|split; [|split]]].
  - intros fl a b H. destruct (Ufc _ _ _ H) as [Hb Hs]. apply reports_nil. intro st. rewrite fc_S, Hb. simpl.
    destruct (has_sub a && has_sub b); [|reflexivity]. cbv zeta. rewrite (silent_nil _ _ (Isub _ _ _ (Hs eq_refl))). reflexivity.
  - intros fl l1 l2 H. apply (reports_ext _ _ _ (between_S S D memo f fl l1 l2)).
    apply reports_seq. intros k _. apply reports_seq. intros a Ha. apply reports_seq. intros b Hb.
    apply with_key_in in Ha. apply with_key_in in Hb. destruct Ha as [Ha Ka]. destruct Hb as [Hb Kb].
    apply Ifc, H; [exact Ha | exact Hb | congruence].
  - intros fl s1 s2 H. destruct (Usub _ _ _ H) as (H1 & H2 & H3 & H4).
    apply (reports_ext _ _ _ (subsets_S S D memo f fl s1 s2)).
    repeat apply reports_andthen; [apply Ibt, H1 | | |]; apply reports_seq; intros g Hg;
      [apply Iff, H2, Hg | apply Iff, H3, Hg | apply reports_seq; intros h Hh; apply Ifr, H4; assumption].
  - intros fl s g H. apply (reports_ext _ _ _ (ffrag_S S D memo f fl s g)). apply reports_guard.
    destruct (fbody g) as [b|] eqn:Eb; [|apply reports_ret]. destruct (same_set s b) eqn:Es; [apply reports_ret|].
    destruct (Uff _ _ _ _ H Eb Es) as [H1 H2].
    apply reports_andthen; [apply Ibt, H1 | apply reports_seq; intros h Hh; apply Iff, H2, Hh].
  - intros fl g1 g2 H st. rewrite frfr_S.
    destruct (fbody g1) as [b1|] eqn:E1; [|apply reports_ret]. destruct (fbody g2) as [b2|] eqn:E2; [|apply reports_ret].
    destruct (String.eqb g1 g2) eqn:Eg; [apply reports_ret|]. destruct (Ufr _ _ _ _ _ H E1 E2 Eg) as (H1 & H2 & H3).
    revert st. apply reports_guard.
    repeat apply reports_andthen; [apply Ibt, H1 | |]; apply reports_seq; intros h Hh; apply Ifr; [apply H2 | apply H3]; exact Hh.
Qed.

(* findConflictsWithinSelectionSet asks about each unordered pair once *)
Definition within_lt (s : fset) : Prop :=
  (forall k, In k (keys_of (fields s)) -> ForallOrdPairs (Cfc false) (with_key k (fields s))) /\
  (forall g, In g (dspreads (snd s)) -> Cff false s g) /\
  ForallOrdPairs (Cfr false) (dspreads (snd s)).

Theorem silent_overlap : forall fuel,
  (forall s, In s (all_sets S D) -> within_lt s) -> run_overlap S D memo fuel = [].
Proof.
  intros fuel H. apply silent_nil, reports_seq. intros s Hs. destruct (H s Hs) as (H1 & H2 & H3).
  destruct (silent_run fuel) as (Ifc & _ & _ & Iff & Ifr). apply reports_within_set.
  - intros k Hk. apply (ForallOrdPairs_impl (Cfc false)); [intros a b _ _; apply Ifc | apply H1, Hk].
  - intros g Hg. apply Iff, H2, Hg.
  - apply (ForallOrdPairs_impl (Cfr false)); [intros g h _ _; apply Ifr | exact H3].
Qed.
End Silent.

(* Judgments "when the step ends well, P holds" that pass through the pieces of a run
   pass through what collectConflictsBetween,
   findConflictsBetweenSubSelectionSets and findConflictsWithinSelectionSet are made of. *)
Record covariant (J : act -> Prop -> Prop) : Prop := {
  cov_ext : forall (p q : act) P, (forall st, p st = q st) -> J q P -> J p P;
  cov_ret : forall P : Prop, P -> J ret P;
  cov_weaken : forall p (P Q : Prop), (P -> Q) -> J p P -> J p Q;
  cov_andthen : forall p q P Q, J p P -> J q Q -> J (andthen p q) (P /\ Q) }.
Arguments cov_ext {J}.
Arguments cov_ret {J}.
Arguments cov_weaken {J}.
Arguments cov_andthen {J}.

Section Covariant.
Variable J : act -> Prop -> Prop.
Hypothesis HJ : covariant J.
Let Jext := cov_ext HJ.
Let Jret := cov_ret HJ.
Let Jweaken := cov_weaken HJ.
Let Jandthen := cov_andthen HJ.

Lemma cov_seq : forall {A} (step : A -> act) (P : A -> Prop) l,
  (forall x, In x l -> J (step x) (P x)) -> J (seq step l) (forall x, In x l -> P x).
Proof.
  intros A step P l. induction l as [|x r IH]; intro H; [apply Jret; intros y []|].
  apply (Jext _ _ _ (seq_step step x r)).
  eapply Jweaken; [|apply Jandthen; [apply (H x); left; reflexivity | apply IH; intros y Hy; apply H; right; exact Hy]].
  intros [Hx Hr] y [Hy|Hy]; [subst y; exact Hx | apply Hr, Hy].
Qed.

Variable S : schema.
Variable D : document.
Variable memo : bool.
Variable Rfc : bool -> fentry -> fentry -> Prop.
Variable Rff : bool -> fset -> name -> Prop.
Variable Rfr : bool -> name -> name -> Prop.
Notation fields := (fields S).

Lemma cov_between : forall f fl l1 l2,
  (forall a b, In a l1 -> In b l2 -> J (Overlap.fc S D memo f fl a b) (Rfc fl a b)) ->
  J (between S D memo (Datatypes.S f) fl l1 l2) (Cbt Rfc fl l1 l2).
Proof.
  intros f fl l1 l2 H. apply (Jext _ _ _ (between_S S D memo f fl l1 l2)).
  eapply Jweaken; [|apply cov_seq; intros k _; apply cov_seq; intros a Ha; apply cov_seq; intros b Hb;
    apply H; [apply (with_key_in _ _ _ Ha) | apply (with_key_in _ _ _ Hb)]].
  intros K a b Ha Hb Hk.
  apply (K (fe_key a) (keys_of_mem l1 a Ha) a (with_key_mem _ _ _ Ha eq_refl) b), with_key_mem; [exact Hb | symmetry; exact Hk].
Qed.

Lemma cov_subsets : forall f fl s1 s2 (Rbt : Prop),
  J (between S D memo f fl (fields s1) (fields s2)) Rbt ->
  (forall g, In g (dspreads (snd s2)) -> J (ffrag S D memo f fl s1 g) (Rff fl s1 g)) ->
  (forall g, In g (dspreads (snd s1)) -> J (ffrag S D memo f fl s2 g) (Rff fl s2 g)) ->
  (forall g1 g2, In g1 (dspreads (snd s1)) -> In g2 (dspreads (snd s2)) -> J (frfr S D memo f fl g1 g2) (Rfr fl g1 g2)) ->
  J (Overlap.subsets S D memo (Datatypes.S f) fl s1 s2)
    (Rbt /\ (forall g, In g (dspreads (snd s2)) -> Rff fl s1 g) /\ (forall g, In g (dspreads (snd s1)) -> Rff fl s2 g) /\
     (forall g1, In g1 (dspreads (snd s1)) -> forall g2, In g2 (dspreads (snd s2)) -> Rfr fl g1 g2)).
Proof.
  intros f fl s1 s2 Rbt Hb H2 H1 H12. apply (Jext _ _ _ (subsets_S S D memo f fl s1 s2)).
  repeat apply Jandthen; [exact Hb | apply cov_seq, H2 | apply cov_seq, H1 |].
  apply cov_seq. intros g1 Hg1. apply cov_seq. intros g2 Hg2. apply H12; assumption.
Qed.

Lemma cov_within_set : forall fuel s,
  (forall a b, In a (fields s) -> In b (fields s) -> J (Overlap.fc S D memo fuel false a b) (Rfc false a b)) ->
  (forall g, In g (dspreads (snd s)) -> J (ffrag S D memo fuel false s g) (Rff false s g)) ->
  (forall g h, In g (dspreads (snd s)) -> In h (dspreads (snd s)) -> J (frfr S D memo fuel false g h) (Rfr false g h)) ->
  J (within_set S D memo fuel s) (within_lt S Rfc Rff Rfr s).
Proof.
  intros fuel s Hfc Hff Hfr.
  assert (PW : forall l, incl l (fields s) -> J (pairs_within S D memo fuel l) (ForallOrdPairs (Rfc false) l)).
  { induction l as [|a r IH]; intro Hi; [apply Jret; constructor|].
    apply (Jext _ _ _ (pairs_within_cons S D memo fuel a r)).
    eapply Jweaken; [|apply Jandthen;
      [apply cov_seq; intros b Hb; apply Hfc; apply Hi; [left; reflexivity | right; exact Hb]
      | apply IH; intros x Hx; apply Hi; right; exact Hx]].
    intros [H1 H2]. constructor; [apply Forall_forall; exact H1 | exact H2]. }
  assert (FW : forall gs, incl gs (dspreads (snd s)) -> J (frags_within S D memo fuel s gs)
                 ((forall g, In g gs -> Rff false s g) /\ ForallOrdPairs (Rfr false) gs)).
  { induction gs as [|g r IH]; intro Hi; [apply Jret; split; [intros g []|constructor]|].
    apply (Jext _ _ _ (frags_within_cons S D memo fuel s g r)).
    eapply Jweaken; [|repeat apply Jandthen;
      [apply Hff, Hi; left; reflexivity
      | apply cov_seq; intros h Hh; apply Hfr; apply Hi; [left; reflexivity | right; exact Hh]
      | apply IH; intros x Hx; apply Hi; right; exact Hx]].
    intros (Q1 & Q2 & Q3 & Q4). split; [intros h [Hh|Hh]; [subst h; exact Q1 | apply Q3, Hh]|].
    constructor; [apply Forall_forall; exact Q2 | exact Q4]. }
  apply (Jext _ _ _ (within_set_eq S D memo fuel s)).
  eapply Jweaken; [|apply Jandthen;
    [apply cov_seq; intros k _; apply PW; intros x Hx; apply (with_key_in _ _ _ Hx) | apply FW, incl_refl]].
  intros [Q1 [Q2 Q3]]. split; [exact Q1 | split; assumption].
Qed.
End Covariant.
Arguments cov_seq {J} HJ {A}.
Arguments cov_between {J}.
Arguments cov_subsets {J}.
Arguments cov_within_set {J}.

Lemma base2_le : forall S ex a b, base2 S ex a b = true -> base_ok S ex a b = true.
Proof. intros S ex a b H. unfold base2 in H. apply andb_true_iff in H. exact (proj1 H). Qed.

(* every check of the decomposition passes => neither the memoised (L3) nor the unmemoised
   (L2) executable algorithm reports a conflict, whatever the fuel *)
Theorem L2_accepts_exec : forall S D memo fuel,
  L2_accepts S D -> run_overlap S D memo fuel = [].
Proof.
  intros S D memo fuel H.
  apply (silent_overlap S D memo (fc S D (base2 S)) (subsets S D (base2 S)) (FF S D (base2 S)) (FrFr S D (base2 S))).
  - intros fl a b C. inversion C as [fl' a' b' Hb Hs]; subst. split; [apply base2_le; exact Hb|].
    intro E. apply andb_true_iff in E. exact (Hs E).
  - intros fl s1 s2 C. inversion C as [fl' s1' s2' H1 H2 H3 H4]; subst.
    split; [exact H1|]. split; [|split]; intros; [apply H2 | apply H3 | apply H4]; apply dspreads_raw_in; assumption.
  - intros fl s g b C Eb Es.
    inversion C as [fl' s' g' En | fl' s' g' Esame | fl' s' g' b' Eb' Hd He]; subst; rewrite Eb in *.
    + discriminate.
    + inversion Esame; subst. rewrite same_set_refl in Es. discriminate.
    + inversion Eb'; subst b'. split; [exact Hd|]. intros h Hh. apply He, dspreads_raw_in, Hh.
  - intros fl g1 g2 b1 b2 C E1 E2 Eg.
    inversion C as [fl' a' b' En | fl' g' | fl' a' b' c1 c2 E1' E2' Hd H2 H1]; subst.
    + destruct En as [En|En]; [rewrite E1 in En | rewrite E2 in En]; discriminate.
    + rewrite String.eqb_refl in Eg. discriminate.
    + rewrite E1 in E1'. rewrite E2 in E2'. inversion E1'; inversion E2'; subst c1 c2.
      split; [exact Hd|]. split; intros h Hh; [apply H2 | apply H1]; apply dspreads_raw_in, Hh.
  - intros s Hs. destruct (H s (or_introl Hs)) as (H1 & H2 & H3). split; [|split].
    + intros k _. apply ForallPairs_ForallOrdPairs. intros a b Ha Hb.
      apply with_key_in in Ha. apply with_key_in in Hb. apply H1; [tauto | tauto | destruct Ha, Hb; congruence].
    + intros g Hg. apply H2, dspreads_raw_in, Hg.
    + apply ForallPairs_ForallOrdPairs. intros g h Hg Hh. apply H3; apply dspreads_raw_in; assumption.
Qed.

Theorem L1_accepts_exec : forall S D memo fuel,
  acyclic S D -> L1_accepts S D -> run_overlap S D memo fuel = [].
Proof.
  intros S D memo fuel A H. apply L2_accepts_exec. apply (overlap_decomposition S D A). exact H.
Qed.

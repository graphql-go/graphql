(* The closure iteration of the model of RecursivelyReferencedFragments never falls short:
   |fragments| + 1 rounds of "add the spreads of everything seen" reach a fixed point.
   Every round that is not yet stable was preceded by a round in which a *defined* fragment
   name appeared for the first time, and there are at most |fragments| of those. *)
From Coq Require Import List Lia Bool String.
From GQL Require Import Exec.Syntax Validate.VSyntax Validate.Overlap Validate.Rules
     Proofs.ValidateRules.
Import ListNotations.
Open Scope string_scope.
Open Scope list_scope.

Lemma iter_succ_r : forall {A} n (f : A -> A) x, iter (Datatypes.S n) f x = f (iter n f x).
Proof. intros A n f. induction n as [|n IH]; intro x; [reflexivity|]. simpl in *. rewrite <- IH. reflexivity. Qed.

Section Closure.
Variable sp : name -> list name.
Variable names : list name.
Hypothesis sp_def : forall g h, In h (sp g) -> In g names.

Definition cstep (seen : list name) : list name := dedup (seen ++ flat_map sp seen) [].
Definition stable_b (seen : list name) : bool := forallb (fun x => nmem x seen) (flat_map sp seen).
Definition unseen (seen : list name) : nat := List.length (filter (fun n => negb (nmem n seen)) names).

Lemma cstep_in : forall seen x, In x (cstep seen) <-> In x seen \/ exists h, In h seen /\ In x (sp h).
Proof.
  intros seen x. unfold cstep. split.
  - intro H. apply dedup_incl in H. apply in_app_or in H. destruct H as [H|H]; [left; exact H|].
    right. apply in_flat_map in H. exact H.
  - intro H. destruct (dedup_complete (seen ++ flat_map sp seen) [] x) as [[]|K]; [|exact K].
    apply in_or_app. destruct H as [H|H]; [left; exact H | right; apply in_flat_map; exact H].
Qed.

Lemma stable_b_true : forall seen, stable_b seen = true <-> forall h x, In h seen -> In x (sp h) -> In x seen.
Proof.
  intro seen. unfold stable_b. rewrite forallb_forall. split.
  - intros H h x Hh Hx. apply nmem_in. apply H. apply in_flat_map. exists h. split; assumption.
  - intros H x Hx. apply in_flat_map in Hx. destruct Hx as [h [Hh Hx]]. apply nmem_in. apply (H h x Hh Hx).
Qed.

Lemma stable_step : forall seen, stable_b seen = true -> stable_b (cstep seen) = true.
Proof.
  intros seen H. rewrite stable_b_true in *. intros h x Hh Hx. apply cstep_in. left.
  apply cstep_in in Hh. destruct Hh as [Hh|[h' [Hh' Hh]]]; [apply (H h x Hh Hx)|].
  apply (H h x (H h' h Hh' Hh) Hx).
Qed.

(* a round that leaves the set unstable has brought in a defined name *)
Lemma progress : forall seen, stable_b (cstep seen) = false -> unseen (cstep seen) < unseen seen.
Proof.
  intros seen H. unfold stable_b in H.
  assert (E : existsb (fun x => negb (nmem x (cstep seen))) (flat_map sp (cstep seen)) = true).
  { clear -H. induction (flat_map sp (cstep seen)) as [|y r IH]; simpl in *; [discriminate|].
    destruct (nmem y (cstep seen)); simpl in *; [apply IH; exact H | reflexivity]. }
  apply existsb_exists in E. destruct E as [x [Hx Nx]]. apply in_flat_map in Hx. destruct Hx as [h [Hh Hx]].
  apply negb_true_iff in Nx.
  destruct (nmem h seen) eqn:Eh.
  { exfalso. apply nmem_in in Eh. assert (K : In x (cstep seen)) by (apply cstep_in; right; exists h; split; assumption).
    apply nmem_in in K. rewrite K in Nx. discriminate. }
  apply (fresh_lt names seen (cstep seen) h).
  - intros y Hy. apply cstep_in. left. exact Hy.
  - apply (sp_def h x Hx).
  - apply nmem_not_in. exact Eh.
  - exact Hh.
Qed.

Lemma rounds : forall X0 j,
  stable_b (iter (Datatypes.S j) cstep X0) = true \/ unseen (iter (Datatypes.S j) cstep X0) + j + 1 <= unseen X0.
Proof.
  intros X0 j. induction j as [|j IH].
  - rewrite iter_succ_r. simpl iter. destruct (stable_b (cstep X0)) eqn:E; [left; reflexivity|].
    right. pose proof (progress X0 E). lia.
  - rewrite iter_succ_r. destruct IH as [IH|IH]; [left; apply stable_step; exact IH|].
    destruct (stable_b (cstep (iter (Datatypes.S j) cstep X0))) eqn:E; [left; reflexivity|].
    right. pose proof (progress _ E). lia.
Qed.

Theorem closure_reaches_fixpoint : forall X0, stable_b (iter (Datatypes.S (List.length names)) cstep X0) = true.
Proof.
  intro X0. destruct (rounds X0 (List.length names)) as [H|H]; [exact H|]. exfalso.
  pose proof (fresh_le names X0). unfold unseen, fresh in *. lia.
Qed.
End Closure.

Lemma closure_stable_always : forall W ss, closure_stable W ss = true.
Proof.
  intros W ss. unfold closure_stable, closure_of. rewrite <- (map_length wf_name (w_frags W)).
  apply (closure_reaches_fixpoint (wfrag_spreads W) (map wf_name (w_frags W))).
  intros g h Hh. unfold wfrag_spreads in Hh. destruct (fragw W g) as [f|] eqn:E; [|destruct Hh].
  apply fragw_some in E. destruct E as [Hf <-]. apply in_map. exact Hf.
Qed.

Theorem closures_stable_always : forall W, closures_stable W = true.
Proof. intro W. apply forallb_forall. intros o _. apply closure_stable_always. Qed.

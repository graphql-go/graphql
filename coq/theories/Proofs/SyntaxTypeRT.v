(* The whole chain print -> lex -> derive -> parse on one recursive nonterminal: types.
   A well-formed type is, up to locations, one that a well-formed token list derives, so the
   statement is type_rt (Proofs/SyntaxRoundTrip.v) at that derivation. *)
From Coq Require Import List NArith Bool.
From GQL Require Import Base.Bytes Syntax.Lexer Syntax.Ast Syntax.Parser Syntax.Grammar Syntax.Printer
  Proofs.SyntaxComplete Proofs.SyntaxRender Proofs.SyntaxRoundTrip.
Import ListNotations.
Open Scope N_scope.

(* a type the parser can have produced: names are names, no NonNull directly inside NonNull *)
Fixpoint wf_ty (t : ty) : bool :=
  match t with
  | TNamed n => name_ok (nval (nd_name n))
  | TList t _ => wf_ty t
  | TNonNull t _ => wf_ty t && negb (is_nonnull t)
  end.

(* equality of types up to locations *)
Fixpoint ty_eqv (a b : ty) : Prop :=
  match a, b with
  | TNamed n, TNamed m => nval (nd_name n) = nval (nd_name m)
  | TList a _, TList b _ => ty_eqv a b
  | TNonNull a _, TNonNull b _ => ty_eqv a b
  | _, _ => False
  end.

Lemma flat_app : forall A B, flat (A ++ B) = flat A ++ flat B.
Proof. intros A B. unfold flat. apply flat_map_app. Qed.

Lemma wf_ty_derives : forall t, wf_ty t = true -> exists p t0, DType p t0 /\ toks_wf p /\ gnl (g_ty t0) = gnl (g_ty t).
Proof.
  induction t as [n|t IH l|t IH l]; intro W; cbn [wf_ty] in W.
  - exists [mktok NAME 0 0 (nval (nd_name n))]. eexists. split; [apply DT_named; reflexivity|].
    split; [unfold toks_wf, tok_wf; cbn [forallb tk tval]; rewrite W; reflexivity|reflexivity].
  - destruct (IH W) as (p & t0 & D & Wp & E). exists (mktok BRACKET_L 0 0 [] :: p ++ [mktok BRACKET_R 0 0 []]). eexists.
    split; [apply DT_list; [reflexivity|exact D|reflexivity]|].
    split; [unfold toks_wf in *; cbn [forallb]; rewrite forallb_app, Wp; reflexivity|].
    cbn [g_ty]. rewrite !gnl_gl. cbn [map]. rewrite E. reflexivity.
  - apply andb_true_iff in W. destruct W as [W NN]. destruct (IH W) as (p & t0 & D & Wp & E).
    exists (p ++ [mktok BANG 0 0 []]). eexists.
    split; [apply DT_nonnull; [exact D|rewrite (gnl_ty_nonnull _ _ E); apply negb_true_iff; exact NN|reflexivity]|].
    split; [unfold toks_wf in *; rewrite forallb_app, Wp; reflexivity|].
    cbn [g_ty]. rewrite !gnl_gl. cbn [map]. rewrite E. reflexivity.
Qed.

Lemma gnl_ty_eqv : forall a b, gnl (g_ty a) = gnl (g_ty b) -> ty_eqv a b.
Proof.
  induction a as [n|a IH l|a IH l]; intros [m|b l'|b l'] H; cbn [g_ty] in H; unfold g_named, gl in H; cbn [gnl map] in H;
    try discriminate H; injection H as E; cbn [ty_eqv]; [exact E|exact (IH b E)..].
Qed.

(* print, lex, parse: a well-formed type is read back, up to locations *)
Theorem type_roundtrip : forall t, wf_ty t = true ->
  exists ts t', lex (print_type t) = Ok (ts ++ [eof_tok (nlen (print_type t))], false) /\
    DType ts t' /\ ty_eqv t t' /\
    forall fuel pe, (length ts < fuel)%nat ->
      parse_type fuel (pe, ts ++ [eof_tok (nlen (print_type t))]) = Ok (t', (endof pe ts, [eof_tok (nlen (print_type t))])).
Proof.
  intros t W. destruct (wf_ty_derives t W) as (p & t0 & D & Wp & E). destruct (type_rt p t0 D Wp) as [P R].
  destruct (R (ptoks 0 (lay_type t0)) (sig_ptoks _ _)) as (t' & D' & E').
  unfold print_type. rewrite <- (ty_loc t0 t E).
  exists (ptoks 0 (lay_type t0)), t'. split; [|split; [exact D'|split]].
  - apply lex_flat_layout. specialize (P [] (conj eq_refl eq_refl)). rewrite app_nil_r in P. exact P.
  - apply gnl_ty_eqv. rewrite E', E. reflexivity.
  - intros fuel pe Hf. apply parse_type_complete; [exact D'|exact Hf|]. apply nk_cons. discriminate.
Qed.

(* C19: the memo tables of the overlap rule bound the work.  Every non-memoised body of
   collectConflictsBetweenFragments / collectConflictsBetweenFieldsAndFragment adds entries
   to its memo set that were not there before (potential argument: the entry list of the
   model never repeats an entry), so the number of bodies is bounded by the number of
   possible entries. *)
From Coq Require Import List Arith Lia Bool String NArith.
From GQL Require Import Exec.Syntax Exec.Exec Validate.VSyntax Validate.Overlap Validate.Rules Validate.Cost
     Proofs.ValidateRules Proofs.ValidateCycles Proofs.ValidateRun.
Import ListNotations.
Open Scope string_scope.
Open Scope list_scope.

(* Both memo tables are association lists read by first match: a key is stored with the
   exclusivity flag of the comparison made, and Has(k, fl) accepts a stored [false] for
   either query and a stored [true] only for [true] ([answers], the lookup ff_has and
   pair_has share). *)
Definition answers (o : option bool) (fl : bool) : bool :=
  match o with None => false | Some stored => if fl then true else negb stored end.

Section Table.
Variable K : Type.
Variable keq : K -> K -> bool.
Hypothesis keq_eq : forall a b, keq a b = true <-> a = b.

Fixpoint tfind (k : K) (l : list (K * bool)) : option bool :=
  match l with [] => None | (k', f) :: r => if keq k k' then Some f else tfind k r end.

Lemma tfind_none : forall k l, tfind k l = None <-> forall f, ~ In (k, f) l.
Proof.
  intros k l. induction l as [|[k' f] r IH]; simpl; [split; [intros _ f [] | reflexivity]|].
  destruct (keq k k') eqn:E.
  - apply keq_eq in E. subst k'. split; [discriminate | intro H; destruct (H f (or_introl eq_refl))].
  - rewrite IH. split; intros H f'; [|intro H'; exact (H f' (or_intror H'))].
    intros [H'|H']; [|exact (H f' H')]. injection H' as -> _. rewrite (proj2 (keq_eq k k) eq_refl) in E. discriminate.
Qed.

Lemma tfind_in : forall k l f, tfind k l = Some f -> In (k, f) l.
Proof.
  intros k l. induction l as [|[k' f'] r IH]; simpl; intros f H; [discriminate|].
  destruct (keq k k') eqn:E; [|right; exact (IH f H)].
  apply keq_eq in E. subst k'. injection H as ->. left. reflexivity.
Qed.

(* what a failed Has(k, fl) says about the table *)
Definition unseen (k : K) (fl : bool) (l : list (K * bool)) : Prop :=
  tfind k l = None \/ (tfind k l = Some true /\ fl = false).

Lemma has_false : forall k (fl : bool) l, answers (tfind k l) fl = false -> unseen k fl l.
Proof. intros k fl l. unfold unseen. destruct (tfind k l) as [[|]|]; destruct fl; simpl; auto; discriminate. Qed.

Definition tinv (l : list (K * bool)) : Prop :=
  NoDup l /\ forall k, tfind k l = Some true -> ~ In (k, false) l.

Lemma tinv_add : forall l k fl, tinv l -> unseen k fl l -> tinv ((k, fl) :: l).
Proof.
  intros l k fl (ND & J) Hc.
  assert (Hno : forall f, In (k, f) l -> f = true /\ fl = false).
  { intros f Hin. destruct Hc as [Hn | [Ht Hf]]; [destruct (proj1 (tfind_none k l) Hn f Hin)|].
    split; [|exact Hf]. destruct f; [reflexivity | destruct (J k Ht Hin)]. }
  split.
  - constructor; [|exact ND]. intro H. destruct (Hno fl H) as [-> E]. discriminate.
  - intros k' Hf [H|H]; simpl in Hf.
    + injection H as <- ->. rewrite (proj2 (keq_eq k k) eq_refl) in Hf. discriminate.
    + destruct (keq k' k) eqn:E; [|exact (J k' Hf H)].
      apply keq_eq in E. subst k'. injection Hf as ->. destruct (Hno false H). discriminate.
Qed.
End Table.

Definition pentry := (name * name * bool)%type.
Definition pkeq (x y : name * name) : bool := String.eqb (fst x) (fst y) && String.eqb (snd x) (snd y).

Lemma eqb_pair_cases : forall a b x y,
  (String.eqb a x && String.eqb b y) = true <-> (a = x /\ b = y).
Proof.
  intros. rewrite andb_true_iff, !String.eqb_eq. reflexivity.
Qed.

Lemma pkeq_eq : forall x y, pkeq x y = true <-> x = y.
Proof.
  intros [a b] [x y]. unfold pkeq. simpl. rewrite eqb_pair_cases.
  split; [intros [-> ->]; reflexivity | intro H; injection H; auto].
Qed.

Lemma pair_find_tfind : forall a b l, pair_find a b l = tfind _ pkeq (a, b) l.
Proof. intros a b l. induction l as [|[[x y] f] r IH]; simpl; [|rewrite IH]; reflexivity. Qed.

Lemma pair_find_in : forall a b l f, pair_find a b l = Some f -> In (a, b, f) l.
Proof. intros a b l f. rewrite pair_find_tfind. apply (tfind_in _ pkeq pkeq_eq). Qed.

Definition pairs_inv (l : list pentry) : Prop :=
  NoDup l /\
  (forall a b, pair_find a b l = pair_find b a l) /\
  (forall a b, pair_find a b l = Some true -> ~ In (a, b, false) l).

Lemma pairs_inv_nil : pairs_inv [].
Proof. split; [constructor | split; [reflexivity | intros a b H; discriminate]]. Qed.

Lemma pairs_inv_add : forall l a b fl,
  pairs_inv l -> a <> b -> unseen _ pkeq (a, b) fl l -> pairs_inv ((a, b, fl) :: (b, a, fl) :: l).
Proof.
  intros l a b fl (ND & K & J) Hab Hc.
  assert (T : tinv _ pkeq ((a, b, fl) :: (b, a, fl) :: l)).
  { apply (tinv_add _ pkeq pkeq_eq); [apply (tinv_add _ pkeq pkeq_eq)|].
    - split; [exact ND|]. intros [x y] H. apply J. rewrite pair_find_tfind. exact H.
    - unfold unseen in *. rewrite <- !pair_find_tfind in *. rewrite <- K. exact Hc.
    - unfold unseen in *. simpl. destruct (pkeq (a, b) (b, a)) eqn:E; [|exact Hc].
      apply pkeq_eq in E. injection E as E _. destruct (Hab E). }
  destruct T as [ND' J']. split; [exact ND'|]. split.
  - intros x y. cbn [pair_find]. rewrite (andb_comm (String.eqb y a)), (andb_comm (String.eqb y b)).
    destruct (String.eqb x a && String.eqb y b), (String.eqb x b && String.eqb y a); try reflexivity. apply K.
  - intros x y H. apply (J' (x, y)). rewrite <- pair_find_tfind. exact H.
Qed.

Definition fentry4 := (ptype * N * name * bool)%type.

Lemma pt_eqb_eq : forall p q, pt_eqb p q = true <-> p = q.
Proof.
  intros [x|] [y|]; simpl; split; intro H; try discriminate; try reflexivity.
  - apply String.eqb_eq in H. subst. reflexivity.
  - inversion H. apply String.eqb_refl.
Qed.

Lemma ff_key_cases : forall p k g p' k' g',
  (pt_eqb p p' && N.eqb k k' && String.eqb g g') = true <-> (p = p' /\ k = k' /\ g = g').
Proof.
  intros. rewrite !andb_true_iff, pt_eqb_eq, N.eqb_eq, String.eqb_eq. tauto.
Qed.

Definition fkeq (x y : ptype * N * name) : bool :=
  pt_eqb (fst (fst x)) (fst (fst y)) && N.eqb (snd (fst x)) (snd (fst y)) && String.eqb (snd x) (snd y).

Lemma fkeq_eq : forall x y, fkeq x y = true <-> x = y.
Proof.
  intros [[p k] g] [[p' k'] g']. unfold fkeq. simpl. rewrite ff_key_cases.
  split; [intros (-> & -> & ->); reflexivity | intro H; injection H; auto].
Qed.

Lemma ff_find_tfind : forall p k g l, ff_find p k g l = tfind _ fkeq (p, k, g) l.
Proof. intros p k g l. induction l as [|[[[p' k'] g'] f] r IH]; simpl; [|rewrite IH]; reflexivity. Qed.

Definition ffs_inv (l : list fentry4) : Prop :=
  NoDup l /\ (forall p k g, ff_find p k g l = Some true -> ~ In (p, k, g, false) l).

Lemma ffs_inv_nil : ffs_inv [].
Proof. split; [constructor | intros p k g H; discriminate]. Qed.

Lemma ffs_inv_add : forall l p k g fl,
  ffs_inv l -> unseen _ fkeq (p, k, g) fl l -> ffs_inv ((p, k, g, fl) :: l).
Proof.
  intros l p k g fl (ND & J) Hc.
  destruct (tinv_add _ fkeq fkeq_eq l (p, k, g) fl) as [ND' J']; [|exact Hc|].
  - split; [exact ND|]. intros [[p' k'] g'] H. apply J. rewrite ff_find_tfind. exact H.
  - split; [exact ND'|]. intros p' k' g' H. apply (J' (p', k', g')). rewrite <- ff_find_tfind. exact H.
Qed.

Definition minv (D : document) (st : mst) : Prop :=
  pairs_inv (m_pairs st) /\ ffs_inv (m_ffs st) /\
  (forall a b f, In (a, b, f) (m_pairs st) -> frag D a <> None /\ frag D b <> None).

Lemma memo_invariant : forall S D memo fuel, minv D (final_state S D memo fuel).
Proof.
  intros S D memo fuel.
  refine (all_sets_run_sat (R := fun st st' => minv D st -> minv D st') (HR := _) S D memo _ _ _ _ fuel mst0 _); auto.
  - split; [intros st H; exact H | intros x y z H1 H2 H; exact (H2 (H1 H))].
  - intros st p k g fl Eh (Hp & Hf & Hd). split; [exact Hp|]. split; [|exact Hd].
    apply ffs_inv_add; [exact Hf|]. apply has_false. rewrite <- ff_find_tfind. exact Eh.
  - intros st g1 g2 fl E1 E2 Eg Eh (Hp & Hf & Hd). split; [|split; [exact Hf|]].
    + apply pairs_inv_add; [exact Hp | exact Eg|]. apply has_false. rewrite <- pair_find_tfind. exact Eh.
    + intros a b f [H|[H|H]]; [injection H as <- <- _; auto .. | apply (Hd a b f H)].
  - split; [apply pairs_inv_nil|]. split; [apply ffs_inv_nil|]. intros a b f [].
Qed.

Lemma last_fragment_name : forall g fs acc f,
  last_fragment g fs acc = Some f -> acc = Some f \/ (In f fs /\ fr_name f = g).
Proof.
  intros g fs. induction fs as [|x r IH]; intros acc f H; simpl in *; [left; exact H|].
  destruct (IH _ f H) as [E|[E1 E2]]; [|right; split; [right; exact E1 | exact E2]].
  destruct (String.eqb g (fr_name x)) eqn:Eg; [|left; exact E].
  injection E as <-. right. split; [left; reflexivity | symmetry; apply String.eqb_eq; exact Eg].
Qed.

Lemma frag_some : forall D g f, frag D g = Some f -> In f (d_frags D) /\ fr_name f = g.
Proof. intros D g f H. destruct (last_fragment_name _ _ _ _ H) as [E|E]; [discriminate | exact E]. Qed.

Lemma frag_body_in : forall S D g fr,
  frag D g = Some fr -> In (resolve S (fr_cond fr), fr_sel fr) (frag_bodies S D).
Proof.
  intros S D g fr Ef. destruct (frag_some D g fr Ef) as [Hin En].
  apply in_flat_map. exists fr. split; [exact Hin|]. rewrite En, Ef. left. reflexivity.
Qed.

Lemma frag_defined : forall D g, frag D g <> None -> In g (map fr_name (d_frags D)).
Proof.
  intros D g H. destruct (frag D g) as [f|] eqn:E; [|contradiction].
  destruct (frag_some D g f E) as [Hin <-]. apply in_map. exact Hin.
Qed.

Theorem memo_bound_pairs : forall S D fuel,
  let F := List.length (d_frags D) in
  List.length (m_pairs (final_state S D true fuel)) <= 2 * (F * F).
Proof.
  intros S D fuel F. destruct (memo_invariant S D true fuel) as ((ND & _) & _ & Hd).
  set (names := map fr_name (d_frags D)).
  apply (Nat.le_trans _ (List.length (list_prod (list_prod names names) [true; false]))).
  - apply (NoDup_incl_length ND). intros [[a b] f] Hin. destruct (Hd a b f Hin) as [Ha Hb].
    apply in_prod; [apply in_prod; apply frag_defined; assumption | destruct f; simpl; auto].
  - rewrite !prod_length. unfold names. rewrite map_length. fold F. simpl. lia.
Qed.

Theorem memo_bound_ffs : forall S D fuel (U : list (ptype * N * name)),
  (forall p k g f, In (p, k, g, f) (m_ffs (final_state S D true fuel)) -> In (p, k, g) U) ->
  List.length (m_ffs (final_state S D true fuel)) <= 2 * List.length U.
Proof.
  intros S D fuel U HU. destruct (memo_invariant S D true fuel) as (_ & (ND & _) & _).
  apply (Nat.le_trans _ (List.length (list_prod U [true; false]))).
  - apply (NoDup_incl_length ND). intros [[[p k] g] f] Hin.
    apply in_prod; [apply (HU p k g f Hin) | destruct f; simpl; auto].
  - rewrite prod_length. simpl. lia.
Qed.

Lemma nlist_eqb'_eq : forall a b, nlist_eqb' a b = true <-> a = b.
Proof.
  induction a as [|x a IH]; destruct b as [|y b]; simpl; split; intro H; try reflexivity; try discriminate.
  - apply andb_true_iff in H. destruct H as [H1 H2]. apply N.eqb_eq in H1. apply IH in H2. subst. reflexivity.
  - inversion H; subst. rewrite N.eqb_refl. simpl. apply IH. reflexivity.
Qed.

Lemma pkey_eqb_eq : forall a b, pkey_eqb a b = true <-> a = b.
Proof.
  intros [a1 a2] [b1 b2]. unfold pkey_eqb. simpl. rewrite andb_true_iff, String.eqb_eq, nlist_eqb'_eq.
  split; [intros [H1 H2]; subst; reflexivity | intro H; inversion H; auto].
Qed.

Lemma pkey_mem_in : forall k l, pkey_mem k l = true <-> In k l.
Proof.
  intros k l. induction l as [|x r IH]; simpl.
  - split; [discriminate | intros []].
  - rewrite orb_true_iff, IH, pkey_eqb_eq. split; intros [H|H]; auto.
Qed.

(* with sharing, no (parent type, merged selection sets) group is planned twice *)
Lemma plan_nodup : forall S D cfuel fuel T sets st,
  NoDup (p_memo st) -> NoDup (p_memo (plan S D true cfuel fuel T sets st)).
Proof.
  intros S D cfuel fuel. induction fuel as [|f IH]; intros T sets st H; simpl; [exact H|].
  destruct (pkey_mem (T, map first_id sets) (p_memo st)) eqn:E; [exact H|].
  assert (H1 : NoDup ((T, map first_id sets) :: p_memo st)).
  { constructor; [|exact H]. intro Hin. apply pkey_mem_in in Hin. congruence. }
  destruct (collect_all cfuel S D [] T sets [] []) as [groups|]; [|exact H1].
  apply (fold_inv (fun st => NoDup (p_memo st))); [|exact H1].
  intros st' [k occs] _ Hst'. simpl. destruct occs as [|o r]; [exact Hst'|].
  destruct (plan_field_ty S T (oc_name o)) as [t|]; [|exact Hst'].
  destruct (is_object_ty S (named_of t)); [|exact Hst'].
  apply IH. exact Hst'.
Qed.

(* ---- planning does not look at the possible types of abstract types beyond the object
   types it visits: two schemas that agree on the reachable object types give the same
   plan cost (adding implementers / union members changes neither) ---- *)
Section Congr.
Variable S S' : schema.
Variable D : document.
Variable R : name -> Prop.      (* the object types planning can reach *)
Hypothesis R_match : forall T c, R T -> fragment_matches S c T = fragment_matches S' c T.
Hypothesis R_fields : forall T nm, R T -> plan_field_ty S T nm = plan_field_ty S' T nm.
Hypothesis R_closed : forall T nm t, R T -> plan_field_ty S T nm = Some t ->
                                     is_object_ty S (named_of t) = true -> R (named_of t).
Hypothesis R_obj : forall T nm t, R T -> plan_field_ty S T nm = Some t ->
                                  is_object_ty S (named_of t) = is_object_ty S' (named_of t).
Hypothesis incl_agree : forall ds vars, included S ds vars = included S' ds vars.

Lemma collect_congr : forall fuel vars T sels visited g, R T ->
  collect fuel S D vars T sels visited g = collect fuel S' D vars T sels visited g.
Proof.
  intros fuel vars T sels visited g HT. revert sels visited g.
  induction fuel as [|f IH]; intros sels visited g; cbn [collect]; [reflexivity|].
  destruct sels as [|[id al nm args ds sub | id nm ds | id tc ds sub] rest]; [reflexivity | | |]; rewrite incl_agree.
  - destruct (included S' ds vars); apply IH.
  - destruct (included S' ds vars && negb (nmem nm visited)); [|apply IH].
    destruct (find_fragment nm (d_frags D)) as [fr|]; [|apply IH].
    rewrite (R_match T (Some (fr_cond fr)) HT). destruct (fragment_matches S' (Some (fr_cond fr)) T); [|apply IH].
    rewrite IH. destruct (collect f S' D vars T (fr_sel fr) (nm :: visited) g) as [[g' v']|]; [apply IH | reflexivity].
  - rewrite (R_match T tc HT). destruct (included S' ds vars && fragment_matches S' tc T); [|apply IH].
    rewrite IH. destruct (collect f S' D vars T sub visited g) as [[g' v']|]; [apply IH | reflexivity].
Qed.

Lemma collect_all_congr : forall fuel vars T sets visited g, R T ->
  collect_all fuel S D vars T sets visited g = collect_all fuel S' D vars T sets visited g.
Proof.
  intros fuel vars T sets. induction sets as [|s r IH]; intros visited g HT; simpl; [reflexivity|].
  rewrite (collect_congr fuel vars T s visited g HT).
  destruct (collect fuel S' D vars T s visited g) as [[g' v']|]; [|reflexivity].
  apply IH. exact HT.
Qed.

Lemma plan_congr : forall share cfuel fuel T sets st, R T ->
  plan S D share cfuel fuel T sets st = plan S' D share cfuel fuel T sets st.
Proof.
  intros share cfuel fuel. induction fuel as [|f IH]; intros T sets st HT; simpl; [reflexivity|].
  destruct (share && pkey_mem (T, map first_id sets) (p_memo st)); [reflexivity|].
  rewrite (collect_all_congr cfuel [] T sets [] [] HT).
  destruct (collect_all cfuel S' D [] T sets [] []) as [groups|]; [|reflexivity].
  match goal with |- fold_left _ _ ?a = fold_left _ _ ?a => generalize a end.
  induction groups as [|[k occs] r IHg]; intros st0; simpl; [reflexivity|].
  destruct occs as [|o occs']; [apply IHg|].
  rewrite <- (R_fields T (oc_name o) HT).
  destruct (plan_field_ty S T (oc_name o)) as [t|] eqn:Et; [|apply IHg].
  rewrite <- (R_obj T (oc_name o) t HT Et).
  destruct (is_object_ty S (named_of t)) eqn:Eo; [|apply IHg].
  rewrite (IH (named_of t) _ st0 (R_closed T (oc_name o) t HT Et Eo)). apply IHg.
Qed.
End Congr.

(* the search of NoFragmentCycles descends into every fragment at most once *)

Section CycleCost.
Variable W : wdoc.
Notation names := (map wf_name (w_frags W)).

Definition vinv (st : cyc) : Prop := NoDup (cy_visited st) /\ incl (cy_visited st) names.

Lemma detect_vinv : forall fuel f path idx st,
  In f (w_frags W) -> ~ In (wf_name f) (cy_visited st) -> vinv st -> vinv (detect W fuel f path idx st).
Proof.
  induction fuel as [|fu IH]; intros f path idx st Hf Hn Hv; [exact Hv|]. cbn [detect].
  assert (H1 : vinv {| cy_visited := wf_name f :: cy_visited st; cy_errs := cy_errs st |}).
  { destruct Hv as [ND Hi]. split; simpl.
    - constructor; assumption.
    - intros x [Hx|Hx]; [subst; apply in_map; exact Hf | apply Hi; exact Hx]. }
  destruct (ctx_spreads (wf_sel f)) as [|sp0 sps]; [exact H1|].
  apply (fold_inv vinv); [|exact H1]. intros st' sp _ Hv'.
  destruct (alookup (snd (snd sp)) ((wf_name f, Datatypes.length path) :: idx)); [exact Hv'|].
  destruct (nmem (snd (snd sp)) (cy_visited st')) eqn:Ev; [exact Hv'|].
  destruct (fragw W (snd (snd sp))) as [sf|] eqn:Efw; [|exact Hv'].
  destruct (fragw_some W _ _ Efw) as [Hsf Hname]. apply IH; [exact Hsf | | exact Hv'].
  rewrite Hname. apply nmem_not_in. exact Ev.
Qed.

Theorem cycle_search_bound : cycle_search_calls W <= List.length (w_frags W).
Proof.
  unfold cycle_search_calls.
  match goal with |- Datatypes.length (cy_visited ?fin) <= _ => assert (V : vinv fin) end.
  { apply (fold_inv vinv).
    - intros st f Hf Hv. destruct (nmem (wf_name f) (cy_visited st)) eqn:Ev; [exact Hv|].
      apply detect_vinv; [exact Hf | apply nmem_not_in; exact Ev | exact Hv].
    - split; [constructor | intros x []]. }
  destruct V as [ND Hi].
  apply (Nat.le_trans _ (List.length names)); [apply NoDup_incl_length; assumption | rewrite map_length; lia].
Qed.

End CycleCost.

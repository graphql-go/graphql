(* Proofs for C12: sorting makes the output independent of the order oracle. *)
From Coq Require Import List NArith Bool Permutation Sorted.
From GQL Require Import Ext.Determinism.
Import ListNotations.
Open Scope N_scope.

Section Unique.
  Variable A : Type.
  Variable le : A -> A -> Prop.
  Hypothesis le_antisym : forall a b, le a b -> le b a -> a = b.

  Lemma sorted_perm_unique : forall l1 l2,
    StronglySorted le l1 -> StronglySorted le l2 -> Permutation l1 l2 -> l1 = l2.
  Proof.
    induction l1 as [|a r1 IH]; intros l2 S1 S2 P.
    - apply Permutation_nil in P. symmetry. exact P.
    - destruct l2 as [|b r2]; [apply Permutation_sym, Permutation_nil in P; discriminate|].
      inversion S1 as [|? ? S1r F1]; subst. inversion S2 as [|? ? S2r F2]; subst.
      assert (E : a = b).
      { assert (Ia : In a (b :: r2)) by (eapply Permutation_in; [exact P | left; reflexivity]).
        assert (Ib : In b (a :: r1)) by (eapply Permutation_in; [apply Permutation_sym; exact P | left; reflexivity]).
        destruct Ia as [Ia|Ia]; [symmetry; exact Ia|].
        destruct Ib as [Ib|Ib]; [exact Ib|].
        apply le_antisym.
        - rewrite Forall_forall in F1. apply F1. exact Ib.
        - rewrite Forall_forall in F2. apply F2. exact Ia. }
      subst b. f_equal. apply IH; [exact S1r | exact S2r |].
      eapply Permutation_cons_inv. exact P.
  Qed.

  (* any correct sorting function: sort.Sort, sort.Strings, sort.Stable, ... *)
  Variable srt : list A -> list A.
  Hypothesis srt_sorted : forall l, StronglySorted le (srt l).
  Hypothesis srt_perm : forall l, Permutation (srt l) l.

  Theorem sort_of_permutation : forall l1 l2, Permutation l1 l2 -> srt l1 = srt l2.
  Proof.
    intros l1 l2 P. apply sorted_perm_unique; try apply srt_sorted.
    eapply Permutation_trans; [apply srt_perm|]. eapply Permutation_trans; [exact P|].
    apply Permutation_sym. apply srt_perm.
  Qed.
End Unique.

Section Isort.
  Variable A : Type.
  Variable leb : A -> A -> bool.
  Hypothesis leb_total : forall a b, leb a b = true \/ leb b a = true.
  Hypothesis leb_trans : forall a b c, leb a b = true -> leb b c = true -> leb a c = true.

  Definition leP (a b : A) : Prop := leb a b = true.

  Lemma insert_perm : forall a l, Permutation (insert leb a l) (a :: l).
  Proof.
    intros a. induction l as [|b r IH]; cbn [insert]; [apply Permutation_refl|].
    destruct (leb a b); [apply Permutation_refl|].
    eapply Permutation_trans; [apply perm_skip; exact IH | apply perm_swap].
  Qed.

  Lemma isort_perm : forall l, Permutation (isort leb l) l.
  Proof.
    induction l as [|a r IH]; cbn [isort]; [apply Permutation_refl|].
    eapply Permutation_trans; [apply insert_perm | apply perm_skip; exact IH].
  Qed.

  Lemma insert_sorted : forall a l, StronglySorted leP l -> StronglySorted leP (insert leb a l).
  Proof.
    intros a. induction l as [|b r IH]; intros S; cbn [insert].
    - constructor; [constructor | constructor].
    - inversion S as [|? ? Sr F]; subst. destruct (leb a b) eqn:E.
      + constructor; [exact S|]. constructor; [exact E|].
        rewrite Forall_forall in *. intros x I. eapply leb_trans; [exact E | apply F; exact I].
      + constructor; [apply IH; exact Sr|].
        rewrite Forall_forall in *. intros x I.
        assert (I' : In x (a :: r)) by (eapply Permutation_in; [apply insert_perm | exact I]).
        destruct I' as [I'|I']; [subst x | apply F; exact I'].
        destruct (leb_total a b) as [T|T]; [rewrite T in E; discriminate | exact T].
  Qed.

  Lemma isort_sorted : forall l, StronglySorted leP (isort leb l).
  Proof. induction l as [|a r IH]; cbn [isort]; [constructor | apply insert_sorted; exact IH]. Qed.

  Hypothesis leb_antisym : forall a b, leb a b = true -> leb b a = true -> a = b.

  Theorem isort_of_permutation : forall l1 l2, Permutation l1 l2 -> isort leb l1 = isort leb l2.
  Proof.
    apply (sort_of_permutation A leP leb_antisym (isort leb) isort_sorted isort_perm).
  Qed.
End Isort.

Lemma filter_perm : forall A (p : A -> bool) l1 l2, Permutation l1 l2 -> Permutation (filter p l1) (filter p l2).
Proof.
  intros A p l1 l2 P. induction P as [|x l l' P IH|x y l|l l' l'' P1 IH1 P2 IH2]; cbn [filter].
  - apply Permutation_refl.
  - destruct (p x); [apply perm_skip|]; exact IH.
  - destruct (p x), (p y); try apply Permutation_refl. apply perm_swap.
  - eapply Permutation_trans; eassumption.
Qed.

Definition lexb (d1 d2 : N) (rest : bool) : bool := (d1 <? d2) || ((d1 =? d2) && rest).

Lemma lexb_cases : forall d1 d2 p, lexb d1 d2 p = true <-> d1 < d2 \/ (d1 = d2 /\ p = true).
Proof. intros. unfold lexb. rewrite orb_true_iff, andb_true_iff, N.ltb_lt, N.eqb_eq. reflexivity. Qed.

Lemma lexb_total : forall d1 d2 p q, p = true \/ q = true -> lexb d1 d2 p = true \/ lexb d2 d1 q = true.
Proof.
  intros d1 d2 p q H. destruct (N.lt_trichotomy d1 d2) as [L|[E|L]]; [left; apply lexb_cases; auto | | right; apply lexb_cases; auto].
  subst. destruct H; [left | right]; apply lexb_cases; auto.
Qed.

Lemma lexb_trans : forall d1 d2 d3 p q r, (p = true -> q = true -> r = true) ->
  lexb d1 d2 p = true -> lexb d2 d3 q = true -> lexb d1 d3 r = true.
Proof.
  intros d1 d2 d3 p q r H A B. apply lexb_cases in A. apply lexb_cases in B. apply lexb_cases.
  destruct A as [A|[-> A']], B as [B|[-> B']];
    [left; eapply N.lt_trans; eassumption | left; exact A | left; exact B | right; split; [reflexivity | auto]].
Qed.

Lemma lexb_antisym : forall d1 d2 p q, lexb d1 d2 p = true -> lexb d2 d1 q = true -> d1 = d2 /\ p = true /\ q = true.
Proof.
  intros d1 d2 p q A B. apply lexb_cases in A. apply lexb_cases in B.
  destruct A as [A|[E A']], B as [B|[E' B']]; [destruct (N.lt_asymm _ _ A B) | | | auto]; subst.
  - destruct (N.lt_irrefl _ A).
  - destruct (N.lt_irrefl _ B).
Qed.

Section SiteProofs.
  Variable K V O : Type.
  Variable leb : K -> K -> bool.
  Hypothesis leb_total : forall a b, leb a b = true \/ leb b a = true.
  Hypothesis leb_trans : forall a b c, leb a b = true -> leb b c = true -> leb a c = true.
  Hypothesis leb_antisym : forall a b, leb a b = true -> leb b a = true -> a = b.

  (* an order oracle only permutes *)
  Definition is_oracle (o : oracle K V) : Prop := forall m, Permutation (o m) m.

  Lemma oracles_agree : forall o1 o2 m, is_oracle o1 -> is_oracle o2 -> Permutation (o1 m) (o2 m).
  Proof.
    intros o1 o2 m H1 H2. eapply Permutation_trans; [apply H1 | apply Permutation_sym; apply H2].
  Qed.

  Theorem sorted_keys_independent : forall o1 o2 m, is_oracle o1 -> is_oracle o2 ->
    sorted_keys K V leb o1 m = sorted_keys K V leb o2 m.
  Proof.
    intros o1 o2 m H1 H2. unfold sorted_keys.
    apply (isort_of_permutation K leb leb_total leb_trans leb_antisym).
    apply Permutation_map. apply oracles_agree; assumption.
  Qed.

  Theorem site_by_name_independent : forall (f : K -> list O) o1 o2 m, is_oracle o1 -> is_oracle o2 ->
    site_by_name K V O leb f o1 m = site_by_name K V O leb f o2 m.
  Proof.
    intros f o1 o2 m H1 H2. unfold site_by_name. rewrite (sorted_keys_independent o1 o2 m H1 H2). reflexivity.
  Qed.

  (* (distance, name) is a total order without ties between different names *)
  Lemma lex_total : forall a b, lex_leb K leb a b = true \/ lex_leb K leb b a = true.
  Proof. intros a b. apply lexb_total, leb_total. Qed.

  Lemma lex_trans : forall a b c, lex_leb K leb a b = true -> lex_leb K leb b c = true -> lex_leb K leb a c = true.
  Proof. intros a b c. apply lexb_trans, leb_trans. Qed.

  Lemma lex_antisym : forall a b, lex_leb K leb a b = true -> lex_leb K leb b a = true -> a = b.
  Proof.
    intros [d1 k1] [d2 k2] H1 H2. destruct (lexb_antisym _ _ _ _ H1 H2) as (E & P & Q). cbn [fst snd] in *.
    subst d2. f_equal. apply leb_antisym; assumption.
  Qed.

  Variable dist : K -> K -> N.
  Variable keep : K -> K -> N -> bool.

  Theorem site_suggestions_independent : forall input o1 o2 m, is_oracle o1 -> is_oracle o2 ->
    site_suggestions K V leb dist keep input o1 m = site_suggestions K V leb dist keep input o2 m.
  Proof.
    intros input o1 o2 m H1 H2. unfold site_suggestions. f_equal.
    apply (isort_of_permutation (N * K) (lex_leb K leb) lex_total lex_trans lex_antisym).
    apply filter_perm. apply Permutation_map. apply Permutation_map. apply oracles_agree; assumption.
  Qed.
End SiteProofs.

(* the byte-wise string order of sort.Strings is such an order *)
Fixpoint bytes_leb (a b : list N) : bool :=
  match a, b with
  | [], _ => true
  | _ :: _, [] => false
  | x :: r, y :: s => (x <? y) || ((x =? y) && bytes_leb r s)
  end.

Lemma bytes_leb_total : forall a b, bytes_leb a b = true \/ bytes_leb b a = true.
Proof. induction a as [|x r IH]; intros [|y s]; cbn [bytes_leb]; auto. apply lexb_total, IH. Qed.

Lemma bytes_leb_trans : forall a b c, bytes_leb a b = true -> bytes_leb b c = true -> bytes_leb a c = true.
Proof.
  induction a as [|x r IH]; intros [|y s] [|z t]; try reflexivity; try discriminate. apply lexb_trans, IH.
Qed.

Lemma bytes_leb_antisym : forall a b, bytes_leb a b = true -> bytes_leb b a = true -> a = b.
Proof.
  induction a as [|x r IH]; intros [|y s] H1 H2; try reflexivity; try discriminate.
  destruct (lexb_antisym _ _ _ _ H1 H2) as (-> & P & Q). f_equal. apply IH; assumption.
Qed.

(* History independence on the persisted-state machine (Ext/History.v) *)
From GQL Require Import Ext.History.

Section HistoryProofs.
  Variable val resp : Type.
  Variable init : N -> val.

  Lemma wf_empty : wf val init (empty val).
  Proof. intros s v H. discriminate. Qed.

  Lemma wf_set : forall f s o, (forall v, o = Some v -> v = init s) ->
    (forall s' v, f s' = Some v -> v = init s') ->
    forall s' v, set_slot val f s o s' = Some v -> v = init s'.
  Proof.
    intros f s o Ho H s' v E. unfold set_slot in E.
    destruct (N.eqb_spec s' s) as [->|Q]; [apply Ho, E | apply H, E].
  Qed.

  Lemma exec_wf : forall p st, wf val init st ->
    fst (exec val resp init p st) = answer val resp init p /\ wf val init (snd (exec val resp init p st)).
  Proof.
    induction p as [r|s k IH]; intros st W; [split; [reflexivity | exact W]|].
    cbn [exec answer]. destruct (slots val st s) as [v|] eqn:E.
    - rewrite (W s v E). apply IH. exact W.
    - apply IH. unfold wf. cbn [slots]. apply wf_set; [intros v0 [= <-]; reflexivity | exact W].
  Qed.

  Lemma step_wf : forall st o, wf val init st -> wf val init (step val resp init st o).
  Proof.
    intros st [p|s|] W; cbn [step].
    - apply exec_wf. exact W.
    - unfold wf. cbn [slots]. apply wf_set; [discriminate | exact W].
    - apply wf_empty.
  Qed.

  Lemma run_from_wf : forall h st, wf val init st -> wf val init (run_from val resp init st h).
  Proof.
    induction h as [|o r IH]; intros st W; [exact W|]. cbn [run_from fold_left]. apply IH. apply step_wf. exact W.
  Qed.

  Theorem history_independent : forall h p,
    fst (exec val resp init p (run val resp init h)) = fst (exec val resp init p (empty val)).
  Proof.
    intros h p.
    destruct (exec_wf p (run val resp init h) (run_from_wf h (empty val) wf_empty)) as [A _].
    destruct (exec_wf p (empty val) wf_empty) as [B _]. rewrite A, B. reflexivity.
  Qed.

  Theorem history_independent_from : forall st h p, wf val init st ->
    fst (exec val resp init p (run_from val resp init st h)) = answer val resp init p.
  Proof. intros st h p W. apply exec_wf. apply run_from_wf. exact W. Qed.
End HistoryProofs.

(* The lexer model reads exactly the punctuator table Tables/LexerTable.v. *)
From Coq Require Import List NArith Bool Lia.
From GQL Require Import Base.Bytes Syntax.Lexer Tables.LexerTable.
Import ListNotations.
Open Scope N_scope.

Lemma punct1_is_table : forall code, punct1 code = punct_lookup code punct_table.
Proof.
  intros [|p]; [reflexivity|].
  do 8 (destruct p as [p|p|]; try reflexivity).
Qed.

Lemma punct_lookup_in : forall code l k, punct_lookup code l = Some k -> In (code, k) l.
Proof.
  induction l as [|[c k0] r IH]; intros k H; [discriminate|]. simpl in H.
  destruct (N.eqb_spec code c) as [->|_]; [injection H as ->; left; reflexivity|right; exact (IH _ H)].
Qed.

(* what read_token asks of a byte before it looks it up, checked on each entry of the table *)
Lemma punct_table_bytes : forall code k, punct_lookup code punct_table = Some k ->
  code < 128 /\ (code <? 32) && negb (code =? 9) && negb (code =? 10) && negb (code =? 13) = false.
Proof.
  intros code k H. apply punct_lookup_in in H.
  assert (F : Forall (fun ck : N * tkind => let c := fst ck in c < 128 /\
                (c <? 32) && negb (c =? 9) && negb (c =? 10) && negb (c =? 13) = false) punct_table)
    by (repeat (constructor; [split; reflexivity|]); constructor).
  exact (proj1 (Forall_forall _ _) F _ H).
Qed.

Lemma read_token_punct : forall code k, punct_lookup code punct_table = Some k ->
  forall fuel s pos, read_token fuel (code :: s) pos = Ok (mktok k pos (pos + 1) [], s, pos + 1).
Proof.
  intros code k H fuel s pos. destruct (punct_table_bytes code k H) as [Hlt Hc].
  unfold read_token, rune_at. apply N.ltb_lt in Hlt. rewrite Hlt, Hc, punct1_is_table, H. reflexivity.
Qed.

Lemma read_token_spread : forall fuel s pos,
  read_token fuel (spread_first :: spread_rest ++ s) pos
  = Ok (mktok SPREAD pos (pos + (1 + nlen spread_rest)) [], s, pos + (1 + nlen spread_rest)).
Proof. intros fuel s pos. reflexivity. Qed.

Lemma read_token_dot_alone : forall fuel s pos, starts_with spread_rest s = false ->
  read_token fuel (spread_first :: s) pos = Err.
Proof.
  intros fuel s pos H. unfold spread_first, spread_rest in *.
  unfold read_token, rune_at.
  change (46 <? 128) with true. cbv iota.
  change ((46 <? 32) && negb (46 =? 9) && negb (46 =? 10) && negb (46 =? 13)) with false. cbv iota.
  change (punct1 46) with (@None tkind). cbv iota.
  change (46 =? 46) with true. cbv iota.
  change (dropN 1 (46 :: s)) with s.
  rewrite H. reflexivity.
Qed.

Lemma forall_bytes256 : forall P : N -> bool,
  forallb P bytes256 = true -> forall c, c < 256 -> P c = true.
Proof.
  intros P H c Hc. rewrite forallb_forall in H. apply H.
  unfold bytes256. apply in_map_iff. exists (N.to_nat c). split; [apply N2Nat.id|].
  apply in_seq. lia.
Qed.

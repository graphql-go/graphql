(* The planned executor (Exec/PlanExec.v: PlanQuery once, ExecutePlan many times) refines the reference
   executor (Exec/Exec.v + Exec/Request.v: CollectFields at every object value).

   Shape of the proof: [wf_plan] says what the walker relies on (a static level holds the groups
   CollectFields yields for *every* variable assignment; the sub-plan of a field is a well-formed plan
   for the field's merged sub-selections under the return type -- for an abstract return type, under
   every runtime type).  [plan_of_wf]: the planner only builds well-formed plans.  [sim]: a finished step
   of the walker is the reference executor's step on the erased result; [sim_bind] carries it through
   sequencing.  [sim_all]: one induction on the walker's fuel, the four mutually recursive functions in
   lock-step with the reference executor, which gets [pf] more fuel (the plan-time collections were run
   with at most [pf]). *)
From Coq Require Import List ZArith NArith String Bool.
From GQL Require Import Exec.Syntax Exec.Coerce Exec.Exec Exec.PlanCollect Exec.Request Exec.PlanExec
     Proofs.CoerceProofs Proofs.PlanCollectProofs.
From GQL Require Proofs.TotalCollect Proofs.TotalDethunk.
Import ListNotations.
Open Scope string_scope.
Open Scope list_scope.

Lemma plan_field_wf : forall pf S D k obj rec key occs f,
  (forall o sets pl, rec o sets = Some pl -> wf_plan pf S D o sets pl) -> k <= pf ->
  plan_field k S obj rec (key, occs) = Some f -> wf_field pf S D obj key occs f.
Proof.
  intros pf S D k obj rec key occs f Hrec Hle H. unfold plan_field in H.
  destruct (find_field _ (object_fields S obj)) as [fd|] eqn:Ef;
    [|inversion H; subst; apply wf_field_unknown, Ef].
  destruct (plan_args k S (f_args fd) _) as [ap|] eqn:Ea; [|discriminate].
  destruct (plan_sub S rec (f_type fd) occs) as [sub|] eqn:Es; [|discriminate].
  inversion H; subst. apply wf_field_known; [exact Ef| |].
  - (* planArguments: all-literal arguments are coerced now, the same for every variable assignment *)
    unfold plan_args in Ea. destruct (args_have_vars _) eqn:Ev; [inversion Ea; constructor|].
    destruct (get_argument_values k S (f_args fd) _ None) as [a|] eqn:Eg; [|discriminate].
    inversion Ea; subst. constructor. intro vars.
    eapply TotalDethunk.get_argument_values_fuel_mono; [|exact Hle].
    rewrite <- (get_argument_values_novars k S _ _ vars Ev). exact Eg.
  - (* planMergedFieldChildren *)
    unfold plan_sub in Es. destruct (type_kind S (named_of (f_type fd))) eqn:Ek.
    + destruct (rec (named_of (f_type fd)) (map oc_sub occs)) as [pl|] eqn:Er; [|discriminate].
      inversion Es; subst. apply wf_sub_object; [exact Ek|apply Hrec, Er].
    + inversion Es; subst. apply wf_sub_abstract; [exact Ek|]. intros rt pl Hr. apply Hrec, Hr.
    + apply wf_sub_other, Ek.
Qed.

Lemma plan_fields_wf_gen : forall pf S D k obj rec,
  (forall o sets pl, rec o sets = Some pl -> wf_plan pf S D o sets pl) -> k <= pf ->
  forall g fs, omap (plan_field k S obj rec) g = Some fs -> wf_fields pf S D obj g fs.
Proof.
  intros pf S D k obj rec Hrec Hle. induction g as [|[key occs] g IH]; intros fs H.
  - inversion H. constructor.
  - destruct (omap_cons _ _ _ _ H) as (f & fs' & Ef & Eo & ->).
    constructor; [eapply plan_field_wf; eassumption|apply IH, Eo].
Qed.

Lemma plan_of_wf : forall pf S D k, k <= pf ->
  forall obj sets pl, plan_of k S D obj sets = Some pl -> wf_plan pf S D obj sets pl.
Proof.
  intros pf S D. induction k as [|k IH]; intros Hle obj sets pl H; [discriminate|].
  cbn [plan_of] in H.
  destruct (plan_all k S D obj sets [] [] false) as [[[g v] [|]]|] eqn:E; [| |discriminate].
  - inversion H; subst. constructor.
  - destruct (omap (plan_field k S obj (plan_of k S D)) g) as [fs|] eqn:Eo; [|discriminate].
    inversion H; subst. apply wf_static with (g := g).
    + intro vars. eapply TotalCollect.collect_all_fuel_mono; [|apply Nat.lt_le_incl; exact Hle].
      apply (plan_all_static_saw _ _ _ _ _ _ _ _ _ _ E).
    + eapply plan_fields_wf_gen; [|apply Nat.lt_le_incl; exact Hle|exact Eo].
      intros o sets' pl' Hp. eapply IH; [apply Nat.lt_le_incl, Hle|exact Hp].
Qed.

Lemma plan_fields_wf : forall pf S D obj g fs,
  plan_fields pf S D obj g = Some fs -> wf_fields pf S D obj g fs.
Proof.
  intros pf S D obj g fs H. unfold plan_fields in H.
  eapply plan_fields_wf_gen; [|apply le_n|exact H].
  intros o sets pl Hp. eapply plan_of_wf; [apply le_n|exact Hp].
Qed.

Lemma wf_field_key : forall pf S D obj k occs f, wf_field pf S D obj k occs f -> pf_key f = k.
Proof. intros pf S D obj k occs f H. inversion H; reflexivity. Qed.

Lemma wf_sub_object_inv : forall pf S D n occs sub fs ifs,
  wf_sub pf S D n occs sub -> lookup_type S n = Some (TObject fs ifs) ->
  exists pl, sub = SubObject pl /\ wf_plan pf S D n (map oc_sub occs) pl.
Proof.
  intros pf S D n occs sub fs ifs H El. destruct H as [n occs pl Hk Hpl|n occs alt Hk Halt|n occs sub Hk];
    unfold type_kind in Hk; rewrite El in Hk; try discriminate. eauto.
Qed.

Lemma wf_sub_abstract_inv : forall pf S D n occs sub,
  wf_sub pf S D n occs sub -> type_kind S n = KAbstract ->
  exists alt, sub = SubAbstract alt /\ forall rt pl, alt rt = Some pl -> wf_plan pf S D rt (map oc_sub occs) pl.
Proof.
  intros pf S D n occs sub H El. destruct H as [n occs pl Hk Hpl|n occs alt Hk Halt|n occs sub Hk];
    rewrite El in Hk; try discriminate. eauto.
Qed.

Section Sim.
  Variables (pf : nat) (E : env).
  Local Notation qwf' := (qwf pf (en_S E) (en_D E)).
  Local Notation wf_sub' := (wf_sub pf (en_S E) (en_D E)).
  Local Notation wf_plan' := (wf_plan pf (en_S E) (en_D E)).
  Local Notation wf_fields' := (wf_fields pf (en_S E) (en_D E)).
  Local Notation wf_field' := (wf_field pf (en_S E) (en_D E)).

  Definition efields (l : list (name * qresp)) : list (name * presp) :=
    map (fun kv => (fst kv, erase (snd kv))) l.

  (* a finished step of the walker is the step of the reference executor on the erased result, and
     what it returns is well formed; unfinished: no claim *)
  Definition sim {A B} (er : A -> B) (W : A -> Prop) (r : xres A) (r' : xres B) : Prop :=
    match r with
    | XOk a s => r' = XOk (er a) s /\ W a
    | XRaise e s => r' = XRaise e s
    | XFuel => True
    end.
  Local Notation sim1 := (sim erase qwf').
  Local Notation simL := (sim (map erase) (Forall qwf')).
  Local Notation simF := (sim efields (Forall (fun kv : name * qresp => qwf' (snd kv)))).
  Local Notation simO := (sim (option_map erase) (fun o => match o with Some q => qwf' q | None => True end)).

  Lemma sim_bind : forall A B A' B' (er : A -> B) W (er' : A' -> B') W' r r' k k',
    sim er W r r' -> (forall a s, W a -> sim er' W' (k a s) (k' (er a) s)) ->
    sim er' W' (match r with XOk a s => k a s | XRaise e s => XRaise e s | XFuel => XFuel end)
               (match r' with XOk b s => k' b s | XRaise e s => XRaise e s | XFuel => XFuel end).
  Proof.
    intros A B A' B' er W er' W' r r' k k' H Hk. destruct r as [a s|e s|]; cbn [sim] in H.
    - destruct H as [-> Ha]. apply Hk, Ha.
    - subst r'. reflexivity.
    - exact I.
  Qed.

  Lemma sim_catch : forall t r r', sim1 r r' -> sim1 (pcatch_at t r) (catch_at t r').
  Proof.
    intros t r r' H. destruct r as [q s|e s|]; cbn [sim pcatch_at] in *.
    - destruct H as [-> Hq]. split; [reflexivity|exact Hq].
    - subst r'. cbn [catch_at]. destruct (is_nonnull t); [reflexivity|]. split; [reflexivity|constructor].
    - exact I.
  Qed.

  Lemma pitems_sim : forall cmp cmp',
    (forall i x s, sim1 (cmp i x s) (cmp' i x s)) ->
    forall l i s, simL (pitems_loop cmp l i s) (items_loop cmp' l i s).
  Proof.
    intros cmp cmp' H. induction l as [|x r IH]; intros i s; cbn [pitems_loop items_loop].
    - split; [reflexivity|constructor].
    - eapply sim_bind; [apply H|]. intros y sy Hy. eapply sim_bind; [apply IH|]. intros ys sys Hys.
      split; [reflexivity|constructor; assumption].
  Qed.

  Lemma pdethunk_list_sim : forall f f',
    (forall q s, qwf' q -> sim1 (f q s) (f' (erase q) s)) ->
    forall l s, Forall qwf' l -> simL (pdethunk_list f l s) (dethunk_list f' (map erase l) s).
  Proof.
    intros f f' H. induction l as [|x r IH]; intros s Hl; cbn [pdethunk_list dethunk_list map].
    - split; [reflexivity|constructor].
    - inversion Hl as [|? ? Hx Hr]; subst.
      eapply sim_bind; [apply H, Hx|]. intros y sy Hy. eapply sim_bind; [apply IH, Hr|]. intros ys sys Hys.
      split; [reflexivity|constructor; assumption].
  Qed.

  Lemma pdethunk_fields_sim : forall f f',
    (forall q s, qwf' q -> sim1 (f q s) (f' (erase q) s)) ->
    forall l s, Forall (fun kv : name * qresp => qwf' (snd kv)) l ->
    simF (pdethunk_fields f l s) (dethunk_fields f' (efields l) s).
  Proof.
    intros f f' H. induction l as [|[k x] r IH]; intros s Hl;
      cbn [pdethunk_fields dethunk_fields efields map fst snd].
    - split; [reflexivity|constructor].
    - inversion Hl as [|? ? Hx Hr]; subst.
      eapply sim_bind; [apply H, Hx|]. intros y sy Hy. eapply sim_bind; [apply IH, Hr|]. intros ys sys Hys.
      split; [reflexivity|constructor; assumption].
  Qed.

  Lemma args_sim : forall n m defs fargs ap a,
    wf_args pf (en_S E) defs fargs ap -> n <= m -> pf <= m ->
    match ap with
    | ArgStatic a => Some a
    | ArgDynamic => get_argument_values n (en_S E) defs fargs (Some (en_vars E))
    end = Some a ->
    get_argument_values m (en_S E) defs fargs (Some (en_vars E)) = Some a.
  Proof.
    intros n m defs fargs ap a Hwf Hn Hp H. inversion Hwf as [|a0 Ha]; subst.
    - eapply TotalDethunk.get_argument_values_fuel_mono; eassumption.
    - inversion H; subst. eapply TotalDethunk.get_argument_values_fuel_mono; [apply Ha|exact Hp].
  Qed.

  (* moves a [let] at the head of either side into the context, so that what it binds stays shared
     (zeta-expanding resolvePlannedField / ExecuteField copies the state record some thirty times) *)
  Ltac sim_let :=
    match goal with
    | |- sim ?er ?W (let x := ?a in @?f x) (let y := ?a in @?g y) =>
      change (let x := a in sim er W (f x) (g x)); intro; cbv beta
    | |- sim ?er ?W (let x := ?a in @?f x) ?r' => change (let x := a in sim er W (f x) r'); intro; cbv beta
    | |- sim ?er ?W ?r (let x := ?a in @?g x) => change (let x := a in sim er W r (g x)); intro; cbv beta
    end.

  Lemma pexec_field_sim : forall n m cmp cmp' dth dth' obj src k occs f p s,
    n <= m -> pf <= m ->
    wf_field' obj k occs f ->
    (forall t nodes sub fpath p v s, wf_sub' (named_of t) occs sub ->
       sim1 (cmp t nodes occs sub fpath p v s) (cmp' t nodes occs fpath p v s)) ->
    (forall q s, qwf' q -> sim1 (dth q s) (dth' (erase q) s)) ->
    simO (pexec_field n cmp dth E obj src f p s) (Exec.exec_field m cmp' dth' E obj src k occs p s).
  Proof.
    intros n m cmp cmp' dth dth' obj src k occs f p s Hn Hp Hwf Hcmp Hdth.
    destruct Hwf as [obj k occs ap sub Hff|obj k occs fd ap sub Hff Hargs Hsub];
      cbv beta iota delta [pexec_field Exec.exec_field]; repeat sim_let;
      subst fname fargs nodes fp fargs0 nodes0 fp0;
      (destruct (String.eqb _ "__typename"); [split; [reflexivity|apply qwf_leaf]|]); rewrite Hff;
      [split; [reflexivity|exact I]|].
    match goal with
    | |- sim _ _ (match ?oa with _ => _ end) _ => destruct oa as [a|] eqn:Ea; [|exact I]
    end.
    rewrite (args_sim _ _ _ _ _ _ Hargs Hn Hp Ea). sim_let.
    destruct (match en_or E (p ++ [PKey k]) with
              | Some o => force o
              | None => (OVal RNull, false)
              end) as [o th].
    repeat sim_let. rename c1 into c0', r0 into r1'.
    (* the completed value, then the value of the field (deferred, or completed now), then the tail *)
    assert (Hc : sim1 c0 c0').
    { subst c0 c0'. destruct o as [v| |v| | | |o']; try reflexivity. apply Hcmp, Hsub. }
    assert (Hr : sim1 r1 r1').
    { subst r1 r1'. destruct (th && negb (is_nonnull (f_type fd))); [split; [reflexivity|apply qwf_thunk, Hsub]|].
      clearbody c0 c0'. destruct c0 as [q sq|e sq|]; cbn [sim] in Hc |- *; [|subst c0'; destruct th; reflexivity|exact I].
      destruct Hc as [-> Hq]. split; [reflexivity|exact Hq]. }
    clearbody r1 r1'. eapply sim_bind; [apply sim_catch, Hr|]. intros y sy Hy.
    destruct (en_serial E && _); [|split; [reflexivity|exact Hy]].
    eapply sim_bind; [apply Hdth, Hy|]. intros y' sy' Hy'. split; [reflexivity|exact Hy'].
  Qed.

  Lemma level_fields_sim : forall cf obj sets pl fs,
    wf_plan' obj sets pl -> level_fields pf cf E obj pl = Some fs ->
    exists g, collect_all (cf + pf) (en_S E) (en_D E) (en_vars E) obj sets [] [] = Some g /\
              wf_fields' obj g fs.
  Proof.
    intros cf obj sets pl fs Hwf H. inversion Hwf as [|? ? g fs0 Hg Hfs]; subst; cbn [level_fields] in H.
    - destruct (collect_all cf (en_S E) (en_D E) (en_vars E) obj sets [] []) as [g|] eqn:Ec; [|discriminate].
      exists g. split.
      + eapply TotalCollect.collect_all_fuel_mono; [exact Ec|apply Nat.le_add_r].
      + apply plan_fields_wf. exact H.
    - inversion H; subst. exists g. split; [|exact Hfs].
      eapply TotalCollect.collect_all_fuel_mono; [apply Hg|apply Nat.le_add_l].
  Qed.

  Definition sim_at (n : nat) : Prop :=
    (forall t nodes occs sub fpath p v s, wf_sub' (named_of t) occs sub ->
       sim1 (pcomplete n pf E t nodes occs sub fpath p v s) (complete (n + pf) E t nodes occs fpath p v s)) /\
    (forall obj occs pl p src s, wf_plan' obj (map oc_sub occs) pl ->
       sim1 (pexec_object n pf E obj pl p src s) (exec_object (n + pf) E obj occs p src s)) /\
    (forall obj src g fs p s, wf_fields' obj g fs ->
       simF (pexec_fields n pf E obj src fs p s) (exec_groups (n + pf) E obj src g p s)) /\
    (forall q s, qwf' q ->
       sim1 (pdethunk n pf E q s) (dethunk (n + pf) E (erase q) s)).

  Lemma sim_all : forall n, sim_at n.
  Proof.
    induction n as [|n [IHc [IHo [IHg IHd]]]].
    { repeat split; intros; exact I. }
    unfold sim_at. change (S n + pf) with (S (n + pf)).
    split; [|split; [|split]].
    - (* CompleteValue *)
      intros t nodes occs sub fpath p v s Hsub.
      destruct t as [nm|t'|t']; cbn [pcomplete complete]; cbn [named_of] in Hsub.
      + destruct (rv_nullish v); [split; [reflexivity|constructor]|].
        destruct (lookup_type (en_S E) nm) as [[k|vals|fs ifs|fs|ms|fs]|] eqn:El; [| | | | |reflexivity..].
        1-2: cbv zeta; destruct (nullish _); split; (reflexivity || constructor).
        1: { destruct (wf_sub_object_inv _ _ _ _ _ _ _ _ Hsub El) as (pl & -> & Hpl). apply IHo, Hpl. }
        (* interface, union *)
        all: destruct (wf_sub_abstract_inv _ _ _ _ _ _ Hsub) as (alt & -> & Halt);
          [unfold type_kind; rewrite El; reflexivity|];
          (destruct (en_tor E v) as [rt|]; [|reflexivity]);
          (destruct (possible_type (en_S E) nm rt); [|reflexivity]);
          (destruct (alt rt) as [pl|] eqn:Ea; [|exact I]); apply IHo, (Halt _ _ Ea).
      + destruct (rv_nullish v); [split; [reflexivity|constructor]|].
        destruct v as [| | | | |l| | | |]; try reflexivity.
        eapply sim_bind; [apply pitems_sim; intros i x s0; apply sim_catch, IHc, Hsub|].
        intros ys sy Hys. split; [reflexivity|constructor; exact Hys].
      + specialize (IHc t' nodes occs sub fpath p v s Hsub).
        destruct (pcomplete n pf E t' nodes occs sub fpath p v s) as [q sq|e sq|]; cbn [sim] in IHc |- *.
        * destruct IHc as [-> Hq].
          destruct q; cbn [erase]; try (split; [reflexivity|exact Hq]). reflexivity.
        * rewrite IHc. reflexivity.
        * exact I.
    - (* ExecuteSelectionSet on an object value *)
      intros obj occs pl p src s Hpl. cbn [pexec_object exec_object].
      destruct (level_fields pf n E obj pl) as [fs|] eqn:Elf; [|exact I].
      destruct (level_fields_sim _ _ _ _ _ Hpl Elf) as [g [Hg Hfs]]. rewrite Hg.
      eapply sim_bind; [apply IHg, Hfs|]. intros l sl Hl. split; [reflexivity|constructor; exact Hl].
    - (* the fields of a level, in order *)
      intros obj src g fs p s Hfs.
      destruct Hfs as [obj|obj k occs g f fs Hf Hrest]; cbn [pexec_fields exec_groups];
        [split; [reflexivity|constructor]|].
      eapply sim_bind.
      { apply (pexec_field_sim n (n + pf)); [apply Nat.le_add_r|apply Nat.le_add_l|exact Hf| |exact IHd].
        intros t nodes sub fpath p0 v s0. apply IHc. }
      intros y sy Hy. eapply sim_bind; [apply IHg, Hrest|]. intros ys sys Hys.
      rewrite (wf_field_key _ _ _ _ _ _ _ Hf).
      destruct y as [y|]; (split; [reflexivity|]); [constructor; assumption|assumption].
    - (* the dethunk pass *)
      intros q s Hq. cbn [pdethunk dethunk].
      destruct Hq as [|v|l Hl|l Hl|t nodes occs sub p o Hsub]; cbn [erase].
      + split; [reflexivity|constructor].
      + split; [reflexivity|constructor].
      + eapply sim_bind; [apply pdethunk_list_sim; [exact IHd|exact Hl]|].
        intros ys sy Hys. split; [reflexivity|constructor; exact Hys].
      + eapply sim_bind; [apply pdethunk_fields_sim; [exact IHd|exact Hl]|].
        intros ys sy Hys. split; [reflexivity|constructor; exact Hys].
      + cbv zeta. eapply sim_bind; [|intros y sy Hy; apply IHd, Hy].
        apply sim_catch. destruct o as [v| |v| | | |o']; try reflexivity. apply IHc, Hsub.
  Qed.
End Sim.

Theorem execute_plan_refines : forall pf ef S D opname op rt pl inputs root or tor r,
  get_operation D opname = Some op -> root_type S op = Some rt ->
  wf_plan pf S D rt [o_sel op] pl ->
  execute_plan pf ef S D {| pp_op := op; pp_root := rt; pp_plan := pl |} inputs root or tor = r ->
  r <> RFuel ->
  Request.request (ef + pf) S D opname inputs root or tor = r.
Proof.
  intros pf ef S D opname op rt pl inputs root or tor r Hop Hrt Hwf H Hr. subst r. revert Hr.
  unfold execute_plan, Request.request. cbn [pp_op pp_root pp_plan]. rewrite Hop, Hrt.
  destruct (get_variable_values ef S (o_vars op) inputs) as [vv|] eqn:Ev; [|intro Hr; contradiction].
  rewrite (TotalDethunk.get_variable_values_fuel_mono _ _ _ _ _ _ Ev (Nat.le_add_r ef pf)).
  destruct vv as [vars|u]; [|reflexivity].
  match goal with |- context [level_fields pf ef ?E0 rt pl] => set (E := E0) end.
  destruct (level_fields pf ef E rt pl) as [fs|] eqn:Elf; [|intro Hr; contradiction].
  destruct (level_fields_sim pf E ef rt [o_sel op] pl fs Hwf Elf) as [g [Hg Hfs]].
  cbn [collect_all en_S en_D en_vars E] in Hg.
  destruct (collect (ef + pf) S D vars rt (o_sel op) [] []) as [[g' v']|]; [|discriminate].
  inversion Hg; subst g'.
  destruct (sim_all pf E ef) as [_ [_ [Hsg Hsd]]].
  specialize (Hsg rt root g fs [] st0 Hfs).
  destruct (pexec_fields ef pf E rt root fs [] st0) as [l s|e s|]; cbn [sim] in Hsg.
  - destruct Hsg as [-> Hl].
    specialize (Hsd (PQObj l) s (qwf_obj _ _ _ _ Hl)). cbn [erase] in Hsd. fold (efields l) in Hsd.
    destruct (pdethunk ef pf E (PQObj l) s) as [q s'|e s'|]; cbn [sim] in Hsd.
    + destruct Hsd as [-> Hq]. reflexivity.
    + rewrite Hsd. reflexivity.
    + intro Hr; contradiction.
  - rewrite Hsg. reflexivity.
  - intro Hr; contradiction.
Qed.

Lemma plan_query_spec : forall pf S D opname,
  match plan_query pf S D opname with
  | Planned pp =>
    get_operation D opname = Some (pp_op pp) /\ root_type S (pp_op pp) = Some (pp_root pp) /\
    wf_plan pf S D (pp_root pp) [o_sel (pp_op pp)] (pp_plan pp)
  | PlanReject => forall fuel inputs root or tor, Request.request fuel S D opname inputs root or tor = RReject
  | PlanFuel => True
  end.
Proof.
  intros pf S D opname. unfold plan_query, Request.request.
  destruct (get_operation D opname) as [op|]; [|reflexivity].
  destruct (root_type S op) as [rt|] eqn:Hrt; [|reflexivity].
  destruct (plan_of pf S D rt [o_sel op]) as [pl|] eqn:Hpl; [|exact I].
  cbn [pp_op pp_root pp_plan]. split; [reflexivity|]. split; [exact Hrt|].
  eapply plan_of_wf; [apply le_n|exact Hpl].
Qed.

(* ---- plan reuse: the plan is a value; every execution of it, with whatever variables, root value
        and resolver behaviour, is a fresh ExecuteRequest ---- *)
Definition run := (list (name * jv) * rv * oracle * toracle)%type.

Definition run_plan (pf ef : nat) (S : schema) (D : document) (pp : prepared) (x : run) : reqres :=
  let '(inputs, root, or, tor) := x in execute_plan pf ef S D pp inputs root or tor.
Definition run_fresh (fuel : nat) (S : schema) (D : document) (opname : option name) (x : run) : reqres :=
  let '(inputs, root, or, tor) := x in Request.request fuel S D opname inputs root or tor.

Theorem plan_reuse_each : forall pf S D opname pp,
  plan_query pf S D opname = Planned pp ->
  forall ef x r, run_plan pf ef S D pp x = r -> r <> RFuel -> run_fresh (ef + pf) S D opname x = r.
Proof.
  intros pf S D opname pp Hq ef [[[inputs root] or] tor] r H Hr.
  pose proof (plan_query_spec pf S D opname) as Hs. rewrite Hq in Hs. destruct Hs as (Hop & Hrt & Hwf).
  destruct pp as [op rt pl]. cbn [pp_op pp_root pp_plan] in *.
  unfold run_plan in H. unfold run_fresh. eapply execute_plan_refines; eassumption.
Qed.

Theorem plan_reuse : forall pf S D opname pp,
  plan_query pf S D opname = Planned pp ->
  forall ef (xs : list run),
    Forall (fun x => run_plan pf ef S D pp x <> RFuel) xs ->
    map (run_plan pf ef S D pp) xs = map (run_fresh (ef + pf) S D opname) xs.
Proof.
  intros pf S D opname pp Hq ef xs H. induction H as [|x xs Hx _ IH]; [reflexivity|].
  cbn [map]. rewrite IH. f_equal. symmetry. eapply plan_reuse_each; [exact Hq|reflexivity|exact Hx].
Qed.

(* ---- the plan built here is the plan whose structure is dumped from the real planner: forgetting
        arguments, field definitions and lazily planned alternatives gives PlanCollect.plan_tree
        (which the C01 check compares with Plan dumps of every PlanQuery case) ---- *)
Fixpoint shape (p : plan) : ptree :=
  match p with
  | PDynamic _ => PT true []
  | PStatic fs =>
    PT false
       ((fix go (l : list pfield) : list (name * list N * option ptree) :=
           match l with
           | [] => []
           | PField k _ occs _ _ sub :: r =>
             (k, map oc_id occs, match sub with SubObject p' => Some (shape p') | _ => None end) :: go r
           end) fs)
  end.

Definition shape_field (f : pfield) : name * list N * option ptree :=
  match f with
  | PField k _ occs _ _ sub =>
    (k, map oc_id occs, match sub with SubObject p' => Some (shape p') | _ => None end)
  end.

Lemma shape_static : forall fs, shape (PStatic fs) = PT false (map shape_field fs).
Proof.
  intro fs. cbn [shape]. f_equal. induction fs as [|[k fn occs def ap sub] r IH]; [reflexivity|].
  cbn [map shape_field]. rewrite <- IH. reflexivity.
Qed.

Lemma is_object_type_kind : forall S n,
  is_object_type S n = match type_kind S n with KObject => true | _ => false end.
Proof. intros S n. unfold is_object_type, type_kind. destruct (lookup_type S n) as [[| | | | |]|]; reflexivity. Qed.

Lemma plan_of_shape : forall k S D obj sets pl,
  plan_of k S D obj sets = Some pl -> plan_tree k S D obj sets = Some (shape pl).
Proof.
  induction k as [|k IH]; intros S D obj sets pl H; [discriminate|].
  cbn [plan_of] in H. cbn [plan_tree].
  destruct (plan_all k S D obj sets [] [] false) as [[[g v] [|]]|]; [| |discriminate].
  - inversion H; subst. reflexivity.
  - destruct (omap (plan_field k S obj (plan_of k S D)) g) as [fs|] eqn:Eo; [|discriminate].
    inversion H; subst. rewrite shape_static.
    eapply omap_omap in Eo; [rewrite Eo; reflexivity|].
    intros [key occs] f Ef. unfold plan_field in Ef.
    destruct (find_field _ (object_fields S obj)) as [fd|]; [|inversion Ef; reflexivity].
    destruct (plan_args k S (f_args fd) _) as [ap|]; [|discriminate].
    destruct (plan_sub S (plan_of k S D) (f_type fd) occs) as [sub|] eqn:Es; [|discriminate].
    inversion Ef; subst. cbn [shape_field].
    rewrite is_object_type_kind. unfold plan_sub in Es.
    destruct (type_kind S (named_of (f_type fd))); [|inversion Es; reflexivity..].
    destruct (plan_of k S D (named_of (f_type fd)) (map oc_sub occs)) as [pl'|] eqn:Ep; [|discriminate].
    inversion Es; subst. rewrite (IH _ _ _ _ _ Ep). reflexivity.
Qed.

(* ---- non-vacuity: a static root level, levels made dynamic by variable directives (directly and
        through a fragment), an eagerly planned object field, an interface field whose alternative
        is planned on use, literal and variable arguments, a list, deferred values, a resolver error
        and a null in a non-null position; the plan is built once and run under two variable
        assignments ---- *)
Module Example.
  Local Open Scope N_scope.
  Definition fS (n : name) (t : tyref) : fielddef := {| f_name := n; f_args := []; f_type := t |}.
  Definition S2 : schema := {|
    s_types := [("String", TScalar SString); ("Boolean", TScalar SBoolean); ("Int", TScalar SInt);
                ("Q", TObject [fS "a" (TNamed "String");
                               {| f_name := "o";
                                  f_args := [{| a_name := "n"; a_type := TNamed "Int"; a_default := None |}];
                                  f_type := TNamed "O" |};
                               fS "i" (TNamed "I"); fS "l" (TList (TNamed "O"))] []);
                ("O", TObject [fS "x" (TNamed "String"); fS "y" (TNonNull (TNamed "String"))] ["I"]);
                ("I", TInterface [fS "x" (TNamed "String")])];
    s_query := "Q"; s_mutation := None |}.
  Definition dskip := {| d_name := "skip"; d_args := [("if", VVar "v")] |}.
  Definition dinc := {| d_name := "include"; d_args := [("if", VVar "v")] |}.
  Definition D2 : document := {|
    d_ops := [{| o_kind := OpQuery; o_name := None;
                 o_vars := [{| v_name := "v"; v_type := TNamed "Boolean"; v_default := None |};
                            {| v_name := "n"; v_type := TNamed "Int"; v_default := None |}];
                 o_sel := [SField 1 None "a" [] [] [];
                           SField 2 None "o" [("n", VInt 3)] []
                                  [SField 3 None "x" [] [dskip] []; SSpread 4 "F" []];
                           SField 5 (Some "o2") "o" [("n", VVar "n")] [] [SField 6 None "y" [] [] []];
                           SField 7 None "i" [] []
                                  [SField 8 None "x" [] [] [];
                                   SInline 9 (Some "O") [] [SField 10 None "y" [] [] []]];
                           SField 11 None "l" [] [] [SSpread 12 "F" []];
                           SField 13 (Some "t") "a" [] [] []] |}];
    d_frags := [{| fr_name := "F"; fr_cond := "O";
                   fr_sel := [SField 20 None "y" [] [dinc] []; SField 21 None "x" [] [] []] |}] |}.
  Definition or2 : oracle := fun p =>
    match p with
    | [PKey "a"] => Some (OVal (RStr "A"))
    | [PKey "t"] => Some (OThunk (OVal (RStr "T")))
    | [PKey "o"] => Some (OVal (RObj 1 "O"))
    | [PKey "o2"] => Some (OVal (RObj 2 "O"))
    | [PKey "i"] => Some (OThunk (OVal (RObj 3 "O")))
    | [PKey "l"] => Some (OVal (RList [RObj 4 "O"; RNull; RObj 5 "O"]))
    | [PKey "l"; PIdx 2; PKey "y"] => Some OErr
    | [PKey "o2"; PKey "y"] => Some (OVal RNull)
    | _ => Some (OVal (RStr "s"))
    end.
  Definition tor2 : toracle := fun v => match v with RObj _ t => Some t | _ => None end.
  Definition inputs2 (v : bool) : list (name * jv) := [("v", JBool v); ("n", JInt 7)].

  Definition level_kinds (pl : plan) : list (name * bool * bool) :=
    match pl with
    | PDynamic _ => []
    | PStatic fs =>
      map (fun f => match f with
                    | PField k _ _ _ ap sub =>
                      (k, match ap with ArgStatic _ => true | ArgDynamic => false end,
                       match sub with SubObject (PDynamic _) => true | _ => false end)
                    end) fs
    end.

  Definition summary (r : reqres) : option (resp * list gerr * nat * nat) :=
    match r with
    | RDone (Some d) s => Some (d, st_errs s, List.length (st_calls s), List.length (st_tcalls s))
    | _ => None
    end.

  (* (the plan itself is not printed: it holds the closures of the lazily planned alternatives) *)
  Lemma planned_nonvacuous :
    match plan_query 12 S2 D2 None with
    | Planned pp =>
      (* static root; literal vs variable arguments; sub-levels of o and l are dynamic, that of o2 is not *)
      level_kinds (pp_plan pp) =
        [("a", true, false); ("o", true, true); ("o2", false, false); ("i", true, false);
         ("l", true, true); ("t", true, false)] /\
      summary (execute_plan 12 12 S2 D2 pp (inputs2 true) RNull or2 tor2) =
        Some (PObj [("a", PLeaf (JStr "A"));
                    ("o", PObj [("y", PLeaf (JStr "s")); ("x", PLeaf (JStr "s"))]);
                    ("o2", PNull);
                    ("i", PObj [("x", PLeaf (JStr "s")); ("y", PLeaf (JStr "s"))]);
                    ("l", PList [PObj [("y", PLeaf (JStr "s")); ("x", PLeaf (JStr "s"))]; PNull; PNull]);
                    ("t", PLeaf (JStr "T"))],
              [{| e_path := [PKey "o2"; PKey "y"]; e_nodes := [6] |};
               {| e_path := [PKey "l"; PIdx 2; PKey "y"]; e_nodes := [20] |}], 14%nat, 1%nat) /\
      summary (execute_plan 12 12 S2 D2 pp (inputs2 false) RNull or2 tor2) =
        Some (PObj [("a", PLeaf (JStr "A"));
                    ("o", PObj [("x", PLeaf (JStr "s"))]);
                    ("o2", PNull);
                    ("i", PObj [("x", PLeaf (JStr "s")); ("y", PLeaf (JStr "s"))]);
                    ("l", PList [PObj [("x", PLeaf (JStr "s"))]; PNull; PObj [("x", PLeaf (JStr "s"))]]);
                    ("t", PLeaf (JStr "T"))],
              [{| e_path := [PKey "o2"; PKey "y"]; e_nodes := [6] |}], 12%nat, 1%nat) /\
      execute_plan 12 12 S2 D2 pp (inputs2 true) RNull or2 tor2
        = Request.request 24 S2 D2 None (inputs2 true) RNull or2 tor2 /\
      execute_plan 12 12 S2 D2 pp (inputs2 false) RNull or2 tor2
        = Request.request 24 S2 D2 None (inputs2 false) RNull or2 tor2
    | _ => False
    end.
  Proof. vm_compute. repeat split; reflexivity. Qed.
  Lemma summary_done : forall r d es c t, summary r = Some (d, es, c, t) ->
    exists d' s, r = RDone (Some d') s /\ List.length (st_calls s) = c /\ List.length (st_errs s) = List.length es.
  Proof. intros [| |[d0|] s] d es c t E; inversion E. exists d, s. repeat split; reflexivity. Qed.
End Example.

(* C17, finish-outcome clause: every finish function of the model's log is
   given the outcome of its phase (Ext/ExtensionsSpec.v outcome_ok). *)
From Coq Require Import List NArith Bool Arith Lia.
From GQL Require Import Ext.ExtensionsModel Ext.ExtensionsSpec Proofs.ExtProofs.
Import ListNotations.
Open Scope N_scope.

Lemma count_none : forall p l, Forall (fun ev => p ev = false) l -> count p l = 0.
Proof. induction 1 as [|ev r E _ IH]; [reflexivity|]. rewrite count_cons, E, IH. reflexivity. Qed.

Lemma count_ext : forall p q l, Forall (fun ev => p ev = q ev) l -> count p l = count q l.
Proof. induction 1 as [|ev r E _ IH]; [reflexivity|]. rewrite !count_cons, E, IH. reflexivity. Qed.

Lemma existsb_count : forall p l, existsb p l = nz (count p l).
Proof.
  intros p. induction l as [|a r IH]; [reflexivity|].
  cbn [existsb]. rewrite count_cons, IH. unfold nz. destruct (p a); cbn [orb].
  - destruct (count p r); reflexivity.
  - rewrite N.add_0_l. reflexivity.
Qed.

Definition is_finish_ev (ev : event) : bool := match ev with EFinish _ _ _ _ => true | _ => false end.

Definition only_on_finish (p : event -> bool) : Prop := forall ev, is_finish_ev ev = false -> p ev = false.

Lemma sf_inits : forall ph xs, count (start_failed ph) (inits xs) = 0.
Proof. intros. apply count_none, Forall_inits. reflexivity. Qed.
Lemma sf_results : forall ph xs, count (start_failed ph) (results xs) = 0.
Proof. intros. apply count_none, Forall_results; reflexivity. Qed.
Lemma sf_body : forall ph c xs, top ph -> count (start_failed ph) (body_log c xs) = 0.
Proof.
  intros ph c xs T. apply count_none, Forall_body; [|reflexivity]. intros i k r.
  destruct r; try reflexivity. destruct T as [-> | [-> | ->]]; reflexivity.
Qed.

Lemma sf_block : forall ph ph' n mid xs,
  count (start_failed ph) (block ph' n mid xs) =
  (if phase_eqb ph' ph then start_errs ph' xs else 0) + count (start_failed ph) mid.
Proof.
  intros. unfold block. rewrite !count_app, (count_none _ (fins _ _ _)) by (apply Forall_fins; reflexivity).
  rewrite N.add_0_r. f_equal. destruct (phase_eqb ph' ph) eqn:E.
  - apply phase_eqb_eq in E. subst ph'. apply count_cells. intros ix. unfold start_ev, start_err.
    rewrite count_cons, count_nil. cbn [start_failed].
    destruct (start_beh ph (snd ix)); cbn [sres_of]; rewrite ?phase_eqb_refl; reflexivity.
  - apply count_none, Forall_starts. intros i r. destruct r; try reflexivity. exact E.
Qed.

Lemma sf_exec : forall ph c xs, top ph ->
  count (start_failed ph) (fst (exec_log c xs)) = if phase_eqb PExec ph then start_errs PExec xs else 0.
Proof.
  intros ph c xs T. unfold exec_log. destruct (nz (start_errs PExec xs)); cbn [fst];
    rewrite ?count_app, sf_block, ?sf_results, ?sf_body by exact T; rewrite ?count_nil, ?N.add_0_r; reflexivity.
Qed.

Lemma bef_clean_app : forall A B, Forall (fun ev => is_exec_finish ev = false) A ->
  before_exec_finish (A ++ B) = A ++ before_exec_finish B.
Proof.
  intros A B. induction 1 as [|a r E _ IH]; [reflexivity|].
  cbn [app before_exec_finish]. rewrite E, IH. reflexivity.
Qed.

Lemma bef_fins_exec : forall n xs R, fins PExec n xs <> [] -> before_exec_finish (fins PExec n xs ++ R) = [].
Proof.
  intros n xs R NE. pose proof (Forall_fins (fun ev => is_exec_finish ev = true) PExec n xs (fun _ _ => eq_refl)) as H.
  destruct H as [|a r E _]; [contradiction|]. cbn [app before_exec_finish]. rewrite E. reflexivity.
Qed.

(* what the execution finish functions find before them in the log *)
Lemma bef_exec : forall pre mid ne xs res,
  Forall (fun ev => is_exec_finish ev = false) pre -> Forall (fun ev => is_exec_finish ev = false) mid ->
  fins PExec ne xs <> [] ->
  before_exec_finish (pre ++ block PExec ne mid xs ++ res) = pre ++ starts PExec xs ++ mid.
Proof.
  intros pre mid ne xs res Hp Hm NE. unfold block. rewrite bef_clean_app by exact Hp. rewrite <- !app_assoc.
  rewrite bef_clean_app by (apply Forall_starts; reflexivity). rewrite bef_clean_app by exact Hm.
  rewrite bef_fins_exec by exact NE. rewrite app_nil_r. reflexivity.
Qed.

Definition failure' (ev : event) : bool := is_failure ev && negb (nil_exec_start ev).

Lemma failure'_plain : forall l, Forall (fun ev => nil_exec_start ev = false) l ->
  count failure' l = count is_failure l.
Proof.
  intros l H. apply count_ext. eapply Forall_impl; [|exact H]. intros ev E.
  unfold failure'. rewrite E. apply andb_true_r.
Qed.

Lemma failure'_starts_exec : forall xs, count failure' (starts PExec xs) = start_errs PExec xs.
Proof.
  intros xs. apply count_cells. intros ix. unfold start_ev, start_err. rewrite count_cons, count_nil.
  destruct (start_beh PExec (snd ix)); reflexivity.
Qed.

Definition okall (c : cls) (l piece : list event) : Prop := Forall (fun ev => outcome_ok c l ev = true) piece.

(* resolve: the k-th notification is about the k-th resolver call *)
Lemma resolve_ok : forall c l pre fs xs,
  sched c = pre ++ fs -> okall c l (fields_log (N.of_nat (length pre)) fs xs).
Proof.
  intros c l pre fs. revert pre. induction fs as [|fb r IH]; intros pre xs E; [constructor|].
  cbn [fields_log]. apply Forall_app. split.
  - apply Forall_block; [reflexivity | | constructor]. intros i o. cbn [outcome_ok].
    rewrite Nat2N.id, E, nth_error_app2, Nat.sub_diag by lia. apply N.eqb_refl.
  - replace (N.of_nat (length pre) + 1) with (N.of_nat (length (pre ++ [fb]))) by (rewrite app_length; cbn [length]; lia).
    apply IH. rewrite <- app_assoc. exact E.
Qed.

Lemma body_ok : forall c l xs, okall c l (body_log c xs).
Proof.
  intros c l xs. destruct c as [| | | |mut roots]; try constructor.
  apply (resolve_ok (CExec mut roots) l [] (sched (CExec mut roots)) xs). reflexivity.
Qed.

Section Outcomes.
Variable c : cls.
Variable xs : list (N * ext).
Notation I := (inits xs).
Notation PB := (tblock PParse (fun _ => 1) (own_parse c) xs).
Notation VB := (tblock PValid (fun s => s) (own_valid c) xs).

(* number of failed start hooks of a top-level phase in a log made of the pieces of plog *)
Ltac sf_count :=
  unfold tblock; rewrite ?count_app, ?sf_inits, ?sf_block, ?sf_exec by (unfold top; auto);
  cbn [phase_eqb]; rewrite ?count_nil; lia.

Lemma parse_ok : forall l, count (start_failed PParse) l = start_errs PParse xs -> okall c l PB.
Proof.
  intros l H. apply Forall_block; [reflexivity | | constructor]. intros i o. cbn [outcome_ok].
  rewrite existsb_count, H. destruct (nz (start_errs PParse xs)), c; reflexivity.
Qed.

Lemma valid_ok : forall l, count (start_failed PValid) l = start_errs PValid xs -> okall c l VB.
Proof.
  intros l H. apply Forall_block; [reflexivity | | constructor]. intros i o. cbn [outcome_ok].
  rewrite existsb_count, H. destruct (nz (start_errs PValid xs)); [|destruct c]; apply N.eqb_refl.
Qed.

(* the execution block when everything before it went without an error; ran: the body ran
   and results were collected *)
Lemma exec_ok : forall (ran : bool) ne l,
  let mid := if ran then body_log c xs else [] in
  let res := if ran then results xs else [] in
  l = I ++ PB ++ VB ++ block PExec ne mid xs ++ res ->
  init_errs xs = 0 -> terrs PParse (own_parse c) xs = 0 -> terrs PValid (own_valid c) xs = 0 ->
  ne = start_errs PExec xs + count is_failure mid + (if nz (start_errs PExec xs) then 0 else class_errors c) ->
  okall c l (block PExec ne mid xs ++ res).
Proof.
  intros ran ne l mid res El Z0 Z1 Z2 Hne.
  assert (Cm : Forall (fun ev => is_exec_finish ev = false) mid /\ Forall (fun ev => nil_exec_start ev = false) mid
               /\ count (start_failed PExec) mid = 0 /\ count (start_failed PExec) res = 0).
  { subst mid res. destruct ran; [|repeat constructor].
    repeat split; [apply Forall_body; reflexivity | apply Forall_body; reflexivity | apply sf_body; unfold top; auto
                  | apply sf_results]. }
  destruct Cm as (Cm1 & Cm2 & Cm3 & Cm4).
  unfold block. repeat (apply Forall_app; split).
  - apply Forall_starts. reflexivity.
  - subst mid. destruct ran; [apply body_ok | constructor].
  - destruct (fins PExec ne xs) eqn:Efin; [constructor|]. rewrite <- Efin.
    assert (NE : fins PExec ne xs <> []) by (rewrite Efin; discriminate).
    apply Forall_fins. intros i o. cbn [outcome_ok].
    assert (S : count (start_failed PExec) l = start_errs PExec xs).
    { rewrite El. unfold tblock. rewrite !count_app, sf_inits, !sf_block, Cm3, Cm4. cbn [phase_eqb].
      rewrite !count_nil. lia. }
    assert (B : before_exec_finish l = (I ++ PB ++ VB) ++ starts PExec xs ++ mid).
    { rewrite El, (app_assoc PB), (app_assoc I). apply bef_exec; [|exact Cm1 | exact NE].
      apply Forall_app. split; [apply Forall_inits; reflexivity|].
      apply Forall_app. split; (apply Forall_block; [reflexivity | reflexivity | constructor]). }
    rewrite existsb_count, S, B. fold failure'. rewrite !count_app, failure'_starts_exec.
    rewrite !failure'_plain by
      ((exact Cm2 || apply Forall_inits || (apply Forall_block; [| |constructor])); reflexivity).
    rewrite fail_inits. unfold tblock. rewrite !fail_block, count_nil. unfold terrs in Z1, Z2.
    apply N.eqb_eq. lia.
  - subst res. destruct ran; [apply Forall_results; reflexivity | constructor].
Qed.

Theorem plog_outcomes : outcomesb c (fst (plog c xs)) = true.
Proof.
  unfold outcomesb. apply forallb_forall, Forall_forall. unfold plog.
  assert (HI : forall l, okall c l I) by (intros l; apply Forall_inits; reflexivity).
  set (T3 := upto [] (own_op c) (exec_log c xs)). set (T2 := upto VB (terrs PValid (own_valid c) xs) T3).
  set (T1 := upto PB (terrs PParse (own_parse c) xs) T2).
  destruct (upto_cases I (init_errs xs) T1) as [[_ ->]|[Z0 ->]]; cbn [fst]; [apply HI|].
  subst T1. destruct (upto_cases PB (terrs PParse (own_parse c) xs) T2) as [[_ ->]|[Z1 ->]]; cbn [fst].
  { apply Forall_app. split; [apply HI | apply parse_ok; sf_count]. }
  subst T2. destruct (upto_cases VB (terrs PValid (own_valid c) xs) T3) as [[_ ->]|[Z2 ->]]; cbn [fst].
  { apply Forall_app. split; [apply HI|]. apply Forall_app. split; [apply parse_ok | apply valid_ok]; sf_count. }
  subst T3. destruct (upto_cases [] (own_op c) (exec_log c xs)) as [[_ ->]|[Z3 ->]]; cbn [fst app].
  { rewrite app_nil_r.
    apply Forall_app. split; [apply HI|]. apply Forall_app. split; [apply parse_ok | apply valid_ok]; sf_count. }
  apply Forall_app. split; [apply HI|]. apply Forall_app. split; [apply parse_ok; sf_count|].
  apply Forall_app. split; [apply valid_ok; sf_count|].
  unfold exec_log. destruct (nz_cases (start_errs PExec xs)) as [[Z E]|[Z E]]; rewrite E; cbn [fst].
  - apply (exec_ok true); try assumption; [reflexivity|]. rewrite E, Z, <- fail_body. lia.
  - rewrite <- (app_nil_r (block _ _ _ _)). apply (exec_ok false); try assumption; [reflexivity|].
    rewrite E, count_nil. lia.
Qed.
End Outcomes.

Theorem model_outcomes : forall c exts, outcomesb c (result_log (do_model c exts)) = true.
Proof. intros c exts. rewrite result_log_eq. apply plog_outcomes. Qed.

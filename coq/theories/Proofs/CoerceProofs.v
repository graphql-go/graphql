(* C05: the coercion model (values.go) against the specification of input coercion. *)
From Coq Require Import List String Bool.
From GQL Require Import Exec.Syntax Exec.Coerce Exec.CoerceSpec.
Import ListNotations.
Open Scope string_scope.

Lemma nullish_false : forall v, v <> JNull -> nullish v = false.
Proof. intros v H. destruct v; try reflexivity. congruence. Qed.

Lemma omap_cons : forall {A B} (f : A -> option B) x r l,
  omap f (x :: r) = Some l -> exists y ys, f x = Some y /\ omap f r = Some ys /\ l = y :: ys.
Proof.
  intros A B f x r l H. cbn [omap] in H. destruct (f x) as [y|]; [|discriminate].
  destruct (omap f r) as [ys|]; [|discriminate]. inversion H. eauto.
Qed.

Lemma omap_ext_in : forall {A B} (f g : A -> option B) l,
  (forall x, In x l -> f x = g x) -> omap f l = omap g l.
Proof.
  intros A B f g l. induction l as [|x l IH]; intros H; [reflexivity|].
  cbn [omap]. rewrite (H x (or_introl eq_refl)), IH; [reflexivity|].
  intros y Hy. apply H. right. exact Hy.
Qed.

Lemma omap_map : forall {A B C} (f : A -> option B) (p : B -> C) (q : A -> C),
  (forall x y, f x = Some y -> p y = q x) ->
  forall l l', omap f l = Some l' -> map p l' = map q l.
Proof.
  intros A B C f p q Hf. induction l as [|x l IH]; intros l' H.
  - inversion H. reflexivity.
  - destruct (omap_cons _ _ _ _ H) as (y & ys & E1 & E2 & ->). cbn [map]. f_equal; auto.
Qed.

Lemma omap_omap : forall {A B C} (f : A -> option B) (h : A -> option C) (k : B -> C),
  (forall x y, f x = Some y -> h x = Some (k y)) ->
  forall l l', omap f l = Some l' -> omap h l = Some (map k l').
Proof.
  intros A B C f h k Hf. induction l as [|x l IH]; intros l' H.
  - inversion H. reflexivity.
  - destruct (omap_cons _ _ _ _ H) as (y & ys & E1 & E2 & ->). cbn [omap map].
    rewrite (Hf _ _ E1), (IH _ E2). reflexivity.
Qed.

Lemma scalar_conf_parse : forall k v r, scalar_conf k v r -> parse_value_scalar k v = r /\ r <> JNull /\ v <> JNull.
Proof.
  intros k v r H. destruct H; cbn [parse_value_scalar]; repeat split; try congruence.
  - rewrite H. reflexivity.
  - rewrite H. reflexivity.
Qed.

Definition field_step (fuel : nat) (S : schema) (m : list (name * jv)) (f : argdef) : option (name * jv) :=
  match coerce_value fuel S (a_type f) (jlookup (a_name f) m) with
  | Some fv => Some (a_name f, with_default (a_default f) fv)
  | None => None
  end.

Lemma coerce_value_list1 : forall fuel S t v, v <> JNull -> (forall l, v <> JList l) ->
  coerce_value (Datatypes.S fuel) S (TList t) v = option_map (fun x => JList [x]) (coerce_value fuel S t v).
Proof. intros fuel S t v Hv Hl. destruct v; try reflexivity; [destruct (Hv eq_refl)|destruct (Hl l eq_refl)]. Qed.

Lemma valid_input_list1 : forall fuel S t v, v <> JNull -> (forall l, v <> JList l) ->
  valid_input (Datatypes.S fuel) S (TList t) v = valid_input fuel S t v.
Proof. intros fuel S t v Hv Hl. destruct v; try reflexivity; [destruct (Hv eq_refl)|destruct (Hl l eq_refl)]. Qed.

Lemma coerce_correct_all : forall S,
  (forall t v r, SC S t v r -> forall fuel r', coerce_value fuel S t v = Some r' -> r' = r) /\
  (forall t l rs, SCL S t l rs -> forall fuel rs', omap (coerce_value fuel S t) l = Some rs' -> rs' = rs) /\
  (forall fs m kvs, SCF S fs m kvs -> forall fuel kvs', omap (field_step fuel S m) fs = Some kvs' -> kvs' = kvs).
Proof.
  intro S. apply SC_mutind.
  - intros t Hn fuel r' H. destruct fuel; [discriminate|]. cbn in H. congruence.
  - intros t v r Hv _ IH fuel r' H. destruct fuel; [discriminate|].
    cbn [coerce_value] in H. rewrite (nullish_false v Hv) in H. eapply IH; eassumption.
  - intros t l rs _ IH fuel r' H. destruct fuel; [discriminate|].
    cbn [coerce_value nullish] in H.
    destruct (omap (coerce_value fuel S t) l) eqn:E; [|discriminate].
    inversion H; subst. f_equal. eapply IH; eassumption.
  - intros t v r Hv Hl _ IH fuel r' H. destruct fuel; [discriminate|].
    rewrite coerce_value_list1 in H by assumption.
    destruct (coerce_value fuel S t v) eqn:E; [|discriminate]. inversion H. do 2 f_equal. eapply IH; exact E.
  - intros n k v r Hl Hc fuel r' H. destruct fuel; [discriminate|].
    destruct (scalar_conf_parse _ _ _ Hc) as [Hp [_ Hv]].
    cbn [coerce_value] in H. rewrite (nullish_false v Hv), Hl in H. congruence.
  - intros n vals nm iv Hl Ha _ fuel r' H. destruct fuel; [discriminate|].
    cbn [coerce_value nullish] in H. rewrite Hl in H. cbn [parse_enum] in H. rewrite Ha in H. congruence.
  - intros n fs m kvs Hl _ _ IH fuel r' H. destruct fuel; [discriminate|].
    cbn [coerce_value nullish] in H. rewrite Hl in H.
    change (omap _ fs) with (omap (field_step fuel S m) fs) in H.
    destruct (omap (field_step fuel S m) fs) eqn:E; [|discriminate].
    inversion H; subst. unfold keep_nonnull. f_equal. f_equal. eapply IH; eassumption.
  - intros t fuel rs' H. inversion H. reflexivity.
  - intros t x y xs ys _ IHx _ IHxs fuel rs' H.
    destruct (omap_cons _ _ _ _ H) as (y' & ys' & E1 & E2 & ->). f_equal; [eapply IHx|eapply IHxs]; eassumption.
  - intros m fuel kvs' H. inversion H. reflexivity.
  - intros f fs m r rs _ IHf _ IHfs fuel kvs' H.
    destruct (omap_cons _ _ _ _ H) as (y' & ys' & E1 & E2 & ->). unfold field_step in E1.
    destruct (coerce_value fuel S (a_type f) (jlookup (a_name f) m)) eqn:E; [|discriminate].
    inversion E1. f_equal; [do 2 f_equal; eapply IHf|eapply IHfs]; eassumption.
Qed.

Lemma conformant_valid_all : forall S,
  (forall t v r, SC S t v r -> forall fuel b, valid_input fuel S t v = Some b -> b = true) /\
  (forall t l rs, SCL S t l rs -> forall fuel b, oall (valid_input fuel S t) l = Some b -> b = true) /\
  (forall fs m kvs, SCF S fs m kvs -> forall fuel b,
      oall (fun f => valid_input fuel S (a_type f) (jlookup (a_name f) m)) fs = Some b -> b = true).
Proof.
  intro S. apply SC_mutind.
  - intros t Hn fuel b H. destruct fuel; [discriminate|]. cbn in H. rewrite Hn in H. cbn in H. congruence.
  - intros t v r Hv _ IH fuel b H. destruct fuel; [discriminate|].
    cbn [valid_input] in H. rewrite (nullish_false v Hv) in H. eapply IH; eassumption.
  - intros t l rs _ IH fuel b H. destruct fuel; [discriminate|].
    cbn [valid_input nullish] in H. eapply IH; eassumption.
  - intros t v r Hv Hl _ IH fuel b H. destruct fuel; [discriminate|].
    rewrite valid_input_list1 in H by assumption. eapply IH; exact H.
  - intros n k v r Hl Hc fuel b H. destruct fuel; [discriminate|].
    destruct (scalar_conf_parse _ _ _ Hc) as [Hp [Hr Hv]].
    cbn [valid_input] in H. rewrite (nullish_false v Hv), Hl, Hp, (nullish_false r Hr) in H. cbn in H. congruence.
  - intros n vals nm iv Hl Ha Hiv fuel b H. destruct fuel; [discriminate|].
    cbn [valid_input nullish] in H. rewrite Hl in H. cbn [parse_enum] in H. rewrite Ha, (nullish_false iv Hiv) in H.
    cbn in H. congruence.
  - intros n fs m kvs Hl Hk _ IH fuel b H. destruct fuel; [discriminate|].
    cbn [valid_input nullish] in H. rewrite Hl in H.
    destruct (oall _ fs) eqn:E; [|discriminate].
    inversion H; subst. rewrite Hk. cbn. eapply IH; eassumption.
  - intros t fuel b H. cbn in H. congruence.
  - intros t x y xs ys _ IHx _ IHxs fuel b H. cbn [oall] in H.
    destruct (valid_input fuel S t x) eqn:E1; [|discriminate].
    destruct (oall (valid_input fuel S t) xs) eqn:E2; [|discriminate].
    inversion H; subst. rewrite (IHx _ _ E1), (IHxs _ _ E2). reflexivity.
  - intros m fuel b H. cbn in H. congruence.
  - intros f fs m r rs _ IHf _ IHfs fuel b H. cbn [oall] in H.
    destruct (valid_input fuel S (a_type f) (jlookup (a_name f) m)) eqn:E1; [|discriminate].
    destruct (oall _ fs) eqn:E2; [|discriminate].
    inversion H; subst. rewrite (IHf _ _ E1), (IHfs _ _ E2). reflexivity.
Qed.

Lemma oall_in : forall {A} (f : A -> option bool) l b x,
  oall f l = Some b -> In x l -> exists bx, f x = Some bx /\ (b = true -> bx = true).
Proof.
  intros A f l. induction l as [|y l IH]; intros b x H Hin; [contradiction|].
  cbn [oall] in H. destruct (f y) eqn:E1; [|discriminate]. destruct (oall f l) eqn:E2; [|discriminate].
  inversion H; subst. destruct Hin as [->|Hin].
  - exists b0. split; [assumption|]. intro Hb. apply andb_true_iff in Hb. tauto.
  - destruct (IH _ _ eq_refl Hin) as [bx [Hx Himp]]. exists bx. split; [assumption|].
    intro Hb. apply andb_true_iff in Hb. tauto.
Qed.

Lemma forallb_amem_false : forall (fs : list argdef) (m : list (name * jv)) k,
  amem k m = true -> existsb (fun f => String.eqb k (a_name f)) fs = false ->
  forallb (fun kv => existsb (fun f => String.eqb (fst kv) (a_name f)) fs) m = false.
Proof.
  intros fs m k. induction m as [|[k' v] m IH]; intros Hm He; [discriminate|].
  cbn [amem] in Hm. cbn [forallb fst].
  destruct (String.eqb k k') eqn:Ek.
  - apply String.eqb_eq in Ek. subst. rewrite He. reflexivity.
  - cbn in Hm. rewrite (IH Hm He). apply andb_false_r.
Qed.

Lemma nonconformant_rejected : forall S t v, NC S t v ->
  forall fuel b, valid_input fuel S t v = Some b -> b = false.
Proof.
  intros S t v H. induction H; intros fuel b Hv; (destruct fuel; [discriminate|]).
  - cbn in Hv. congruence.
  - cbn [valid_input] in Hv. destruct (nullish v); [cbn in Hv; congruence|]. eapply IHNC; eassumption.
  - cbn [valid_input nullish] in Hv.
    destruct (oall_in _ _ _ _ Hv H) as [bx [Hx Himp]].
    destruct b; [|reflexivity]. specialize (Himp eq_refl). subst. apply (IHNC _ _ Hx).
  - rewrite valid_input_list1 in Hv by assumption. eapply IHNC; exact Hv.
  - cbn [valid_input] in Hv. destruct v; try contradiction; cbn [nullish] in Hv; rewrite H in Hv; cbn in Hv; congruence.
  - cbn [valid_input] in Hv. destruct v; try contradiction; cbn [nullish] in Hv; rewrite H in Hv; cbn in Hv; congruence.
  - cbn [valid_input nullish] in Hv. rewrite H in Hv. cbn [parse_value_scalar] in Hv. rewrite H0 in Hv. cbn in Hv. congruence.
  - cbn [valid_input nullish] in Hv. rewrite H in Hv. cbn [parse_enum] in Hv. rewrite H0 in Hv. cbn in Hv. congruence.
  - cbn [valid_input] in Hv. rewrite (nullish_false v H0), H in Hv.
    destruct v; try (exfalso; apply (H1 s); reflexivity); try congruence; cbn in Hv; congruence.
  - cbn [valid_input] in Hv. rewrite (nullish_false v H0), H in Hv.
    destruct v; try (exfalso; apply (H1 l); reflexivity); congruence.
  - cbn [valid_input nullish] in Hv. rewrite H in Hv.
    destruct (oall _ fs); [|discriminate]. inversion Hv; subst.
    rewrite (forallb_amem_false fs m k H0 H1). reflexivity.
  - cbn [valid_input nullish] in Hv. rewrite H in Hv.
    destruct (oall _ fs) eqn:E; [|discriminate]. inversion Hv; subst.
    destruct (oall_in _ _ _ _ E H0) as [bx [Hx Himp]].
    destruct b0; [|apply andb_false_r]. specialize (Himp eq_refl). subst.
    rewrite (IHNC _ _ Hx). apply andb_false_r.
Qed.

(* a nil variables map reads every variable as null *)
Definition vars_of (ovars : option (list (name * jv))) : list (name * jv) :=
  match ovars with Some m => m | None => [] end.

(* one input-object field, or one argument of a field (get_argument_values) *)
Definition lit_step (fuel : nat) (S : schema) (lfs : list (name * value)) (ovars : option (list (name * jv)))
           (f : argdef) : option (name * jv) :=
  match value_from_ast fuel S (a_type f) (alookup (a_name f) lfs) ovars with
  | Some fv => Some (a_name f, with_default (a_default f) fv)
  | None => None
  end.

Lemma get_argument_values_unfold : forall fuel S defs args ovars,
  get_argument_values fuel S defs args ovars = option_map keep_nonnull (omap (lit_step fuel S args ovars) defs).
Proof. reflexivity. Qed.

Lemma value_from_ast_var : forall fuel S t x ovars r,
  value_from_ast fuel S t (Some (VVar x)) ovars = Some r -> r = jlookup x (vars_of ovars).
Proof. intros [|fuel] S t x [m|] r H; try discriminate; inversion H; reflexivity. Qed.

Lemma value_from_ast_nonnull : forall fuel S t l ovars, (forall x, l <> VVar x) ->
  value_from_ast (Datatypes.S fuel) S (TNonNull t) (Some l) ovars = value_from_ast fuel S t (Some l) ovars.
Proof. intros fuel S t l ovars H. destruct l; try reflexivity. destruct (H n eq_refl). Qed.

Lemma value_from_ast_list1 : forall fuel S t l ovars, (forall x, l <> VVar x) -> (forall ls, l <> VList ls) ->
  value_from_ast (Datatypes.S fuel) S (TList t) (Some l) ovars
  = option_map (fun x => JList [x]) (value_from_ast fuel S t (Some l) ovars).
Proof.
  intros fuel S t l ovars Hv Hl. destruct l; try reflexivity; [destruct (Hv n eq_refl)|destruct (Hl l eq_refl)].
Qed.

Lemma value_from_ast_named : forall fuel S n l ovars, (forall x, l <> VVar x) ->
  value_from_ast (Datatypes.S fuel) S (TNamed n) (Some l) ovars =
  match lookup_type S n with
  | Some (TInputObject fs) =>
    match l with
    | VObj lfs => option_map (fun kvs => JObj (keep_nonnull kvs)) (omap (lit_step fuel S lfs ovars) fs)
    | _ => Some JNull
    end
  | Some (TScalar k) => Some (parse_literal_scalar k l)
  | Some (TEnum vals) => Some (parse_literal_enum vals l)
  | _ => Some JNull
  end.
Proof. intros fuel S n l ovars H. destruct l; try reflexivity. destruct (H n0 eq_refl). Qed.

Lemma scalar_lit_parse : forall k l r, scalar_lit k l r ->
  parse_literal_scalar k l = r /\ r <> JNull /\ (forall x, l <> VVar x).
Proof.
  intros k l r H. destruct H; cbn [parse_literal_scalar]; repeat split; try congruence.
  - rewrite H. reflexivity.
  - rewrite H. reflexivity.
Qed.

Lemma literal_vars_correct_all : forall S ovars,
  (forall t l r, SLv S (vars_of ovars) t l r ->
     forall fuel r', value_from_ast fuel S t l ovars = Some r' -> r' = r) /\
  (forall t ls rs, SLvL S (vars_of ovars) t ls rs -> forall fuel rs',
      omap (fun x => value_from_ast fuel S t (Some x) ovars) ls = Some rs' -> rs' = rs) /\
  (forall fs lfs kvs, SLvF S (vars_of ovars) fs lfs kvs -> forall fuel kvs',
      omap (lit_step fuel S lfs ovars) fs = Some kvs' -> kvs' = kvs).
Proof.
  intros S ovars. apply SLv_mutind.
  - intros t x fuel r'. apply value_from_ast_var.
  - intros t _ [|fuel] r' H; [discriminate|]. cbn in H. congruence.
  - (* a variable is read the same at t and at TNonNull t *)
    intros t l r _ IH [|fuel] r' H; [discriminate|].
    destruct l; [exact (IH (Datatypes.S fuel) r' H)|exact (IH fuel r' H)..].
  - intros t ls rs _ IH [|fuel] r' H; [discriminate|]. cbn [value_from_ast] in H.
    destruct (omap _ ls) eqn:E; [|discriminate]. inversion H. f_equal. eapply IH; exact E.
  - intros t l r Hnl Hnv _ IH [|fuel] r' H; [discriminate|].
    rewrite value_from_ast_list1 in H by assumption.
    destruct (value_from_ast fuel S t (Some l) ovars) eqn:E; [|discriminate].
    inversion H. do 2 f_equal. eapply IH; exact E.
  - intros n k l r Hl Hc [|fuel] r' H; [discriminate|].
    destruct (scalar_lit_parse _ _ _ Hc) as [Hp [_ Hnv]].
    rewrite value_from_ast_named, Hl in H by exact Hnv. congruence.
  - intros n vals nm iv Hl Ha _ [|fuel] r' H; [discriminate|].
    rewrite value_from_ast_named, Hl in H by discriminate. cbn [parse_literal_enum] in H. rewrite Ha in H. congruence.
  - intros n fs lfs kvs Hl _ _ IH [|fuel] r' H; [discriminate|].
    rewrite value_from_ast_named, Hl in H by discriminate.
    destruct (omap (lit_step fuel S lfs ovars) fs) eqn:E; [|discriminate].
    inversion H. do 2 f_equal. eapply IH; exact E.
  - intros t fuel rs' H. inversion H. reflexivity.
  - intros t x y xs ys _ IHx _ IHxs fuel rs' H.
    destruct (omap_cons _ _ _ _ H) as (y' & ys' & E1 & E2 & ->). f_equal; [eapply IHx|eapply IHxs]; eassumption.
  - intros m fuel kvs' H. inversion H. reflexivity.
  - intros f fs m r rs _ IHf _ IHfs fuel kvs' H.
    destruct (omap_cons _ _ _ _ H) as (y' & ys' & E1 & E2 & ->). unfold lit_step in E1.
    destruct (value_from_ast fuel S (a_type f) (alookup (a_name f) m) ovars) eqn:E; [|discriminate].
    inversion E1. f_equal; [do 2 f_equal; eapply IHf|eapply IHfs]; eassumption.
Qed.

Theorem literal_vars_correct : forall S ovars t l r, SLv S (vars_of ovars) t l r ->
  forall fuel r', value_from_ast fuel S t l ovars = Some r' -> r' = r.
Proof. intros S ovars. apply (proj1 (literal_vars_correct_all S ovars)). Qed.

Lemma SL_SLv_all : forall S vars,
  (forall t l r, SL S t l r -> SLv S vars t l r) /\
  (forall t ls rs, SLL S t ls rs -> SLvL S vars t ls rs) /\
  (forall fs lfs kvs, SLF S fs lfs kvs -> SLvF S vars fs lfs kvs).
Proof. intros S vars. apply SL_mutind; intros; try (econstructor; eassumption). Qed.

Lemma SL_not_var : forall S t l r, SL S t l r -> forall x, l <> Some (VVar x).
Proof.
  intros S t l r H. induction H; intros x Hx; try discriminate.
  - apply (IHSL x Hx).
  - inversion Hx; subst. apply (H0 x). reflexivity.
  - inversion Hx; subst. destruct (scalar_lit_parse _ _ _ H0) as [_ [_ Hn]]. apply (Hn x). reflexivity.
Qed.

Definition ojson (l : option value) : jv := match l with Some x => json_of x | None => JNull end.

Lemma jlookup_json : forall k (lfs : list (name * value)),
  jlookup k (map (fun kv => (fst kv, json_of (snd kv))) lfs) = ojson (alookup k lfs).
Proof.
  intros k lfs. unfold jlookup. induction lfs as [|[k' v] r IH]; [reflexivity|].
  cbn [map alookup fst snd]. destruct (String.eqb k k'); [reflexivity|exact IH].
Qed.

Lemma forallb_json : forall (fs : list argdef) (lfs : list (name * value)),
  forallb (fun kv => existsb (fun f => String.eqb (fst kv) (a_name f)) fs)
          (map (fun kv => (fst kv, json_of (snd kv))) lfs)
  = forallb (fun kv => existsb (fun f => String.eqb (fst kv) (a_name f)) fs) lfs.
Proof. intros fs lfs. induction lfs as [|[k v] r IH]; [reflexivity|]. cbn [map forallb fst]. rewrite IH. reflexivity. Qed.

Lemma scalar_lit_conf : forall k l r, scalar_lit k l r -> scalar_conf k (json_of l) r.
Proof. intros k l r H. destruct H; cbn [json_of]; constructor; assumption. Qed.

Lemma json_nonnull_of_scalar_lit : forall k l r, scalar_lit k l r -> json_of l <> JNull.
Proof. intros k l r H. destruct H; cbn; congruence. Qed.

Lemma json_null_is_var : forall x, json_of x = JNull -> exists v, x = VVar v.
Proof. intros x H. destruct x; cbn in H; try discriminate. eexists; reflexivity. Qed.

Lemma SL_json_nonnull : forall S t x r, SL S t (Some x) r -> json_of x <> JNull.
Proof.
  intros S t x r H E. destruct (json_null_is_var x E) as [v ->].
  eapply SL_not_var; [exact H|reflexivity].
Qed.

Lemma literal_json_agree_all : forall S,
  (forall t l r, SL S t l r -> SC S t (ojson l) r) /\
  (forall t ls rs, SLL S t ls rs -> SCL S t (map json_of ls) rs) /\
  (forall fs lfs kvs, SLF S fs lfs kvs -> SCF S fs (map (fun kv => (fst kv, json_of (snd kv))) lfs) kvs).
Proof.
  intro S. apply SL_mutind.
  - intros t Hn. apply SC_null. exact Hn.
  - intros t l r Hsl IH. cbn [ojson] in *.
    apply SC_nonnull; [eapply SL_json_nonnull; exact Hsl|exact IH].
  - intros t ls rs _ IH. cbn [ojson json_of]. apply SC_list. exact IH.
  - intros t l r Hnl Hnv Hsl IH. cbn [ojson] in *.
    apply SC_list1; [eapply SL_json_nonnull; exact Hsl| |exact IH].
    intros l0 E. destruct l; cbn in E; try discriminate. apply (Hnl l). reflexivity.
  - intros n k l r Hl Hc. cbn [ojson]. eapply SC_scalar; [exact Hl|apply scalar_lit_conf; exact Hc].
  - intros n vals nm iv Hl Ha Hiv. cbn [ojson json_of]. eapply SC_enum; eassumption.
  - intros n fs lfs kvs Hl Hk _ IH. cbn [ojson json_of]. eapply SC_obj; [exact Hl| |exact IH].
    rewrite forallb_json. exact Hk.
  - intros t. constructor.
  - intros t x y xs ys _ IHx _ IHxs. cbn [map]. constructor; assumption.
  - intros m. constructor.
  - intros f fs m r rs _ IHf _ IHfs. constructor; [|exact IHfs].
    rewrite jlookup_json. exact IHf.
Qed.

Lemma bad_variable_rejects : forall S d input, NC S (v_type d) input ->
  forall fuel r, get_variable_value fuel S d input = Some r -> r = inr tt.
Proof.
  intros S d input H fuel r Hr. unfold get_variable_value in Hr.
  destruct (negb (is_input_type S (v_type d))); [congruence|].
  destruct (valid_input fuel S (v_type d) input) as [b|] eqn:E; [|discriminate].
  rewrite (nonconformant_rejected _ _ _ H _ _ E) in Hr. congruence.
Qed.

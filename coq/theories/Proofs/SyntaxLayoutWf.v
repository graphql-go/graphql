(* A small calculus for proving layout_wfb of the printer's layouts compositionally.
   P0 A: A may be followed by any well-formed layout (A ends in a punctuator or separator);
   P1 A: A may be followed by a well-formed layout whose text starts with a "safe" byte
         (one that cannot continue a name, a number or an empty string);
   SF A: if what follows A starts safely, so does A followed by it (A is empty or starts safely);
   SFs A: A followed by anything starts safely. *)
From Coq Require Import List NArith Bool.
From GQL Require Import Base.Bytes Syntax.Lexer Syntax.Parser Syntax.Printer
  Proofs.SyntaxUtf8 Proofs.SyntaxRender.
Import ListNotations.
Open Scope N_scope.

Definition safe_byte (b : N) : bool := negb (is_name_char b) && negb (b =? 46) && negb (b =? 34).
Definition safe_next (s : bytes) : bool := match s with [] => true | b :: _ => safe_byte b end.

Definition wf0 (L : layout) : Prop := layout_wfb L = true.
Definition wf1 (L : layout) : Prop := layout_wfb L = true /\ safe_next (flat L) = true.

Definition P0 (A : layout) : Prop := forall L, wf0 L -> wf0 (A ++ L).
Definition P1 (A : layout) : Prop := forall L, wf1 L -> wf0 (A ++ L).
Definition SF (A : layout) : Prop := forall L, safe_next (flat L) = true -> safe_next (flat (A ++ L)) = true.
Definition SFs (A : layout) : Prop := forall L, safe_next (flat (A ++ L)) = true.

Lemma safe_bound : forall s, safe_next s = true -> bound_ok s = true.
Proof.
  intros [|b r] H; [reflexivity|]. cbn in *. unfold safe_byte in H.
  apply andb_true_iff in H. destruct H as [H _]. exact H.
Qed.
Lemma safe_not_quote : forall s, safe_next s = true -> not_quote s = true.
Proof.
  intros [|b r] H; [reflexivity|]. cbn in *. unfold safe_byte in H.
  apply andb_true_iff in H. destruct H as [_ H]. exact H.
Qed.

Lemma P0_P1 : forall A, P0 A -> P1 A.
Proof. intros A H L [H1 _]. apply H. exact H1. Qed.
Lemma SFs_SF : forall A, SFs A -> SF A.
Proof. intros A H L _. apply H. Qed.

Lemma P0_nil : P0 []. Proof. intros L H. exact H. Qed.
Lemma P1_nil : P1 []. Proof. intros L [H _]. exact H. Qed.
Lemma SF_nil : SF []. Proof. intros L H. exact H. Qed.

Lemma P0_app : forall A B, P0 A -> P0 B -> P0 (A ++ B).
Proof. intros A B HA HB L H. rewrite <- app_assoc. apply HA. apply HB. exact H. Qed.
Lemma P1_app0 : forall A B, P0 A -> P1 B -> P1 (A ++ B).
Proof. intros A B HA HB L H. rewrite <- app_assoc. apply HA. apply HB. exact H. Qed.
Lemma P1_app1 : forall A B, P1 A -> P1 B -> SF B -> P1 (A ++ B).
Proof.
  intros A B HA HB SB L H. rewrite <- app_assoc. apply HA. split; [apply HB; exact H|]. apply SB. destruct H as [_ H]. exact H.
Qed.
Lemma P0_app1 : forall A B, P1 A -> P0 B -> SFs B -> P0 (A ++ B).
Proof. intros A B HA HB SB L H. rewrite <- app_assoc. apply HA. split; [apply HB; exact H|apply SB]. Qed.
Lemma SF_app : forall A B, SF A -> SF B -> SF (A ++ B).
Proof. intros A B HA HB L H. rewrite <- app_assoc. apply HA. apply HB. exact H. Qed.
Lemma SFs_app : forall A B, SFs A -> SFs (A ++ B).
Proof. intros A B HA L. rewrite <- app_assoc. apply HA. Qed.

Lemma P0_punct : forall k X, is_punct k = true -> P0 X -> P0 (PTok k [] :: X).
Proof.
  intros k X Hk HX L H. cbn [app]. unfold wf0. cbn [layout_wfb].
  assert (piece_wfb k [] (flat (X ++ L)) = true) by (destruct k; try discriminate Hk; reflexivity).
  rewrite H0. apply HX. exact H.
Qed.
Lemma P1_punct : forall k X, is_punct k = true -> P1 X -> P1 (PTok k [] :: X).
Proof.
  intros k X Hk HX L H. cbn [app]. unfold wf0. cbn [layout_wfb].
  assert (piece_wfb k [] (flat (X ++ L)) = true) by (destruct k; try discriminate Hk; reflexivity).
  rewrite H0. apply HX. exact H.
Qed.
Lemma SFs_punct : forall k X, is_punct k = true -> tkind_beq k SPREAD = false -> SFs (PTok k [] :: X).
Proof. intros k X Hk Hs L. destruct k; try discriminate Hk; try discriminate Hs; reflexivity. Qed.

Definition sep_wf (s : bytes) : bool := forallb is_sep_byte s && negb (is_nil s).

Lemma P0_sep : forall s X, sep_wf s = true -> P0 X -> P0 (PSep s :: X).
Proof.
  intros s X Hs HX L H. cbn [app]. unfold wf0. cbn [layout_wfb]. apply andb_true_iff in Hs. destruct Hs as [Hs _].
  rewrite Hs. apply HX. exact H.
Qed.
Lemma P1_sep : forall s X, sep_wf s = true -> P1 X -> P1 (PSep s :: X).
Proof.
  intros s X Hs HX L H. cbn [app]. unfold wf0. cbn [layout_wfb]. apply andb_true_iff in Hs. destruct Hs as [Hs _].
  rewrite Hs. apply HX. exact H.
Qed.
Lemma SFs_sep : forall s X, sep_wf s = true -> SFs (PSep s :: X).
Proof.
  intros s X Hs L. apply andb_true_iff in Hs. destruct Hs as [Hs Hn].
  destruct s as [|c s']; [discriminate Hn|]. cbn [forallb] in Hs. apply andb_true_iff in Hs. destruct Hs as [Hc _].
  change (flat ((PSep (c :: s') :: X) ++ L)) with (c :: s' ++ flat (X ++ L)). cbn [safe_next].
  destruct (sep_byte_cases c Hc) as [-> | [-> | ->]]; reflexivity.
Qed.

(* wordy pieces: a name, a number, a string *)
Definition wordy_ok (k : tkind) (v : bytes) : bool :=
  match k with
  | NAME => name_ok v
  | INT => num_okb v false
  | FLOAT => num_okb v true
  | STRING => str_okb v
  | _ => false
  end.

Lemma wordy_piece : forall k v rest, wordy_ok k v = true -> safe_next rest = true -> piece_wfb k v rest = true.
Proof.
  intros k v rest H S. destruct k; try discriminate H; cbn [piece_wfb wordy_ok] in *; rewrite H; cbn [andb].
  - apply safe_bound; exact S.
  - apply safe_bound; exact S.
  - apply safe_bound; exact S.
  - rewrite (safe_not_quote _ S). apply orb_true_r.
Qed.

Lemma P1_wordy : forall k v X, wordy_ok k v = true -> P1 X -> SF X -> P1 (PTok k v :: X).
Proof.
  intros k v X Hv HX SX L H. cbn [app]. unfold wf0. cbn [layout_wfb].
  rewrite (wordy_piece k v _ Hv (SX L (proj2 H))). apply HX. exact H.
Qed.
Lemma P0_wordy : forall k v X, wordy_ok k v = true -> P0 X -> SFs X -> P0 (PTok k v :: X).
Proof.
  intros k v X Hv HX SX L H. cbn [app]. unfold wf0. cbn [layout_wfb].
  rewrite (wordy_piece k v _ Hv (SX L)). apply HX. exact H.
Qed.
Lemma P1_wordy_last : forall k v, wordy_ok k v = true -> P1 [PTok k v].
Proof. intros k v Hv. apply P1_wordy; [exact Hv|apply P1_nil|apply SF_nil]. Qed.

Lemma ljoin_ne_cons : forall a b l sep, ljoin_ne (a :: b :: l) sep = a ++ PSep sep :: ljoin_ne (b :: l) sep.
Proof. reflexivity. Qed.

Lemma ljoin_ne_P1 : forall sep l, sep_wf sep = true -> Forall P1 l -> P1 (ljoin_ne l sep).
Proof.
  intros sep l Hs H. induction H as [|a l Ha Hl IH]; [apply P1_nil|].
  destruct l as [|b l']; [exact Ha|]. rewrite ljoin_ne_cons.
  apply P1_app1; [exact Ha|apply P1_sep; assumption|apply SFs_SF; apply SFs_sep; exact Hs].
Qed.
Lemma filter_Forall : forall A (P : A -> Prop) f l, Forall P l -> Forall P (filter f l).
Proof. intros A P f l H. induction H; simpl; [constructor|]. destruct (f x); [constructor; assumption|assumption]. Qed.
Lemma ljoin_P1 : forall sep l, sep_wf sep = true -> Forall P1 l -> P1 (ljoin l sep).
Proof. intros sep l Hs H. unfold ljoin. apply ljoin_ne_P1; [exact Hs|apply filter_Forall; exact H]. Qed.

(* the first element of a join decides how it starts *)
Lemma ljoin_SF : forall sep l, sep_wf sep = true -> Forall SF l -> SF (ljoin l sep).
Proof.
  intros sep l Hs H. unfold ljoin. induction H as [|a l Ha Hl IH]; [apply SF_nil|].
  cbn [filter]. destruct (is_nil a) eqn:E; cbn [negb]; [exact IH|].
  destruct (filter (fun x => negb (is_nil x)) l) as [|b l'] eqn:F; [exact Ha|].
  rewrite ljoin_ne_cons. apply SF_app; [exact Ha|apply SFs_SF; apply SFs_sep; exact Hs].
Qed.

Lemma lwrap_P1 : forall a m b, P0 a -> P1 m -> P0 b -> SFs b -> P1 (lwrap a m b).
Proof.
  intros a m b Ha Hm Hb Sb. unfold lwrap. destruct (is_nil m); [apply P1_nil|].
  apply P1_app0; [exact Ha|]. apply P0_P1. apply P0_app1; assumption.
Qed.
Lemma lwrap_P1_open : forall a m, P0 a -> P1 m -> P1 (lwrap a m []).
Proof.
  intros a m Ha Hm. unfold lwrap. destruct (is_nil m); [apply P1_nil|]. rewrite app_nil_r. apply P1_app0; assumption.
Qed.
Lemma lwrap_SF : forall a m b, SFs a -> SF (lwrap a m b).
Proof. intros a m b Ha. unfold lwrap. destruct (is_nil m); [apply SF_nil|]. apply SFs_SF. apply SFs_app. exact Ha. Qed.

(* indent keeps separators separators, and does not touch tokens *)
Lemma indent_sep_eq : forall s, forallb is_sep_byte (indent_bytes s) = forallb is_sep_byte s.
Proof.
  induction s as [|c s IH]; [reflexivity|]. cbn [indent_bytes]. destruct (c =? 10) eqn:E.
  - apply N.eqb_eq in E. subst. cbn [forallb]. rewrite IH. reflexivity.
  - cbn [forallb]. rewrite IH. reflexivity.
Qed.
Lemma indent_sep : forall s, forallb is_sep_byte s = true -> forallb is_sep_byte (indent_bytes s) = true.
Proof. intros s H. rewrite indent_sep_eq. exact H. Qed.

(* The calculus as a hint database: for a layout written out piece by piece, [auto with lay]
   finds the P0 / P1 / SF / SFs derivation from the facts about its variable parts in the context. *)
Create HintDb lay.
#[export] Hint Resolve P0_nil P1_nil SF_nil P0_punct P1_punct P0_sep P1_sep P0_wordy P1_wordy
  SFs_punct SFs_sep SFs_SF SF_app SFs_app P1_app1 P1_app0 lwrap_P1 lwrap_P1_open lwrap_SF ljoin_P1
  Forall_cons Forall_nil : lay.
#[export] Hint Extern 1 (_ = true) => reflexivity : lay.
#[export] Hint Extern 1 (_ = false) => reflexivity : lay.

(* indent() does not change well-formedness: it leaves the first byte of every piece's text as it was *)
Lemma piece_wfb_hd : forall k v r1 r2, hd_error r1 = hd_error r2 -> piece_wfb k v r1 = piece_wfb k v r2.
Proof.
  intros k v r1 r2 H. destruct r1 as [|a r1], r2 as [|b r2]; try discriminate H; [reflexivity|].
  inversion H; subst. destruct k; reflexivity.
Qed.
Lemma indent_bytes_hd : forall s, hd_error (indent_bytes s) = hd_error s.
Proof. intros [|c s]; [reflexivity|]. cbn [indent_bytes]. destruct (c =? 10) eqn:E; [apply N.eqb_eq in E; subst; reflexivity|reflexivity]. Qed.

Lemma lindent_hd : forall X L, hd_error (flat (lindent X ++ L)) = hd_error (flat (X ++ L)).
Proof.
  induction X as [|p X IH]; intro L; [reflexivity|]. destruct p as [k v|s|d s]; cbn [lindent map app]; fold (lindent X).
  - change (flat (PTok k v :: lindent X ++ L)) with (render_piece (PTok k v) ++ flat (lindent X ++ L)).
    change (flat (PTok k v :: X ++ L)) with (render_piece (PTok k v) ++ flat (X ++ L)).
    destruct (render_piece (PTok k v)) as [|b r] eqn:E; [cbn [app]; apply IH|reflexivity].
  - change (flat (PSep (indent_bytes s) :: lindent X ++ L)) with (indent_bytes s ++ flat (lindent X ++ L)).
    change (flat (PSep s :: X ++ L)) with (s ++ flat (X ++ L)).
    destruct s as [|c s']; [cbn [indent_bytes app]; apply IH|].
    pose proof (indent_bytes_hd (c :: s')) as Hh. destruct (indent_bytes (c :: s')) as [|c' s'']; [discriminate Hh|].
    cbn [app hd_error] in *. exact Hh.
  - reflexivity.
Qed.

Lemma lindent_wfb : forall X L, layout_wfb (lindent X ++ L) = layout_wfb (X ++ L).
Proof.
  induction X as [|p X IH]; intro L; [reflexivity|]. destruct p as [k v|s|d s]; cbn [lindent map app layout_wfb].
  - fold (lindent X). rewrite IH. f_equal. apply piece_wfb_hd. apply lindent_hd.
  - fold (lindent X). rewrite IH, indent_sep_eq. reflexivity.
  - fold (lindent X). rewrite IH. reflexivity.
Qed.

Lemma lindent_P1 : forall X, P1 X -> P1 (lindent X).
Proof. intros X H L HL. unfold wf0. rewrite lindent_wfb. apply H. exact HL. Qed.

Lemma lblock_P0 : forall items, Forall P1 items -> P0 (lblock items).
Proof.
  intros items H. unfold lblock. destruct items as [|a items']; cbn [is_nil]; [auto with lay|].
  apply P0_app1; [apply lindent_P1|..]; auto with lay.
Qed.
Lemma lblock_SFs : forall items, SFs (lblock items).
Proof. intros items L. unfold lblock. destruct (is_nil items); reflexivity. Qed.
#[export] Hint Resolve lindent_P1 lblock_SFs : lay.

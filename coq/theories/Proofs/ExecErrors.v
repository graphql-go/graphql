(* C01 / C04, "a field that fails contributes null together with an error whose path addresses
   that field": for every resolver invocation of a request whose (not deferred) outcome is a
   failure -- an error, a value together with an error, a panic of any kind -- the response
   carries an error with exactly that field's response path and the field's occurrences as
   locations; wherever the null it causes ends up.  (A deferred outcome fails when it is forced;
   it is forced unless the enclosing subtree was nulled in the meantime.) *)
From Coq Require Import List ZArith NArith String Bool.
From GQL Require Import Exec.Syntax Exec.Coerce Exec.Exec Exec.Request Exec.Conform Proofs.ExecField Proofs.ExecInv.
Import ListNotations.
Open Scope string_scope.
Open Scope list_scope.

Definition is_val (o : outcome) : bool := match o with OVal _ => true | _ => false end.

Section Err.
Variable E : env.

(* the resolver at the invocation's path answered, at once, with a failure *)
Definition fails_now (c : call) : Prop :=
  exists o o', en_or E (c_path c) = Some o /\ force o = (o', false) /\ is_val o' = false.

Definition reported (es : list gerr) (c : call) : Prop :=
  exists e, In e es /\ e_path e = c_path c /\ e_nodes e = c_nodes c.

Definition rec (pend : option gerr) (s s' : st) : Prop :=
  exists cs es, st_calls s' = st_calls s ++ cs /\ st_errs s' = st_errs s ++ es /\
    forall c, In c cs -> fails_now c ->
      reported es c \/ (exists e, pend = Some e /\ e_path e = c_path c /\ e_nodes e = c_nodes c).

Lemma rec_refl : forall pend s, rec pend s s.
Proof. intros pend s. exists [], []. rewrite !app_nil_r. repeat split; auto. intros c []. Qed.

Lemma rec_eq : forall pend s s', st_calls s' = st_calls s -> st_errs s' = st_errs s -> rec pend s s'.
Proof. intros pend s s' H1 H2. exists [], []. rewrite !app_nil_r. repeat split; auto. intros c []. Qed.

Lemma reported_incl : forall es es' c, incl es es' -> reported es c -> reported es' c.
Proof. intros es es' c Hi [e [H1 H2]]. exists e. split; [apply Hi; exact H1|exact H2]. Qed.

(* everything before is settled; what follows may leave one failure pending *)
Lemma rec_trans : forall pend s1 s2 s3, rec None s1 s2 -> rec pend s2 s3 -> rec pend s1 s3.
Proof.
  intros pend s1 s2 s3 [c1 [e1 [C1 [E1 F1]]]] [c2 [e2 [C2 [E2 F2]]]].
  exists (c1 ++ c2), (e1 ++ e2). split; [rewrite C2, C1, app_assoc; reflexivity|].
  split; [rewrite E2, E1, app_assoc; reflexivity|].
  intros c Hc Hf. apply in_app_or in Hc. destruct Hc as [Hc|Hc].
  - destruct (F1 c Hc Hf) as [Hr|[e [He _]]]; [left; exact (reported_incl _ _ _ (incl_appl _ (incl_refl _)) Hr)|discriminate].
  - destruct (F2 c Hc Hf) as [Hr|Hp]; [left; exact (reported_incl _ _ _ (incl_appr _ (incl_refl _)) Hr)|right; exact Hp].
Qed.

(* recording the pending failure settles it *)
Lemma rec_add_err : forall e s s', rec (Some e) s s' -> rec None s (add_err e s').
Proof.
  intros e s s' [cs [es [C1 [E1 F1]]]]. exists cs, (es ++ [e]).
  split; [exact C1|]. split; [cbn; rewrite E1, app_assoc; reflexivity|].
  intros c Hc Hf. left. destruct (F1 c Hc Hf) as [Hr|[e0 [He [Hp Hn]]]].
  - exact (reported_incl _ _ _ (incl_appl _ (incl_refl _)) Hr).
  - inversion He; subst e0. exists e. split; [apply in_or_app; right; left; reflexivity|split; assumption].
Qed.

(* a new failure may be raised once everything before is settled *)
Lemma rec_raise : forall e s s', rec None s s' -> rec (Some e) s s'.
Proof.
  intros e s s' [cs [es [C1 [E1 F1]]]]. exists cs, es. repeat split; auto.
  intros c Hc Hf. destruct (F1 c Hc Hf) as [Hr|[e0 [He _]]]; [left; exact Hr|discriminate].
Qed.

Definition eres {A : Type} (s : st) (r : xres A) : Prop :=
  match r with
  | XOk _ s' => rec None s s'
  | XRaise e s' => rec (Some e) s s'
  | XFuel => True
  end.

Lemma eres_pre : forall A s0 s (r : xres A), rec None s0 s -> eres s r -> eres s0 r.
Proof. intros A s0 s [y s'|e s'|] H Hr; cbn in *; auto; eapply rec_trans; eassumption. Qed.

Lemma eres_catch : forall s t r, eres s r -> eres s (catch_at t r).
Proof.
  intros s t [y s'|e s'|] H; cbn in *; auto.
  destruct (is_nonnull t); cbn; [exact H|]. apply rec_add_err. exact H.
Qed.

Lemma eres_escapes : forall s th r, eres s r -> eres s (escapes th r).
Proof.
  intros s th [q s'|e s'|] H; try exact H. destruct th; [|exact H].
  destruct H as [cs [es [C1 [E1 F1]]]]. exists cs, es. repeat split; auto.
Qed.

Lemma eres_xmap : forall A B (f : A -> B) s r, eres s r -> eres s (xmap f r).
Proof. intros A B f s [a s'|e s'|] H; exact H. Qed.

(* the invocation itself: settled unless it fails at once, and then its error is the pending one *)
Lemma rec_field_call : forall obj src k occs p args s o th,
  asked E (p ++ [PKey k]) = (o, th) ->
  let c := field_call obj src k occs p args in
  let s2 := after_call E obj src k occs p args s in
  (th = true \/ is_val o = true -> rec None s s2) /\
  rec (Some {| e_path := p ++ [PKey k]; e_nodes := map oc_id occs |}) s s2.
Proof.
  intros obj src k occs p args s o th Ho c s2.
  pose proof (after_call_calls E obj src k occs p args s) as Hc2. pose proof (after_call_errs E obj src k occs p args s) as He2.
  split; [intros Hok|]; exists [c], []; rewrite app_nil_r; repeat split; auto; intros c' [<-|[]] Hf.
  - exfalso. destruct Hf as [o1 [o2 [H1 [H2 H3]]]]. unfold asked in Ho. cbn [c field_call c_path] in H1.
    rewrite H1, H2 in Ho. inversion Ho; subst. rewrite H3 in Hok. destruct Hok; discriminate.
  - right. eexists. split; [reflexivity|]. split; reflexivity.
Qed.

Lemma run_err : forall j, Run E j ->
  match j with
  | Complete _ _ _ _ _ _ s r | Object _ _ _ _ s r | Dethunk _ s r => eres s r
  | Items _ _ _ _ _ _ _ s r | DList _ s r => eres s r
  | Groups _ _ _ _ s r | DFields _ s r => eres s r
  | Field _ _ _ _ _ s r => eres s r
  | Invoke _ _ _ _ _ s _ r => eres s r
  | Outcome _ nodes _ p o s r => eres s r /\ (is_val o = false -> r = XRaise {| e_path := p; e_nodes := nodes |} s)
  end.
Proof.
  assert (Hnext : forall A B C (f : B -> C) s (y : A) s' r, eres s (XOk y s') -> eres s' r -> eres s (xmap f r)).
  { intros A B C f s y s' r H1 H2. apply eres_xmap. eapply eres_pre; eassumption. }
  apply Run_ind; cbv beta iota.
  - intros t nodes occs fpath p v s [[]|e s'|] _ IH; try exact IH. apply rec_raise. exact IH.
  - intros. apply rec_refl.
  - intros. apply rec_refl.
  - intros. apply rec_refl.
  - intros t nodes occs fpath p v s s' Hs. apply rec_raise. apply rec_eq; destruct Hs as [->| ->]; reflexivity.
  - intros t nodes occs fpath p l s r _ IH. apply eres_xmap. exact IH.
  - intros n rt nodes occs fpath p v s s1 r _ _ Hs _ IH. eapply eres_pre; [|exact IH].
    apply rec_eq; destruct Hs as [->| ->]; reflexivity.
  - intros. apply rec_refl.
  - intros t nodes occs fpath p x l i s r1 e s' _ IH Ec. apply (eres_catch _ t) in IH. rewrite Ec in IH. exact IH.
  - intros t nodes occs fpath p x l i s r1 y s' r _ IH Ec _ IH2. apply (eres_catch _ t) in IH. rewrite Ec in IH.
    eapply Hnext; eassumption.
  - intros obj occs p src s fuel g r _ _ IH. apply eres_xmap. exact IH.
  - intros. apply rec_refl.
  - intros obj src k occs g p s e s' _ IH. exact IH.
  - intros obj src k occs g p s y s' r _ IH _ IH2. eapply Hnext; eassumption.
  - intros. apply rec_refl.
  - intros. apply rec_refl.
  - intros obj src k occs p s fd r1 _ IH. apply eres_xmap. apply eres_catch. exact IH.
  - intros obj src k occs s fd r1 y s' r _ IH Ec _ _ IHd. apply (eres_catch _ (f_type fd)) in IH. rewrite Ec in IH.
    eapply Hnext; eassumption.
  - intros obj src k occs p s fd fuel args o _ _ _ Ho _.
    apply (rec_field_call obj src k occs p args s o true Ho). left. reflexivity.
  - intros obj src k occs p s fd fuel args o thunked r _ _ _ Ho _ _ [IH Hfail].
    apply eres_escapes. destruct (rec_field_call obj src k occs p args s o thunked Ho) as [Hok Hraise].
    destruct (is_val o) eqn:Ev; [eapply eres_pre; [apply Hok; right; reflexivity|exact IH]|].
    rewrite (Hfail eq_refl). exact Hraise.
  - intros t nodes occs p v s r _ IH. split; [exact IH|discriminate].
  - intros t nodes occs p o s Ho. split; [apply rec_raise, rec_refl|reflexivity].
  - intros. apply rec_refl.
  - intros l s r _ IH. apply eres_xmap. exact IH.
  - intros l s r _ IH. apply eres_xmap. exact IH.
  - intros t nodes occs p o s r1 e s' _ [IH _] Ec. apply (eres_catch _ t) in IH. rewrite Ec in IH. exact IH.
  - intros t nodes occs p o s r1 y s' r _ [IH _] Ec _ IHd. apply (eres_catch _ t) in IH. rewrite Ec in IH.
    eapply eres_pre; eassumption.
  - intros. apply rec_refl.
  - intros x l s e s' _ IH. exact IH.
  - intros x l s y s' r _ IH _ IH2. eapply Hnext; eassumption.
  - intros. apply rec_refl.
  - intros k x l s e s' _ IH. exact IH.
  - intros k x l s y s' r _ IH _ IH2. eapply Hnext; eassumption.
Qed.
End Err.

Theorem request_failures_reported : forall fuel S D opn inputs root or tor data s,
  request fuel S D opn inputs root or tor = RDone data s ->
  exists op vars,
    get_operation D opn = Some op /\
    get_variable_values fuel S (o_vars op) inputs = Some (inl vars) /\
    let E := {| en_S := S; en_D := D; en_vars := vars; en_or := or; en_tor := tor;
                en_serial := match o_kind op with OpMutation => true | _ => false end |} in
    forall c, In c (st_calls s) -> fails_now E c -> reported (st_errs s) c.
Proof.
  intros fuel S D opn inputs root or tor data s H.
  destruct (request_run _ _ _ _ _ _ _ _ _ _ H) as [op [rt [vars [g [v [Eop [_ [Ev [_ Hf]]]]]]]]].
  exists op, vars. split; [exact Eop|]. split; [exact Ev|]. cbv zeta.
  match type of Hf with Finished ?E0 _ _ _ _ _ => set (E := E0) in * end.
  assert (Hfin : forall s', rec E None st0 s' -> forall c, In c (st_calls s') -> fails_now E c -> reported (st_errs s') c).
  { intros s' [cs [es [C1 [E1 F1]]]] c Hc Hfc. rewrite C1 in Hc. rewrite E1.
    destruct (F1 c Hc Hfc) as [Hr|[e0 [He _]]]; [exact Hr|discriminate]. }
  inversion Hf as [fs s1 q s' Hg1 Hd1|e s1 Hg1]; subst; apply Hfin.
  - eapply rec_trans; [exact (run_err E _ Hg1)|exact (run_err E _ Hd1)].
  - apply rec_add_err. exact (run_err E _ Hg1).
Qed.

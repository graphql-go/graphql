(* Soundness of the executable overlap algorithm with an explicit witness: every node the
   run reports (memoised or not, any fuel, any document) is a field a of some visited
   selection set s for which there is a field b, both reachable in the unfolded set (EF),
   with the same response key and a concrete conflict Cfl: their names / arguments / return
   types disagree, or -- recursively -- two fields of their unfolded sub-selections with one
   response key do. *)
From Coq Require Import List Bool NArith.
From GQL Require Import Exec.Syntax Validate.Overlap Validate.OverlapSpec Proofs.ValidateRules Proofs.ValidateRun
     Proofs.ValidateOverlap.
Import ListNotations.
Open Scope string_scope.
Open Scope list_scope.

Section Witness.
Variable S : schema.
Variable D : document.
Variable memo : bool.

Notation EF := (EF S D).
Notation fbody := (fbody S D).
Notation exf := (exf S).

Inductive Cfl : bool -> fentry -> fentry -> Prop :=
| C_base : forall fl a b, base2 S (exf fl a b) a b = false -> Cfl fl a b
| C_sub : forall fl a b a' b', subs a b ->
    EF (subset_of a) a' -> EF (subset_of b) b' -> fe_key a' = fe_key b' ->
    Cfl (exf fl a b) a' b' -> Cfl fl a b.

Lemma Cfl_not_compat : forall fl a b, Cfl fl a b -> ~ compat S D (base2 S) fl a b.
Proof.
  intros fl a b H. induction H as [fl a b Hb | fl a b a' b' Hs Ha Hb Hk Hc IH]; intro C;
    inversion C as [fl0 a0 b0 Cb Cs]; subst.
  - rewrite Cb in Hb. discriminate.
  - apply IH. apply (Cs Hs a' b' Ha Hb Hk).
Qed.

Lemma Cfl_sym : forall fl a b, Cfl fl a b -> Cfl fl b a.
Proof.
  intros fl a b H. induction H as [fl a b Hb | fl a b a' b' Hs Ha Hb Hk Hc IH].
  - apply C_base. rewrite exf_sym, base2_sym. exact Hb.
  - apply (C_sub fl b a b' a'); [apply subs_sym; exact Hs | exact Hb | exact Ha | symmetry; exact Hk|].
    rewrite exf_sym. exact IH.
Qed.

Lemma nonempty_in : forall {A} (l : list A), l <> [] -> exists x, In x l.
Proof. intros A l. apply nonempty_ex. Qed.

(* x is the node of a field satisfying A that conflicts with a field satisfying B *)
Definition Wit (fl : bool) (A B : fentry -> Prop) (x : N) : Prop :=
  exists a b, A a /\ B b /\ fe_key a = fe_key b /\ x = fe_id a /\ Cfl fl a b.

Lemma Wit_mono : forall fl (A A' B B' : fentry -> Prop),
  (forall a, A a -> A' a) -> (forall b, B b -> B' b) -> forall x, Wit fl A B x -> Wit fl A' B' x.
Proof. intros fl A A' B B' HA HB x (a & b & Ha & Hb & H). exists a, b. auto. Qed.

Lemma Wit_sym : forall fl (A B : fentry -> Prop) x, Wit fl A B x -> exists y, Wit fl B A y.
Proof.
  intros fl A B x (a & b & Ha & Hb & Hk & _ & C). exists (fe_id b), b, a.
  repeat split; [exact Hb | exact Ha | symmetry; exact Hk | apply Cfl_sym, C].
Qed.

(* the fields reachable through the spread of g *)
Definition EFg (g : name) (b : fentry) : Prop := exists bd, fbody g = Some bd /\ EF bd b.

Lemma EFg_EF : forall s g b, In g (dspreads (snd s)) -> EFg g b -> EF s b.
Proof. intros s g b Hg (bd & Eb & Hb). apply (EF_s S D s g bd b (dspreads_raw_in _ _ Hg) Eb Hb). Qed.

Lemma EFg_d : forall g bd b, fbody g = Some bd -> In b (fields S bd) -> EFg g b.
Proof. intros g bd b Eb Hb. exists bd. split; [exact Eb | apply EF_d, Hb]. Qed.

Lemma EFg_s : forall g bd h b, fbody g = Some bd -> In h (dspreads (snd bd)) -> EFg h b -> EFg g b.
Proof. intros g bd h b Eb Hh Hb. exists bd. split; [exact Eb | apply (EFg_EF bd h b Hh Hb)]. Qed.

Lemma exec_witness : forall f,
  (forall fl a b, reports (fun x => x = fe_id a /\ Cfl fl a b) (Overlap.fc S D memo f fl a b)) /\
  (forall fl l1 l2, reports (Wit fl (fun a => In a l1) (fun b => In b l2)) (between S D memo f fl l1 l2)) /\
  (forall fl s1 s2, reports (fun _ => exists y, Wit fl (EF s1) (EF s2) y) (Overlap.subsets S D memo f fl s1 s2)) /\
  (forall fl s g, reports (Wit fl (fun a => In a (fields S s)) (EFg g)) (ffrag S D memo f fl s g)) /\
  (forall fl g1 g2, reports (Wit fl (EFg g1) (EFg g2)) (frfr S D memo f fl g1 g2)).
Proof.
  induction f as [|f (Ifc & Ibt & Isub & Iff & Ifr)]; [split; [|split; [|split; [|split]]]; intros; apply reports_nil; reflexivity|].
  split; [|split; [|split; [|split]]].
  - intros fl a b st x. rewrite fc_S. destruct (base_ok S (exf fl a b) a b) eqn:Eb; simpl.
    2:{ intros [H|[]]. split; [symmetry; exact H|]. apply C_base. unfold base2. rewrite Eb. reflexivity. }
    destruct (has_sub a && has_sub b) eqn:Es; [|intros []]. cbv zeta. simpl.
    destruct (fst (Overlap.subsets _ _ _ _ _ _ _ _)) as [|c cs] eqn:E; [intros []|]. intros [H|[]]. split; [symmetry; exact H|].
    destruct (Isub (exf fl a b) (subset_of a) (subset_of b) (inc_fc st) c) as (y & a' & b' & Ha & Hb & Hk & _ & Hc);
      [rewrite E; left; reflexivity|].
    apply andb_true_iff in Es. apply (C_sub fl a b a' b' Es Ha Hb Hk Hc).
  - intros fl l1 l2. apply (reports_ext _ _ _ (between_S S D memo f fl l1 l2)).
    apply reports_seq. intros k _. apply reports_seq. intros a Ha. apply reports_seq. intros b Hb.
    apply with_key_in in Ha. apply with_key_in in Hb. destruct Ha as [Ha Ka]. destruct Hb as [Hb Kb].
    eapply reports_weaken; [|apply Ifc]. intros x [Ex C]. exists a, b. repeat split; try assumption. congruence.
  - intros fl s1 s2. apply (reports_ext _ _ _ (subsets_S S D memo f fl s1 s2)).
    repeat apply reports_andthen; [| apply reports_seq; intros g Hg | apply reports_seq; intros g Hg
                                   | apply reports_seq; intros g Hg; apply reports_seq; intros h Hh];
      (eapply reports_weaken; [|apply Ibt || apply Iff || apply Ifr]); intros x H.
    + exists x. revert H. apply Wit_mono; intros; apply EF_d; assumption.
    + exists x. revert H. apply Wit_mono; [intros a Ha; apply EF_d, Ha | intros b Hb; apply (EFg_EF s2 g b Hg Hb)].
    + apply (Wit_sym fl (EF s2) (EF s1) x). revert H.
      apply Wit_mono; [intros a Ha; apply EF_d, Ha | intros b Hb; apply (EFg_EF s1 g b Hg Hb)].
    + exists x. revert H. apply Wit_mono; [intros a Ha; apply (EFg_EF s1 g a Hg Ha) | intros b Hb; apply (EFg_EF s2 h b Hh Hb)].
  - intros fl s g. apply (reports_ext _ _ _ (ffrag_S S D memo f fl s g)). apply reports_guard.
    destruct (fbody g) as [bd|] eqn:Eb; [|apply reports_ret]. destruct (same_set s bd); [apply reports_ret|].
    apply reports_andthen; [|apply reports_seq; intros h Hh]; (eapply reports_weaken; [|apply Ibt || apply Iff]);
      (apply Wit_mono; [auto|]); intros b Hb; [apply (EFg_d g bd b Eb Hb) | apply (EFg_s g bd h b Eb Hh Hb)].
  - intros fl g1 g2 st. rewrite frfr_S.
    destruct (fbody g1) as [b1|] eqn:E1; [|apply reports_ret]. destruct (fbody g2) as [b2|] eqn:E2; [|apply reports_ret].
    destruct (String.eqb g1 g2); [apply reports_ret|]. revert st. apply reports_guard.
    repeat apply reports_andthen; [|apply reports_seq; intros h Hh|apply reports_seq; intros h Hh];
      (eapply reports_weaken; [|apply Ibt || apply Ifr]); apply Wit_mono; auto.
    + intros a Ha. apply (EFg_d g1 b1 a E1 Ha).
    + intros b Hb. apply (EFg_d g2 b2 b E2 Hb).
    + intros b Hb. apply (EFg_s g2 b2 h b E2 Hh Hb).
    + intros a Ha. apply (EFg_s g1 b1 h a E1 Hh Ha).
Qed.

Definition Offends (s : fset) : N -> Prop := Wit false (EF s) (EF s).

Lemma within_set_witness : forall fuel s, reports (Offends s) (within_set S D memo fuel s).
Proof.
  intros fuel s. destruct (exec_witness fuel) as (Ifc & _ & _ & Iff & Ifr). apply reports_within_set.
  - intros k _. apply ForallPairs_ForallOrdPairs. intros a b Ha Hb.
    apply with_key_in in Ha. apply with_key_in in Hb. destruct Ha as [Ha Ka]. destruct Hb as [Hb Kb].
    eapply reports_weaken; [|apply Ifc]. intros x [Ex C].
    exists a, b. repeat split; [apply EF_d, Ha | apply EF_d, Hb | congruence | exact Ex | exact C].
  - intros g Hg. eapply reports_weaken; [|apply Iff].
    apply Wit_mono; [intros a Ha; apply EF_d, Ha | intros b Hb; apply (EFg_EF s g b Hg Hb)].
  - apply ForallPairs_ForallOrdPairs. intros g h Hg Hh. eapply reports_weaken; [|apply Ifr].
    apply Wit_mono; [intros a Ha; apply (EFg_EF s g a Hg Ha) | intros b Hb; apply (EFg_EF s h b Hh Hb)].
Qed.

Theorem overlap_located : forall fuel x, In x (run_overlap S D memo fuel) ->
  exists s, In s (all_sets S D) /\ Offends s x.
Proof.
  intros fuel x. apply (reports_seq (fun x => exists s, In s (all_sets S D) /\ Offends s x)).
  intros s Hs. eapply reports_weaken; [|apply within_set_witness]. intros y Hy. exists s. auto.
Qed.
End Witness.

Theorem overlap_sound_witness : forall S D memo fuel x, In x (run_overlap S D memo fuel) ->
  exists s a b, doc_sets S D s /\ EF S D s a /\ EF S D s b /\ fe_key a = fe_key b /\ fe_id a = x /\
                Cfl S D false a b /\ ~ compat S D (base2 S) false a b.
Proof.
  intros S D memo fuel x H. destruct (overlap_located S D memo fuel x H) as [s [Hs [a [b [Ha [Hb [Hk [Ex C]]]]]]]].
  exists s, a, b. repeat split; try assumption; [left; exact Hs | symmetry; exact Ex | apply Cfl_not_compat; exact C].
Qed.

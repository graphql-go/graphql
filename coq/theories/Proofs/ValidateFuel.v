(* Fuel of the overlap algorithm.
   Irrelevance (run_fuel_mono): a run that completes within its fuel (no out-of-fuel flag)
   returns exactly the same conflicts and memo tables with any larger fuel -- memoised or not,
   cyclic documents included.
   Sufficiency (fuel_sufficient), on acyclic documents: with fuel_of D (Validate/OverlapWf.v)
   neither the memoised nor the unmemoised run sets the out-of-fuel flag.  Every recursive
   call decreases h(s1) + h(s2), where the height h of a selection
   set is (1 + highest rank of a fragment spread anywhere inside) * (1 + deepest field
   nesting of a fragment body) + its own field nesting: going into the sub-selection of a
   field lowers the nesting, going into a spread fragment lowers the rank. *)
From Coq Require Import List Arith Lia Bool String RelationClasses.
From GQL Require Import Exec.Syntax Validate.Overlap Validate.OverlapSpec Validate.OverlapWf
     Proofs.ValidateRules Proofs.ValidateOverlap Proofs.ValidateRun Proofs.ValidateCost Proofs.ValidateL1
     Proofs.ValidateMemoHard Proofs.ValidateReflect Proofs.ValidateRank.
Import ListNotations.
Open Scope string_scope.
Open Scope list_scope.

(* [p] never resets the out-of-fuel flag, and [p'] does what [p] does whenever [p], started
   with the flag clear, ends with it clear.  Both halves pass through [andthen], [seq] and
   [guard]; the first is what lets the second look at the state between two steps. *)
Definition agree (p p' : act) : Prop :=
  (forall st, m_oof st = true -> m_oof (snd (p st)) = true) /\
  (forall st, m_oof st = false -> m_oof (snd (p st)) = false -> p' st = p st).

Lemma agree_ext : forall p q p' q' : act,
  (forall st, p st = q st) -> (forall st, p' st = q' st) -> agree q q' -> agree p p'.
Proof. intros p q p' q' E E' [H1 H2]. split; intro st; rewrite E; [|rewrite E']; auto. Qed.

Lemma agree_ret : agree ret ret.
Proof. split; auto. Qed.

Lemma agree_andthen : forall p q p' q', agree p p' -> agree q q' -> agree (andthen p q) (andthen p' q').
Proof.
  intros p q p' q' [Sp Ap] [Sq Aq]. split; [intros st H; apply Sq, Sp, H|]. intros st Ho Hf. unfold andthen in *. cbn [snd] in Hf.
  assert (O1 : m_oof (snd (p st)) = false).
  { destruct (m_oof (snd (p st))) eqn:E; [|reflexivity]. rewrite (Sq _ E) in Hf. discriminate. }
  rewrite (Ap st Ho O1), (Aq _ O1 Hf). reflexivity.
Qed.

Lemma agree_seq : forall {A} (step step' : A -> act) l,
  (forall x, In x l -> agree (step x) (step' x)) -> agree (seq step l) (seq step' l).
Proof.
  intros A step step' l. induction l as [|x r IH]; intro H; [exact agree_ret|].
  apply (agree_ext _ _ _ _ (seq_step step x r) (seq_step step' x r)).
  apply agree_andthen; [apply H; left; reflexivity | apply IH; intros y Hy; apply H; right; exact Hy].
Qed.

Lemma agree_guard : forall memo hit add body body', (forall st, m_oof (add st) = m_oof st) ->
  agree body body' -> agree (guard memo hit add body) (guard memo hit add body').
Proof.
  intros memo hit add body body' Ha [Sb Ab]. unfold guard.
  split; intro st; (destruct (memo && hit st); [auto|]); (destruct memo; [rewrite <- (Ha st)|]); auto.
Qed.

Section Mono.
Variable S : schema.
Variable D : document.
Variable memo : bool.

Lemma fuel_mono : forall f k,
  (forall fl a b, agree (Overlap.fc S D memo f fl a b) (Overlap.fc S D memo (f + k) fl a b)) /\
  (forall fl l1 l2, agree (between S D memo f fl l1 l2) (between S D memo (f + k) fl l1 l2)) /\
  (forall fl s1 s2, agree (Overlap.subsets S D memo f fl s1 s2) (Overlap.subsets S D memo (f + k) fl s1 s2)) /\
  (forall fl s g, agree (ffrag S D memo f fl s g) (ffrag S D memo (f + k) fl s g)) /\
  (forall fl g1 g2, agree (frfr S D memo f fl g1 g2) (frfr S D memo (f + k) fl g1 g2)).
Proof.
  intros f k. induction f as [|f (Ifc & Ibt & Isub & Iff & Ifr)]; [repeat split; intros; discriminate|].
  change (Datatypes.S f + k) with (Datatypes.S (f + k)). split; [|split; [|split; [|split]]]; intros.
  - split; intros st Ho.
    + rewrite fc_S. destruct (negb _); [exact Ho|]. destruct (has_sub a && has_sub b); [|exact Ho].
      exact (proj1 (Isub _ _ _) (inc_fc st) Ho).
    + intro Hf. rewrite fc_S in Hf. rewrite !fc_S. destruct (negb _); [reflexivity|].
      destruct (has_sub a && has_sub b); [|reflexivity]. cbv zeta in *. cbn [snd] in Hf.
      rewrite (proj2 (Isub _ _ _) (inc_fc st) Ho Hf). reflexivity.
  - apply (agree_ext _ _ _ _ (between_S S D memo f fl l1 l2) (between_S S D memo (f + k) fl l1 l2)).
    repeat (apply agree_seq; intros ? _). apply Ifc.
  - apply (agree_ext _ _ _ _ (subsets_S S D memo f fl s1 s2) (subsets_S S D memo (f + k) fl s1 s2)).
    repeat apply agree_andthen; [apply Ibt | | | apply agree_seq; intros ? _]; apply agree_seq; intros ? _; auto.
  - apply (agree_ext _ _ _ _ (ffrag_S S D memo f fl s g) (ffrag_S S D memo (f + k) fl s g)).
    apply agree_guard; [reflexivity|]. destruct (fbody S D g) as [b|]; [|exact agree_ret].
    destruct (same_set s b); [exact agree_ret|]. apply agree_andthen; [apply Ibt | apply agree_seq; intros ? _; apply Iff].
  - apply (agree_ext _ _ _ _ (frfr_S S D memo f fl g1 g2) (frfr_S S D memo (f + k) fl g1 g2)).
    destruct (fbody S D g1) as [b1|]; [|exact agree_ret]. destruct (fbody S D g2) as [b2|]; [|exact agree_ret].
    destruct (String.eqb g1 g2); [exact agree_ret|]. apply agree_guard; [reflexivity|].
    repeat apply agree_andthen; [apply Ibt | |]; apply agree_seq; intros ? _; apply Ifr.
Qed.

Lemma within_set_mono : forall f k s, agree (within_set S D memo f s) (within_set S D memo (f + k) s).
Proof.
  intros f k s. destruct (fuel_mono f k) as (Ifc & _ & _ & Iff & Ifr).
  apply (agree_ext _ _ _ _ (within_set_eq S D memo f s) (within_set_eq S D memo (f + k) s)). apply agree_andthen.
  - apply agree_seq. intros x _. induction (with_key x (fields S s)) as [|a r IH]; [exact agree_ret|].
    apply (agree_ext _ _ _ _ (pairs_within_cons S D memo f a r) (pairs_within_cons S D memo (f + k) a r)).
    apply agree_andthen; [apply agree_seq; intros ? _; apply Ifc | exact IH].
  - induction (dspreads (snd s)) as [|g r IH]; [exact agree_ret|].
    apply (agree_ext _ _ _ _ (frags_within_cons S D memo f s g r) (frags_within_cons S D memo (f + k) s g r)).
    repeat apply agree_andthen; [apply Iff | apply agree_seq; intros ? _; apply Ifr | exact IH].
Qed.

Theorem run_fuel_mono : forall f f', f <= f' -> run_complete S D memo f = true ->
  run_overlap S D memo f' = run_overlap S D memo f /\ run_complete S D memo f' = true.
Proof.
  intros f f' L Hc. replace f' with (f + (f' - f)) by lia. unfold run_complete, run_overlap in *.
  apply negb_true_iff in Hc.
  rewrite (proj2 (agree_seq (within_set S D memo f) (within_set S D memo (f + (f' - f))) (all_sets S D)
                    (fun s _ => within_set_mono f (f' - f) s)) mst0 eq_refl Hc), Hc.
  split; reflexivity.
Qed.
End Mono.

Definition keep (st st' : mst) : Prop := m_oof st' = m_oof st.

#[local] Instance keep_pre : PreOrder keep.
Proof. split; [intro st; reflexivity | intros x y z H1 H2; exact (eq_trans H2 H1)]. Qed.

Section Fuel.
Variable S : schema.
Variable D : document.
Variable memo : bool.
Variable h : fset -> nat.
Hypothesis P1 : forall s e, In e (fields S s) -> h (subset_of e) < h s.
Hypothesis P2 : forall s g b, In g (frs s) -> fbody S D g = Some b -> h b < h s.

Notation fbody := (fbody S D).
Notation keeps := (sat keep).

Lemma P2' : forall s g b, In g (dspreads (snd s)) -> fbody g = Some b -> h b < h s.
Proof. intros s g b Hg. apply P2. apply dspreads_raw_in. exact Hg. Qed.

(* fragments enter a call through a spread: the bound for ffrag and frfr is stated on a
   selection set that spreads them, which every caller has at hand; their bodies are lower *)
Lemma fuel_enough : forall f,
  (forall fl a b, 3 + 3 * (h (subset_of a) + h (subset_of b)) <= f -> keeps (Overlap.fc S D memo f fl a b)) /\
  (forall fl s1 s2, 1 + 3 * (h s1 + h s2) <= f -> keeps (between S D memo f fl (fields S s1) (fields S s2))) /\
  (forall fl s1 s2, 2 + 3 * (h s1 + h s2) <= f -> keeps (Overlap.subsets S D memo f fl s1 s2)) /\
  (forall fl s s' g, In g (dspreads (snd s')) -> 1 + 3 * (h s + h s') <= f -> keeps (ffrag S D memo f fl s g)) /\
  (forall fl s1 s2 g1 g2, In g1 (dspreads (snd s1)) -> In g2 (dspreads (snd s2)) -> 1 + 3 * (h s1 + h s2) <= f ->
     keeps (frfr S D memo f fl g1 g2)).
Proof.
  induction f as [|f (Ifc & Ibt & Isub & Iff & Ifr)]; [repeat split; intros; lia|]. repeat split.
  - intros fl a b Hf st. unfold keep. rewrite fc_S. destruct (negb _); [reflexivity|].
    destruct (has_sub a && has_sub b); [|reflexivity]. refine (Isub _ _ _ _ (inc_fc st)). lia.
  - intros fl s1 s2 Hf. apply (sat_ext _ _ (between_S S D memo f fl _ _)).
    apply sat_seq. intros k _. apply sat_seq. intros a Ha. apply sat_seq. intros b Hb.
    apply filter_In in Ha, Hb. apply Ifc. pose proof (P1 s1 a (proj1 Ha)). pose proof (P1 s2 b (proj1 Hb)). lia.
  - intros fl s1 s2 Hf. apply (sat_ext _ _ (subsets_S S D memo f fl s1 s2)).
    repeat apply sat_andthen; [apply Ibt; lia | | |]; apply sat_seq; intros g Hg.
    + apply (Iff fl s1 s2 g Hg). lia.
    + apply (Iff fl s2 s1 g Hg). lia.
    + apply sat_seq. intros g' Hg'. apply (Ifr fl s1 s2 g g' Hg Hg'). lia.
  - intros fl s s' g Hg Hf. apply (sat_ext _ _ (ffrag_S S D memo f fl s g)). apply sat_guard; [intros; exact eq_refl|].
    destruct (fbody g) as [b|] eqn:Eb; [|apply sat_ret]. destruct (same_set s b); [apply sat_ret|].
    pose proof (P2' s' g b Hg Eb). apply sat_andthen; [apply Ibt; lia|].
    apply sat_seq. intros g' Hg'. apply (Iff fl s b g' Hg'). lia.
  - intros fl s1 s2 g1 g2 H1 H2 Hf st. rewrite frfr_S.
    destruct (fbody g1) as [b1|] eqn:E1; [|reflexivity]. destruct (fbody g2) as [b2|] eqn:E2; [|reflexivity].
    destruct (String.eqb g1 g2); [reflexivity|]. revert st. apply sat_guard; [intros; exact eq_refl|].
    pose proof (P2' s1 g1 b1 H1 E1). pose proof (P2' s2 g2 b2 H2 E2).
    repeat apply sat_andthen; [apply Ibt; lia | |]; apply sat_seq; intros g' Hg'.
    + apply (Ifr fl s1 b2 g1 g' H1 Hg'). lia.
    + apply (Ifr fl b1 s2 g' g2 Hg' H2). lia.
Qed.

Lemma run_complete_h : forall fuel, (forall s, In s (all_sets S D) -> 3 + 6 * h s <= fuel) ->
  run_complete S D memo fuel = true.
Proof.
  intros fuel H. unfold run_complete. destruct (fuel_enough fuel) as (Ifc & _ & _ & Iff & Ifr).
  rewrite (sat_seq (R := keep) (within_set S D memo fuel) (all_sets S D)); [reflexivity|].
  intros s Hs. specialize (H s Hs). apply within_set_sat.
  - intros a b Ha Hb. apply Ifc. pose proof (P1 s a Ha). pose proof (P1 s b Hb). lia.
  - intros g Hg. apply (Iff false s s g Hg). lia.
  - intros g g' Hg Hg'. apply (Ifr false s s g g' Hg Hg'). lia.
Qed.
End Fuel.

Lemma list_max_incl : forall l l', incl l l' -> list_max l <= list_max l'.
Proof.
  intros l l' H. apply list_max_le. apply Forall_forall. intros x Hx. apply list_max_in_le. apply H. exact Hx.
Qed.

Lemma depth_go : forall l,
  (fix go (l : list selection) : nat := match l with [] => O | x :: r => Nat.max (sel_depth x) (go r) end) l = sels_depth l.
Proof. induction l as [|x r IH]; simpl; [reflexivity | rewrite IH; reflexivity]. Qed.

Lemma sel_depth_field : forall id al nm args ds sub, sel_depth (SField id al nm args ds sub) = Datatypes.S (sels_depth sub).
Proof. intros. simpl. rewrite depth_go. reflexivity. Qed.
Lemma sel_depth_inline : forall id tc ds sub, sel_depth (SInline id tc ds sub) = sels_depth sub.
Proof. intros. simpl. rewrite depth_go. reflexivity. Qed.

Lemma fold_max_in : forall {A} (f : A -> nat) l x, In x l -> f x <= fold_right (fun y a => Nat.max (f y) a) O l.
Proof.
  intros A f l x. induction l as [|y r IH]; intros H; [destruct H|]. simpl.
  destruct H as [H|H]; [subst; lia | specialize (IH H); lia].
Qed.

Lemma sels_depth_cons : forall x r, sels_depth (x :: r) = Nat.max (sel_depth x) (sels_depth r).
Proof. reflexivity. Qed.

Lemma depth_fields : forall S ss pt e, In e (dfields S pt ss) -> Datatypes.S (sels_depth (fe_sub e)) <= sels_depth ss.
Proof.
  intro S. induction ss as [| id al nm args ds sub r _ IHr | id g ds r IHr | id tc ds sub r IHs IHr] using sels_ind;
    intros pt e He; [destruct He | | exact (IHr pt e He) |]; rewrite dfields_cons in He; rewrite sels_depth_cons.
  - rewrite sel_depth_field. destruct He as [<-|He]; [cbn [fe_sub mk_entry]; lia | specialize (IHr pt e He); lia].
  - rewrite dfields_inline in He. rewrite sel_depth_inline. apply in_app_or in He.
    destruct He as [He|He]; [specialize (IHs _ e He) | specialize (IHr pt e He)]; lia.
Qed.

Lemma depth_sets_of : forall S ss pt s, In s (sets_of S pt ss) -> sels_depth (snd s) <= sels_depth ss.
Proof.
  intro S.
  assert (G : forall ss pt s, In s (flat_map (sets_sel S pt) ss) -> sels_depth (snd s) <= sels_depth ss).
  { induction ss as [| id al nm args ds sub r IHs IHr | id g ds r IHr | id tc ds sub r IHs IHr] using sels_ind;
      intros pt s Hs; [destruct Hs | | exact (IHr pt s Hs) |]; cbn [flat_map] in Hs; apply in_app_or in Hs;
      rewrite sels_depth_cons; (destruct Hs as [Hs|Hs]; [|specialize (IHr pt s Hs); lia]).
    - rewrite sets_sel_field in Hs. rewrite sel_depth_field. destruct sub as [|y t]; [destruct Hs|].
      destruct Hs as [<-|Hs]; [cbn [snd]; lia | specialize (IHs _ s Hs); lia].
    - rewrite sets_sel_inline in Hs. rewrite sel_depth_inline.
      destruct Hs as [<-|Hs]; [cbn [snd]; lia | specialize (IHs _ s Hs); lia]. }
  intros ss pt s [<-|Hs]; [simpl; lia | exact (G ss pt s Hs)].
Qed.

Lemma doc_depth_op : forall D o, In o (d_ops D) -> sels_depth (o_sel o) <= doc_depth D.
Proof. intros D o H. unfold doc_depth. pose proof (fold_max_in (fun o => sels_depth (o_sel o)) (d_ops D) o H). lia. Qed.
Lemma doc_depth_frag : forall D f, In f (d_frags D) -> sels_depth (fr_sel f) <= doc_depth D.
Proof. intros D f H. unfold doc_depth. pose proof (fold_max_in (fun f => sels_depth (fr_sel f)) (d_frags D) f H). lia. Qed.

Lemma all_sets_depth : forall S D s, In s (all_sets S D) -> sels_depth (snd s) <= doc_depth D.
Proof.
  intros S D s H. unfold all_sets in H. apply in_app_iff in H.
  destruct H as [H|H]; apply in_flat_map in H; destruct H as [o [Ho H]]; pose proof (depth_sets_of S _ _ s H).
  - pose proof (doc_depth_op D o Ho). lia.
  - pose proof (doc_depth_frag D o Ho). lia.
Qed.

Section Height.
Variable S : schema.
Variable D : document.
Variable rk : name -> nat.
Hypothesis Hrk : ranked S D rk.
Hypothesis Hbound : forall g, rk g <= List.length (d_frags D).

Definition Mx (ss : list selection) : nat := list_max (map (fun g => Datatypes.S (rk g)) (all_spreads ss)).
Definition hgt (s : fset) : nat := Mx (snd s) * Datatypes.S (doc_depth D) + sels_depth (snd s).

Lemma hgt_P1 : forall s e, In e (fields S s) -> hgt (subset_of e) < hgt s.
Proof.
  intros s e He. unfold hgt, subset_of. simpl. unfold fields in He.
  assert (M : Mx (fe_sub e) <= Mx (snd s)).
  { unfold Mx. apply list_max_incl. apply incl_map. intros g Hg. eapply dfields_occ; eauto. }
  pose proof (depth_fields S _ _ e He) as Dp.
  pose proof (Nat.mul_le_mono_r _ _ (Datatypes.S (doc_depth D)) M). lia.
Qed.

Lemma hgt_P2 : forall s g b, In g (frs s) -> fbody S D g = Some b -> hgt b < hgt s.
Proof.
  intros s g b Hg Eb. unfold hgt.
  assert (M1 : Mx (snd b) <= rk g).
  { apply list_max_map_le. intros h0 Hh. apply (Hrk g b Eb h0 Hh). }
  assert (M2 : Datatypes.S (rk g) <= Mx (snd s)).
  { unfold Mx. apply list_max_in_le. apply in_map_iff. exists g. split; [reflexivity|]. apply dspreads_occ. exact Hg. }
  assert (Dp : sels_depth (snd b) <= doc_depth D).
  { apply fbody_some in Eb. destruct Eb as [fr [Ef Eb]]. subst b. simpl. apply doc_depth_frag. apply (frag_mem D g). exact Ef. }
  pose proof (Nat.mul_le_mono_r _ _ (Datatypes.S (doc_depth D)) M1).
  pose proof (Nat.mul_le_mono_r _ _ (Datatypes.S (doc_depth D)) M2). lia.
Qed.

Lemma hgt_bound : forall s, In s (all_sets S D) -> hgt s <= height_bound D.
Proof.
  intros s Hs. unfold hgt, height_bound.
  assert (M : Mx (snd s) <= Datatypes.S (List.length (d_frags D))).
  { apply list_max_map_le. intros h0 _. apply le_n_S, Hbound. }
  pose proof (all_sets_depth S D s Hs).
  pose proof (Nat.mul_le_mono_r _ _ (Datatypes.S (doc_depth D)) M). lia.
Qed.
End Height.

Theorem fuel_sufficient : forall S D memo fuel,
  acyclic S D -> fuel_of D <= fuel -> run_complete S D memo fuel = true.
Proof.
  intros S D memo fuel A Hf. pose proof (acyclic_no_cycle S D A) as Hnc.
  (* the longest-chain rank lp_rank is stable after |fragments| steps, hence below that number *)
  assert (Hb : forall g, lp_rank D g <= List.length (d_frags D)).
  { intro g. unfold lp_rank. rewrite <- (map_length fr_name), (lp_stable S D Hnc). apply lp_le. }
  apply (run_complete_h S D memo (hgt D (lp_rank D)) (hgt_P1 S D _) (hgt_P2 S D _ (lp_ranked S D Hnc))).
  intros s Hs. pose proof (hgt_bound S D _ Hb s Hs). unfold fuel_of in Hf. lia.
Qed.

(* Hence the executable algorithm (memoised or not) decides the declarative layers L2 / L1,
   given fuel_of D, on acyclic documents whose selection nodes have distinct ids and whose
   fields have unique argument names, over a schema in which "String" is not composite and no
   type declares a "__typename" field (meta_ok). *)
Theorem unmemo_decides_L2 : forall S D fuel,
  acyclic S D -> ids_distinct S D -> args_unique S D -> meta_ok S = true -> fuel_of D <= fuel ->
  (run_overlap S D false fuel = [] <-> L2_accepts S D).
Proof.
  intros S D fuel A Hid Hargs Hm Hf. split.
  - intro Hr. destruct A as [rk Hrk].
    apply (exec_decides_L2 S D Hid Hargs Hm rk Hrk fuel Hr).
    apply fuel_sufficient; [exists rk; exact Hrk | exact Hf].
  - intro H. apply L2_accepts_exec. exact H.
Qed.

Theorem exec_decides_L1 : forall S D memo fuel,
  acyclic S D -> ids_distinct S D -> args_unique S D -> meta_ok S = true -> fuel_of D <= fuel ->
  (run_overlap S D memo fuel = [] <-> L1_accepts S D).
Proof.
  intros S D memo fuel A Hid Hargs Hm Hf. split.
  - intro Hr. apply (overlap_decomposition S D A).
    apply (unmemo_decides_L2 S D fuel A Hid Hargs Hm Hf).
    destruct memo; [|exact Hr].
    apply (memo_transparent S D fuel fuel Hid Hargs); [|exact Hr].
    apply fuel_sufficient; assumption.
  - intro H. apply L1_accepts_exec; assumption.
Qed.

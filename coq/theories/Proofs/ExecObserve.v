(* C13: what a resolver invocation of a mutation can observe.  From the serial order of the call
   log (C13_serial): at the moment any invocation belonging to top-level field j runs,
   every invocation that already ran belongs to a field at or before j (no successor has started),
   and every invocation still to come belongs to a field at or after j (every predecessor has
   finished completely).  With side effects folded over the call log in execution order this is
   "observes all side effects of its predecessors and none of its successors". *)
From Coq Require Import List NArith Bool Lia.
From GQL Require Import Exec.Syntax Run.ExecRun.
Import ListNotations.
Open Scope list_scope.

Lemma nondecreasing_lower : forall l c, nondecreasing l c = true ->
  forall x, In x l -> exists i, x = Some i /\ (c <= i)%N.
Proof.
  induction l as [|[i|] l IH]; intros c H x Hx; cbn [nondecreasing] in H; try discriminate.
  - destruct Hx.
  - apply andb_true_iff in H. destruct H as [H1 H2]. apply N.leb_le in H1.
    destruct Hx as [<-|Hx]; [exists i; split; [reflexivity|exact H1]|].
    destruct (IH i H2 x Hx) as [i' [-> Hi']]. exists i'. split; [reflexivity|lia].
Qed.

Lemma nondecreasing_split : forall l1 j l2 c, nondecreasing (l1 ++ Some j :: l2) c = true ->
  (forall x, In x l1 -> exists i, x = Some i /\ (i <= j)%N) /\
  (forall x, In x l2 -> exists i, x = Some i /\ (j <= i)%N).
Proof.
  induction l1 as [|[i|] l1 IH]; intros j l2 c H; cbn [app nondecreasing] in H; try discriminate.
  - apply andb_true_iff in H. destruct H as [_ H2]. split; [intros x []|].
    exact (nondecreasing_lower l2 j H2).
  - apply andb_true_iff in H. destruct H as [_ H2].
    destruct (IH j l2 i H2) as [A B]. split; [|exact B].
    intros x [<-|Hx]; [|exact (A x Hx)].
    destruct (nondecreasing_lower _ _ H2 (Some j)) as [j' [E Hj']]; [apply in_or_app; right; left; reflexivity|].
    inversion E; subst. exists i. split; [reflexivity|exact Hj'].
Qed.

(* What serial_ok says of a call log, whichever run produced it (the runner evaluates serial_ok on
   the implementation's own log): seen from an invocation c of top-level field j, what ran before
   belongs to fields at or before j, what runs after to fields at or after j. *)
Lemma serial_observes : forall keys (pre : list call) c post j,
  serial_ok keys (map c_path (pre ++ c :: post)) = true -> top_index keys (c_path c) = Some j ->
  Forall (fun q => exists i, top_index keys (c_path q) = Some i /\ (i <= j)%N) pre /\
  Forall (fun q => exists i, top_index keys (c_path q) = Some i /\ (j <= i)%N) post.
Proof.
  intros keys pre c post j H Hp. unfold serial_ok in H.
  rewrite map_map, map_app in H. cbn [map] in H. rewrite Hp in H.
  destruct (nondecreasing_split _ _ _ _ H) as [A B].
  split; apply Forall_forall; intros q Hq; [apply A|apply B];
    apply (in_map (fun c0 => top_index keys (c_path c0))); exact Hq.
Qed.

Lemma serial_indexed : forall keys (log : list call), serial_ok keys (map c_path log) = true ->
  Forall (fun c => exists i, top_index keys (c_path c) = Some i) log.
Proof.
  intros keys log H. apply Forall_forall. intros c Hc. unfold serial_ok in H. rewrite map_map in H.
  destruct (nondecreasing_lower _ _ H (top_index keys (c_path c))) as [i [E _]]; [|exists i; exact E].
  apply (in_map (fun c0 => top_index keys (c_path c0))). exact Hc.
Qed.

(* Side effects: whatever store the invocations transform in execution order, the store an
   invocation of field j observes is determined by the invocations before it (pre); these contain
   every invocation of every earlier field -- all of them, since none of those comes later -- and
   no invocation of a later field. *)
Section Effects.
  Definition of_field (keys : list name) (P : N -> bool) (c : call) : bool :=
    match top_index keys (c_path c) with Some i => P i | None => false end.

  Lemma filter_all_true : forall (f : call -> bool) l, Forall (fun c => f c = true) l -> filter f l = l.
  Proof.
    intros f l H. induction H as [|c l Hc _ IH]; [reflexivity|]. cbn [filter]. rewrite Hc, IH. reflexivity.
  Qed.
  Lemma filter_all_false : forall (f : call -> bool) l, Forall (fun c => f c = false) l -> filter f l = [].
  Proof.
    intros f l H. induction H as [|c l Hc _ IH]; [reflexivity|]. cbn [filter]. rewrite Hc, IH. reflexivity.
  Qed.

  Lemma serial_observed_effects : forall keys (pre : list call) c post j,
    serial_ok keys (map c_path (pre ++ c :: post)) = true -> top_index keys (c_path c) = Some j ->
    (* all the work of every earlier field is among the observed invocations *)
    filter (of_field keys (fun i => (i <? j)%N)) (pre ++ c :: post) = filter (of_field keys (fun i => (i <? j)%N)) pre /\
    (* nothing of a later field is *)
    filter (of_field keys (fun i => (j <? i)%N)) pre = [].
  Proof.
    intros keys pre c post j H Hj. destruct (serial_observes _ _ _ _ _ H Hj) as [A B].
    split.
    - rewrite filter_app. cbn [filter]. unfold of_field at 2. rewrite Hj, N.ltb_irrefl.
      rewrite (filter_all_false _ post); [rewrite app_nil_r; reflexivity|].
      eapply Forall_impl; [|exact B]. intros q [i [E Hi]]. unfold of_field. rewrite E.
      apply N.ltb_ge. exact Hi.
    - apply filter_all_false. eapply Forall_impl; [|exact A]. intros q [i [E Hi]].
      unfold of_field. rewrite E. apply N.ltb_ge. exact Hi.
  Qed.
End Effects.

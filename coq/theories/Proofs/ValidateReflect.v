(* The unmemoised executable conflict finder reflects into the declarative decomposition:
   if [run_overlap S D false fuel] completes within its fuel (no out-of-fuel flag) and
   reports nothing, then every check of the A-J decomposition passes on every selection
   set of the document (L2_accepts, with the symmetric two-field test and all ordered pairs).
   Part 1 (here): every call of the executable that completes silently establishes the
   matching Prop-level predicate of Validate/OverlapSpec.v.
   Part 2 (second half of the file): the code compares every unordered pair once and
   never a field with itself, and visits nested selection sets under the parent type TypeInfo
   computes; the Prop-level [within] ranges over all ordered pairs and uses the rule's own
   parent type -- closed by symmetry, by the diagonal (a field against itself = its
   sub-selection checked on its own) and by a congruence in the parent type. *)
From Coq Require Import List Lia Bool String NArith.
From GQL Require Import Exec.Syntax Validate.Overlap Validate.OverlapSpec Validate.OverlapWf Validate.Cost
     Proofs.ValidateRules Proofs.ValidateOverlap Proofs.ValidateRun Proofs.ValidateCost Proofs.ValidateMemoHard
     Proofs.ValidateL1 Proofs.ValidateFcBound.
Import ListNotations.
Open Scope string_scope.
Open Scope list_scope.

Lemma seq_nil_l : forall {A} (step : A -> mst -> list N * mst) st, seq step [] st = ([], st).
Proof. reflexivity. Qed.

(* [p] never resets the out-of-fuel flag, and when it is silent within its fuel, P holds.
   The first half is what lets the second pass through [andthen]: a clean end means every
   step before it was clean. *)
Definition yields (p : act) (P : Prop) : Prop :=
  forall st, (m_oof st = true -> m_oof (snd (p st)) = true) /\ (clean (p st) -> P).

Lemma yields_oof : forall P, yields (fun st => ([], set_oof st)) P.
Proof. intros P st. split; [reflexivity | intros [_ H]; discriminate]. Qed.

Lemma yields_cov : covariant yields.
Proof.
  split.
  - intros p q P E H st. rewrite E. apply H.
  - intros P H st. split; auto.
  - intros p P Q H Hp st. destruct (Hp st) as [M C]. split; auto.
  - intros p q P Q Hp Hq st. destruct (Hp st) as [Mp Cp]. destruct (Hq (snd (p st))) as [Mq Cq].
    split; [intro H; apply Mq, Mp, H|]. intros [Hc Ho]. unfold andthen in Hc, Ho. simpl in Hc, Ho.
    apply app_eq_nil in Hc. destruct Hc as [Hc1 Hc2].
    split; [apply Cp | apply Cq]; split; try assumption.
    destruct (m_oof (snd (p st))); [rewrite Mq in Ho by reflexivity; discriminate | reflexivity].
Qed.

Lemma yields_guard : forall hit add body P, yields body P -> yields (guard false hit add body) P.
Proof. intros hit add body P H. exact H. Qed.

Section Reflect.
Variable S : schema.
Variable D : document.
Hypothesis Hid : ids_distinct S D.
Hypothesis Hargs : args_unique S D.

Notation DS := (DS S D).
Notation Dfield := (Dfield S D).
Notation Dfields := (Dfields S D).
Notation fields := (fields S).
Notation fbody := (fbody S D).
Notation Pfc := (OverlapSpec.fc S D (base2 S)).
Notation Psubsets := (OverlapSpec.subsets S D (base2 S)).
Notation PFF := (OverlapSpec.FF S D (base2 S)).
Notation PFrFr := (OverlapSpec.FrFr S D (base2 S)).

Lemma exec_reflect : forall f,
  (forall fl a b, Dfield a -> Dfield b -> yields (Overlap.fc S D false f fl a b) (Pfc fl a b)) /\
  (forall fl l1 l2, Dfields l1 -> Dfields l2 -> yields (between S D false f fl l1 l2) (Cbt Pfc fl l1 l2)) /\
  (forall fl s1 s2, DS s1 -> DS s2 -> yields (Overlap.subsets S D false f fl s1 s2) (Psubsets fl s1 s2)) /\
  (forall fl s g, DS s -> yields (ffrag S D false f fl s g) (PFF fl s g)) /\
  (forall fl g1 g2, yields (frfr S D false f fl g1 g2) (PFrFr fl g1 g2)).
Proof.
  induction f as [|f (Ifc & Ibt & Isub & Iff & Ifr)]; [split; [|split; [|split; [|split]]]; intros; apply yields_oof|].
  split; [|split; [|split; [|split]]].
  - intros fl a b Ha Hb st.
    destruct (Isub (exf S fl a b) (subset_of a) (subset_of b) (DS_field_sub S D a Ha) (DS_field_sub S D b Hb) (inc_fc st)) as [M C].
    destruct Ha as (sa & Hsa & Ha). destruct Hb as (sb & Hsb & Hb).
    rewrite fc_S. rewrite (base_ok_is_base2 S _ a b (Hargs sa a Hsa Ha) (Hargs sb b Hsb Hb)).
    destruct (base2 S (exf S fl a b) a b) eqn:Eb; simpl; [|split; [auto | intros [Hc _]; discriminate]].
    destruct (has_sub a && has_sub b) eqn:Eh; simpl.
    + split; [exact M|]. intros [Hc Ho]. simpl in Hc, Ho. constructor; [exact Eb|]. intros _. apply C.
      split; [destruct (fst _); [reflexivity | discriminate] | exact Ho].
    + split; [auto|]. intros _. constructor; [exact Eb|]. intros [H1 H2]. rewrite H1, H2 in Eh. discriminate.
  - intros fl l1 l2 I1 I2. apply (cov_between yields_cov). intros a b Ha Hb. apply Ifc; [apply I1, Ha | apply I2, Hb].
  - intros fl s1 s2 H1 H2. eapply (cov_weaken yields_cov);
      [|apply (cov_subsets yields_cov S D false PFF PFrFr f fl s1 s2 _ (Ibt fl _ _ (DS_fields S D s1 H1) (DS_fields S D s2 H2)));
        intros; [apply Iff, H1 | apply Iff, H2 | apply Ifr]].
    intros (Q1 & Q2 & Q3 & Q4). constructor; [exact Q1 | | |]; unfold frs; intros; rewrite <- dspreads_iff in *; auto.
  - intros fl s g Hs. apply (cov_ext yields_cov _ _ _ (ffrag_S S D false f fl s g)). apply yields_guard.
    destruct (fbody g) as [b|] eqn:Eb; [|apply (cov_ret yields_cov), ff_none, Eb].
    destruct (same_set s b) eqn:Es.
    { apply (cov_ret yields_cov), ff_same. rewrite Eb. f_equal. symmetry. apply (same_set_eq S D Hid s b Hs (DS_body S D g b Eb) Es). }
    eapply (cov_weaken yields_cov); [|apply (cov_andthen yields_cov);
      [apply (Ibt fl _ _ (DS_fields S D s Hs) (DS_fields S D b (DS_body S D g b Eb))) | apply (cov_seq yields_cov); intros h _; apply (Iff fl s h Hs)]].
    intros [Q1 Q2]. apply (ff_i S D (base2 S) fl s g b Eb Q1). intros h Hh. apply Q2, dspreads_iff, Hh.
  - intros fl g1 g2 st. rewrite frfr_S.
    destruct (fbody g1) as [b1|] eqn:E1; [|apply (cov_ret yields_cov), frfr_none; left; exact E1].
    destruct (fbody g2) as [b2|] eqn:E2; [|apply (cov_ret yields_cov), frfr_none; right; exact E2].
    destruct (String.eqb g1 g2) eqn:Eg; [apply String.eqb_eq in Eg; subst g2; apply (cov_ret yields_cov), frfr_same|].
    revert st. apply yields_guard.
    eapply (cov_weaken yields_cov); [|repeat apply (cov_andthen yields_cov);
      [apply (Ibt fl _ _ (DS_fields S D b1 (DS_body S D g1 b1 E1)) (DS_fields S D b2 (DS_body S D g2 b2 E2)))
      | apply (cov_seq yields_cov); intros h _; apply (Ifr fl g1 h)
      | apply (cov_seq yields_cov); intros h _; apply (Ifr fl h g2)]].
    intros (Q1 & Q2 & Q3). apply (frfr_i S D (base2 S) fl g1 g2 b1 b2 E1 E2 Q1); intros h Hh; [apply Q2 | apply Q3]; apply dspreads_iff, Hh.
Qed.

Notation within_lt := (within_lt S Pfc PFF PFrFr).

Lemma within_set_reflect : forall fuel s, DS s -> yields (within_set S D false fuel s) (within_lt s).
Proof.
  intros fuel s Hs. destruct (exec_reflect fuel) as (Ifc & _ & _ & Iff & Ifr).
  apply (cov_within_set yields_cov); intros; [apply Ifc; apply (DS_fields S D s Hs); assumption | apply Iff, Hs | apply Ifr].
Qed.

Lemma run_reflect : forall fuel,
  run_overlap S D false fuel = [] -> run_complete S D false fuel = true ->
  forall s, In s (all_sets S D) -> within_lt s.
Proof.
  intros fuel Hr Hc. apply negb_true_iff in Hc.
  apply (proj2 (cov_seq yields_cov (within_set S D false fuel) within_lt (all_sets S D)
                  (fun s Hs => within_set_reflect fuel s (DS_top S D s Hs)) mst0) (conj Hr Hc)).
Qed.
End Reflect.

(* Part 2: from "every unordered pair once, never a field with itself, nested sets under
   TypeInfo's parent type" to [within] over all ordered pairs and the rule's own parent types. *)
Lemma types_conflict_refl : forall S t, types_conflict S t t = false.
Proof.
  intros S t. induction t as [n|t IH|t IH]; simpl; [|exact IH|exact IH].
  rewrite String.eqb_refl. destruct (is_leaf S n || is_leaf S n); reflexivity.
Qed.

Lemma pt_eqb_refl : forall p, pt_eqb p p = true.
Proof. intros [n|]; simpl; [apply String.eqb_refl | reflexivity]. Qed.

Lemma excl_refl : forall S a, excl S a a = false.
Proof. intros S a. unfold excl. rewrite pt_eqb_refl. reflexivity. Qed.

Lemma base2_refl : forall S a, NoDup (map fst (fe_args a)) -> base2 S false a a = true.
Proof.
  intros S a ND. unfold base2, base_ok. rewrite String.eqb_refl, (same_args_refl _ ND). simpl.
  unfold ty_conflict. destruct (fe_ty a) as [t|]; [rewrite types_conflict_refl|]; reflexivity.
Qed.

Section Sym.
Variable S : schema.
Variable D : document.
Variable base : bool -> fentry -> fentry -> bool.
Hypothesis base_sym : forall ex a b, base ex a b = base ex b a.
Notation Pfc := (OverlapSpec.fc S D base).
Notation Psubsets := (OverlapSpec.subsets S D base).
Notation PFF := (OverlapSpec.FF S D base).
Notation PFrFr := (OverlapSpec.FrFr S D base).

Lemma L2_sym :
  (forall fl a b, Pfc fl a b -> Pfc fl b a) /\
  (forall fl s1 s2, Psubsets fl s1 s2 -> Psubsets fl s2 s1) /\
  (forall fl s g, PFF fl s g -> True) /\
  (forall fl g1 g2, PFrFr fl g1 g2 -> PFrFr fl g2 g1).
Proof.
  apply L2_mutind.
  - intros fl a b Hb Hs IH. constructor.
    + rewrite exf_sym, base_sym. exact Hb.
    + intros [H1 H2]. rewrite exf_sym. apply IH. split; assumption.
  - intros fl s1 s2 H1 IH1 H2 IH2 H3 IH3 H4 IH4. constructor.
    + intros a b Ha Hb Hk. apply (IH1 b a Hb Ha (eq_sym Hk)).
    + exact H3.
    + exact H2.
    + intros g1 g2 Hg1 Hg2. apply (IH4 g2 g1 Hg2 Hg1).
  - intros; exact I.
  - intros; exact I.
  - intros; exact I.
  - intros fl g1 g2 [E|E]; apply frfr_none; [right|left]; exact E.
  - intros fl g. apply frfr_same.
  - intros fl g1 g2 b1 b2 E1 E2 H1 IH1 H2 IH2 H3 IH3.
    apply (frfr_i S D base fl g2 g1 b2 b1 E2 E1).
    + intros x y Hx Hy Hk. apply (IH1 y x Hy Hx (eq_sym Hk)).
    + intros h Hh. apply (IH3 h Hh).
    + intros h Hh. apply (IH2 h Hh).
Qed.
End Sym.

Section Peq.
Variable S : schema.
Variable D : document.

(* a parent "type" without fields that is not an object type: nil, a leaf, a union, an
   input object, an unknown name *)
Definition nf (p : ptype) : Prop :=
  match p with
  | None => True
  | Some n => match lookup_type S n with
              | Some (TObject _ _) | Some (TInterface _) => False
              | _ => True
              end
  end.
Definition peq (p q : ptype) : Prop := p = q \/ (nf p /\ nf q).

Lemma peq_refl : forall p, peq p p.
Proof. intro p. left. reflexivity. Qed.
Lemma peq_sym : forall p q, peq p q -> peq q p.
Proof. intros p q [E|[H1 H2]]; [left; symmetry; exact E | right; split; assumption]. Qed.

Lemma nf_not_object : forall p, nf p -> pt_is_object S p = false.
Proof.
  intros [n|] H; [|reflexivity]. simpl in *. unfold is_object.
  destruct (lookup_type S n) as [[| | | | |]|]; try reflexivity; contradiction.
Qed.

Lemma nf_no_field : forall p nm, nf p -> rule_field_ty S p nm = None.
Proof.
  intros [n|] nm H; [|reflexivity]. simpl in *.
  destruct (lookup_type S n) as [[| | | | |]|]; try reflexivity; contradiction.
Qed.

Lemma peq_field_ty : forall p q nm, peq p q -> rule_field_ty S p nm = rule_field_ty S q nm.
Proof.
  intros p q nm [E|[H1 H2]]; [subst; reflexivity|]. rewrite (nf_no_field p nm H1), (nf_no_field q nm H2). reflexivity.
Qed.

Lemma peq_comp : forall p, peq p (comp S p).
Proof.
  intros [n|]; [|left; reflexivity]. simpl. destruct (is_composite S n) eqn:E; [left; reflexivity|].
  right. split; [|exact I]. simpl. unfold is_composite in E.
  destruct (lookup_type S n) as [[| | | | |]|]; try exact I; discriminate.
Qed.

Lemma peq_inline : forall p q tc, peq p q -> peq (inline_pt S p tc) (inline_pt S q tc).
Proof. intros p q [c|] H; simpl; [left; reflexivity | exact H]. Qed.

(* entries that differ in such parent types only *)
Definition eqv (a b : fentry) : Prop :=
  fe_id a = fe_id b /\ fe_key a = fe_key b /\ fe_name a = fe_name b /\ fe_args a = fe_args b /\
  fe_sub a = fe_sub b /\ fe_ty a = fe_ty b /\ peq (fe_pt a) (fe_pt b).

Lemma eqv_refl : forall a, eqv a a.
Proof. intro a. repeat split; try reflexivity. apply peq_refl. Qed.

Lemma excl_eqv : forall a a' b b', eqv a a' -> eqv b b' -> excl S a b = excl S a' b'.
Proof.
  intros a a' b b' (_ & _ & _ & _ & _ & _ & Pa) (_ & _ & _ & _ & _ & _ & Pb). unfold excl.
  destruct Pa as [Ea|[Na Na']].
  - destruct Pb as [Eb|[Nb Nb']].
    + rewrite Ea, Eb. reflexivity.
    + rewrite (nf_not_object _ Nb), (nf_not_object _ Nb'). rewrite !andb_false_r. reflexivity.
  - rewrite (nf_not_object _ Na), (nf_not_object _ Na'). rewrite !andb_false_r. reflexivity.
Qed.

Lemma base2_eqv : forall ex a a' b b', eqv a a' -> eqv b b' -> base2 S ex a b = base2 S ex a' b'.
Proof.
  intros ex a a' b b' (_ & _ & Na & Aa & _ & Ta & _) (_ & _ & Nb & Ab & _ & Tb & _).
  unfold base2, base_ok. rewrite Na, Aa, Ta, Nb, Ab, Tb. reflexivity.
Qed.

Notation Pfc := (OverlapSpec.fc S D (base2 S)).
Notation PFF := (OverlapSpec.FF S D (base2 S)).
Notation PFrFr := (OverlapSpec.FrFr S D (base2 S)).
Notation Pwithin := (within S D (base2 S)).

Lemma fc_eqv : forall fl a b a' b', Pfc fl a b -> eqv a a' -> eqv b b' -> Pfc fl a' b'.
Proof.
  intros fl a b a' b' H Ea Eb. inversion H as [fl0 a0 b0 Hb Hs]; subst.
  assert (Ex : exf S fl a' b' = exf S fl a b) by (unfold exf; rewrite (excl_eqv a a' b b' Ea Eb); reflexivity).
  pose proof Ea as (_ & _ & _ & _ & Sa & Ta & _). pose proof Eb as (_ & _ & _ & _ & Sb & Tb & _).
  constructor.
  - rewrite Ex, <- (base2_eqv _ a a' b b' Ea Eb). exact Hb.
  - intros [H1 H2]. rewrite Ex. unfold subset_of, sub_pt. rewrite <- Sa, <- Sb, <- Ta, <- Tb.
    apply Hs. split; unfold has_sub in *; [rewrite Sa | rewrite Sb]; assumption.
Qed.

Lemma dfields_eqv : forall ss p q, peq p q -> Forall2 eqv (dfields S p ss) (dfields S q ss).
Proof.
  induction ss as [| id al nm args ds sub r _ IHr | id g ds r IHr | id tc ds sub r IHs IHr] using sels_ind;
    intros p q H; [constructor | | apply IHr, H |]; rewrite !dfields_cons.
  - constructor; [|apply IHr, H]. unfold mk_entry, eqv. simpl.
    repeat split; try reflexivity; [apply peq_field_ty; exact H | exact H].
  - rewrite !dfields_inline. apply Forall2_app; [apply IHs, peq_inline, H | apply IHr, H].
Qed.

Lemma Forall2_in_r : forall {A B} (R : A -> B -> Prop) l l' y, Forall2 R l l' -> In y l' -> exists x, In x l /\ R x y.
Proof.
  intros A B R l l' y H. induction H as [|a b l l' Hab H IH]; intros Hy; [destruct Hy|].
  destruct Hy as [Hy|Hy]; [subst; exists a; split; [left; reflexivity | exact Hab]|].
  destruct (IH Hy) as [x [Hx Rx]]. exists x. split; [right; exact Hx | exact Rx].
Qed.

Lemma fields_pre : forall p q ss y, peq p q -> In y (fields S (q, ss)) -> exists x, In x (fields S (p, ss)) /\ eqv x y.
Proof. intros p q ss y H Hy. unfold fields in *. simpl in *. eapply Forall2_in_r; [apply dfields_eqv; exact H | exact Hy]. Qed.

Variable rk : name -> nat.
Hypothesis Hrk : ranked S D rk.

Lemma FF_peq : forall fl s g, PFF fl s g ->
  forall q g0, peq (fst s) q -> Occ (snd s) g0 -> rk g <= rk g0 -> PFF fl (q, snd s) g.
Proof.
  intros fl s g H. induction H as [fl s g E | fl s g E | fl s g b E Hd He IH]; intros q g0 Hp Ho Hle.
  - apply ff_none. exact E.
  - exfalso. pose proof (Hrk g s E g0 Ho) as R. lia.
  - apply (ff_i S D (base2 S) fl (q, snd s) g b E).
    + intros x y Hx Hy Hk. destruct s as [p ss]. simpl in *.
      destruct (fields_pre p q ss x Hp Hx) as [x0 [Hx0 Ex]].
      apply (fc_eqv fl x0 y x y); [|exact Ex|apply eqv_refl].
      apply Hd; [exact Hx0 | exact Hy |]. destruct Ex as (_ & K & _). congruence.
    + intros h Hh. apply (IH h Hh q g0 Hp Ho).
      pose proof (Hrk g b E h (dspreads_occ _ _ Hh)) as R. lia.
Qed.

Lemma within_peq : forall s q, Pwithin s -> peq (fst s) q -> Pwithin (q, snd s).
Proof.
  intros [p ss] q (H1 & H2 & H3) Hp. simpl in *. split; [|split].
  - intros a b Ha Hb Hk.
    destruct (fields_pre p q ss a Hp Ha) as [a0 [Ha0 Ea]]. destruct (fields_pre p q ss b Hp Hb) as [b0 [Hb0 Eb]].
    apply (fc_eqv false a0 b0 a b); [|exact Ea|exact Eb]. apply H1; [exact Ha0 | exact Hb0 |].
    destruct Ea as (_ & Ka & _). destruct Eb as (_ & Kb & _). congruence.
  - intros g Hg. unfold frs in Hg. simpl in Hg.
    apply (FF_peq false (p, ss) g (H2 g Hg) q g Hp (dspreads_occ _ _ Hg) (le_n _)).
  - exact H3.
Qed.
End Peq.

Lemma sets_go_flat : forall S pt l,
  (fix go (l : list selection) : list (ptype * list selection) :=
     match l with [] => [] | x :: r => sets_sel S pt x ++ go r end) l = flat_map (sets_sel S pt) l.
Proof. intros S pt l. induction l as [|x r IH]; simpl; [reflexivity | rewrite IH; reflexivity]. Qed.

Lemma sets_sel_field : forall S pt id al nm args ds sub,
  sets_sel S pt (SField id al nm args ds sub) =
  match sub with [] => [] | _ => sets_of S (comp S (option_map named_of (ti_field_ty S pt nm))) sub end.
Proof. intros. simpl. destruct sub as [|y r]; [reflexivity|]. rewrite sets_go_flat. reflexivity. Qed.

Lemma sets_sel_inline : forall S pt id tc ds sub,
  sets_sel S pt (SInline id tc ds sub) = sets_of S (comp S (inline_pt S pt tc)) sub.
Proof. intros. simpl. rewrite sets_go_flat. reflexivity. Qed.

Section Closure.
Variable S : schema.
Variable D : document.
Hypothesis Hmeta : meta_ok S = true.

Lemma meta_string : is_composite S "String" = false.
Proof. unfold meta_ok in Hmeta. apply andb_true_iff in Hmeta. apply negb_true_iff. exact (proj1 Hmeta). Qed.

Lemma meta_typename : forall p, rule_field_ty S p "__typename" = None.
Proof.
  intros [t|]; [|reflexivity]. simpl. unfold meta_ok in Hmeta. apply andb_true_iff in Hmeta. destruct Hmeta as [_ H].
  rewrite forallb_forall in H. unfold lookup_type.
  destruct (alookup t (s_types S)) as [td|] eqn:E; [|reflexivity]. apply alookup_in in E.
  specialize (H _ E). simpl in H.
  destruct td as [| |fs ifs|fs| |]; try reflexivity; simpl in H; destruct (find_field "__typename" fs); try discriminate; reflexivity.
Qed.

Definition rft_eq (p1 p2 : ptype) : Prop := forall nm, rule_field_ty S p1 nm = rule_field_ty S p2 nm.

Lemma rft_comp : forall p, rft_eq (comp S p) p.
Proof. intros p nm. apply (peq_field_ty S). apply peq_sym. apply peq_comp. Qed.

Lemma sets_sub_gen : forall ss p1 p2 e, rft_eq p1 p2 -> In e (dfields S p2 ss) -> fe_sub e <> [] ->
  exists p'', In (p'', fe_sub e) (flat_map (sets_sel S p1) ss) /\ peq S (sub_pt e) p''.
Proof.
  induction ss as [| id al nm args ds sub r _ IHr | id g ds r IHr | id tc ds sub r IHs IHr] using sels_ind;
    intros p1 p2 e Hr He Hne; [destruct He | | apply (IHr p1 p2 e Hr He Hne) |];
    rewrite dfields_cons in He; cbn [flat_map]; apply in_app_or in He;
    (destruct He as [He|He]; [|destruct (IHr p1 p2 e Hr He Hne) as [p'' [Hin Hp]]; exists p''; split; [apply in_or_app; right; exact Hin | exact Hp]]).
  - destruct He as [He|[]]. subst e. simpl in Hne. rewrite sets_sel_field.
    destruct sub as [|y t]; [contradiction|]. set (sub := y :: t) in *.
    exists (comp S (option_map named_of (ti_field_ty S p1 nm))). split; [apply in_or_app; left; left; reflexivity|].
    unfold sub_pt, mk_entry. simpl. rewrite <- (Hr nm).
    destruct p1 as [t0|]; [|left; reflexivity].
    unfold ti_field_ty. destruct (String.eqb nm "__typename") eqn:En; [|apply peq_comp].
    apply String.eqb_eq in En. subst nm. rewrite meta_typename. simpl.
    left. destruct (is_composite S t0); simpl; [rewrite meta_string|]; reflexivity.
  - rewrite dfields_inline in He. rewrite sets_sel_inline.
    destruct (IHs (comp S (inline_pt S p1 tc)) (inline_pt S p2 tc) e) as [p'' [Hin Hp]]; [|exact He|exact Hne|].
    + intro nm0. rewrite rft_comp. destruct tc as [c|]; simpl; [reflexivity | apply Hr].
    + exists p''. split; [apply in_or_app; left; right; exact Hin | exact Hp].
Qed.

Lemma sets_sub : forall p ss e, In e (dfields S p ss) -> fe_sub e <> [] ->
  exists p'', In (p'', fe_sub e) (sets_of S p ss) /\ peq S (sub_pt e) p''.
Proof.
  intros p ss e He Hne. destruct (sets_sub_gen ss p p e (fun nm => eq_refl) He Hne) as [p'' [Hin Hp]].
  exists p''. split; [right; exact Hin | exact Hp].
Qed.

Definition sel_trans (x : selection) : Prop :=
  forall pt p ss, In (p, ss) (sets_sel S pt x) -> incl (sets_of S p ss) (sets_sel S pt x).

Lemma sets_of_trans_gen : forall pt0 ss0, Forall sel_trans ss0 ->
  forall p ss, In (p, ss) (sets_of S pt0 ss0) -> incl (sets_of S p ss) (sets_of S pt0 ss0).
Proof.
  intros pt0 ss0 IH p ss [Hin|Hin]; [inversion Hin; subst; apply incl_refl|].
  apply in_flat_map in Hin. destruct Hin as [y [Hy Hin]]. rewrite Forall_forall in IH.
  intros z Hz. right. apply in_flat_map. exists y. split; [exact Hy | apply (IH y Hy pt0 p ss Hin z Hz)].
Qed.

Lemma sets_sel_trans : forall x, sel_trans x.
Proof.
  induction x as [id al nm args ds sub IH | id g ds | id tc ds sub IH] using selection_ind'; intros pt p ss Hin.
  - rewrite sets_sel_field in *. destruct sub as [|y r]; [destruct Hin|]. apply sets_of_trans_gen; assumption.
  - destruct Hin.
  - rewrite sets_sel_inline in *. apply sets_of_trans_gen; assumption.
Qed.

Lemma sets_of_trans : forall pt0 ss0 p ss, In (p, ss) (sets_of S pt0 ss0) -> incl (sets_of S p ss) (sets_of S pt0 ss0).
Proof. intros pt0 ss0. apply sets_of_trans_gen, Forall_forall. intros x _. apply sets_sel_trans. Qed.

Lemma all_sets_trans : forall p ss, In (p, ss) (all_sets S D) -> incl (sets_of S p ss) (all_sets S D).
Proof.
  intros p ss Hin z Hz. unfold all_sets in *. apply in_app_iff in Hin. apply in_app_iff.
  destruct Hin as [Hin|Hin]; [left|right]; apply in_flat_map in Hin; destruct Hin as [o [Ho Hin]];
    apply in_flat_map; exists o; (split; [exact Ho|]); apply (sets_of_trans _ _ p ss Hin z Hz).
Qed.

Lemma all_sets_sub : forall s e, In s (all_sets S D) -> In e (fields S s) -> fe_sub e <> [] ->
  exists p'', In (p'', fe_sub e) (all_sets S D) /\ peq S (sub_pt e) p''.
Proof.
  intros [p ss] e Hs He Hne. unfold fields in He. simpl in He.
  destruct (sets_sub p ss e He Hne) as [p'' [Hin Hp]]. exists p''. split; [|exact Hp].
  apply (all_sets_trans p ss Hs). exact Hin.
Qed.
End Closure.

Lemma frag_mem : forall D g fr, frag D g = Some fr -> In fr (d_frags D).
Proof. intros D g fr H. apply (frag_some D g fr H). Qed.

Section Decide.
Variable S : schema.
Variable D : document.
Hypothesis Hid : ids_distinct S D.
Hypothesis Hargs : args_unique S D.
Hypothesis Hmeta : meta_ok S = true.
Variable rk : name -> nat.
Hypothesis Hrk : ranked S D rk.

Notation Pfc := (OverlapSpec.fc S D (base2 S)).
Notation Psubsets := (OverlapSpec.subsets S D (base2 S)).
Notation PFF := (OverlapSpec.FF S D (base2 S)).
Notation PFrFr := (OverlapSpec.FrFr S D (base2 S)).
Notation Pwithin := (within S D (base2 S)).

Lemma lt_within : (forall s, In s (all_sets S D) -> within_lt S Pfc PFF PFrFr s) ->
  forall n s, In s (all_sets S D) -> sels_sz (snd s) < n -> Pwithin s.
Proof.
  intros HL n. induction n as [|n IH]; intros s Hs Hn; [lia|].
  destruct (HL s Hs) as (HA & HB & HC).
  destruct (L2_sym S D (base2 S) (base2_sym S)) as (Sfc & _ & _ & Sfr).
  split; [|split].
  - intros a b Ha Hb Hk. unfold fields in Ha, Hb.
    pose proof (HA (fe_key a) (keys_of_mem _ _ Ha)) as FO.
    destruct (ForallOrdPairs_In FO a b (with_key_mem _ _ a Ha eq_refl) (with_key_mem _ _ b Hb (eq_sym Hk))) as [E|[H|H]];
      [|exact H|apply Sfc; exact H].
    subst b. constructor.
    + unfold exf. rewrite excl_refl. simpl. apply base2_refl. apply (Hargs s a (DS_top S D s Hs) Ha).
    + intros [Hsub _]. unfold exf. rewrite excl_refl. simpl. apply within_iff_subsets.
      assert (Hne : fe_sub a <> []) by (unfold has_sub in Hsub; destruct (fe_sub a); [discriminate | discriminate]).
      destruct (all_sets_sub S D Hmeta s a Hs Ha Hne) as [p'' [Hin Hp]].
      assert (W : Pwithin (p'', fe_sub a)).
      { apply IH; [exact Hin|]. simpl.
        pose proof (Wt_in _ _ Ha) as L1. rewrite Wt_dfields in L1. unfold w in L1. lia. }
      apply (within_peq S D rk Hrk (p'', fe_sub a) (sub_pt a) W). apply peq_sym. exact Hp.
  - intros g Hg. apply HB. apply dspreads_iff. exact Hg.
  - intros g1 g2 Hg1 Hg2. unfold frs in *.
    destruct (ForallOrdPairs_In HC g1 g2 (proj2 (dspreads_iff _ _) Hg1) (proj2 (dspreads_iff _ _) Hg2)) as [E|[H|H]];
      [subst; apply frfr_same | exact H | apply Sfr; exact H].
Qed.

Theorem exec_decides_L2 : forall fuel,
  run_overlap S D false fuel = [] -> run_complete S D false fuel = true -> L2_accepts S D.
Proof.
  intros fuel Hr Hc.
  pose proof (run_reflect S D Hid Hargs fuel Hr Hc) as HL.
  assert (W : forall s, In s (all_sets S D) -> Pwithin s).
  { intros s Hs. apply (lt_within HL (Datatypes.S (sels_sz (snd s))) s Hs). lia. }
  intros s [Hs|[g Hg]]; [apply W; exact Hs|].
  apply fbody_some in Hg. destruct Hg as [fr [Ef Eb]]. subst s. unfold bodyf.
  assert (Hin : In (comp S (resolve S (fr_cond fr)), fr_sel fr) (all_sets S D)).
  { unfold all_sets. apply in_app_iff. right. apply in_flat_map. exists fr. split; [apply (frag_mem D g); exact Ef|].
    left. reflexivity. }
  apply (within_peq S D rk Hrk _ (resolve S (fr_cond fr)) (W _ Hin)). simpl. apply peq_sym. apply peq_comp.
Qed.
End Decide.

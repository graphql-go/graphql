(* Termination of the validator's model as a whole.  Only the overlap rule's model takes fuel;
   the other recursive models are structural (literal validity, the TypeInfo walk) or iterate
   a fixed number of rounds that is proved sufficient (the closures: closures_stable_always;
   NoFragmentCycles' detect: see detect_fuel below). *)
From Coq Require Import List Arith Lia Bool String NArith ListDec.
From GQL Require Import Exec.Syntax Validate.VSyntax Validate.Overlap Validate.OverlapSpec Validate.OverlapWf Validate.Rules Validate.All
     Proofs.ValidateRules Proofs.ValidateCycles Proofs.ValidateRun
     Proofs.ValidateFuel Proofs.ValidateRank Proofs.ValidateWfDoc Proofs.ValidateAll.
Import ListNotations.
Close Scope N_scope.
Open Scope nat_scope.

Definition vfuel (W : wdoc) : nat := Nat.max 200 (fuel_of (erase W)).

Lemma validate_model_overlap : forall f f' S W,
  run_overlap S (erase W) true f' = run_overlap S (erase W) true f -> validate_model f' S W = validate_model f S W.
Proof. intros f f' S W E. unfold validate_model, all_rules. simpl. rewrite E. reflexivity. Qed.

Theorem validate_fuel_stable : forall S W f fuel,
  run_complete S (erase W) true f = true -> f <= fuel ->
  validate_model fuel S W = validate_model f S W /\ run_complete S (erase W) true fuel = true.
Proof.
  intros S W f fuel Hc L. destruct (run_fuel_mono S (erase W) true f fuel L Hc) as [E C].
  split; [apply validate_model_overlap; exact E | exact C].
Qed.

Theorem validate_fuel_sufficient : forall S W fuel,
  ranked_b (erase W) = true -> vfuel W <= fuel ->
  validate_model fuel S W = validate_model (vfuel W) S W /\ run_complete S (erase W) true fuel = true.
Proof.
  intros S W fuel Hr L. apply validate_fuel_stable; [|exact L].
  apply fuel_sufficient; [apply (proj1 (ranked_b_acyclic S (erase W))); exact Hr | unfold vfuel; lia].
Qed.

Lemma cyclic_rejected : forall S W fuel, ranked_b (erase W) = false -> validate_model fuel S W <> [].
Proof.
  intros S W fuel Hr E. unfold validate_model in E. rewrite flat_map_nil in E.
  pose proof (E 9%N (proj2 (in_all_rules 9) eq_refl)) as E9. pose proof (E 18%N (proj2 (in_all_rules 18) eq_refl)) as E18.
  assert (ND : NoDup (map wf_name (w_frags W))).
  { destruct (NoDup_dec string_dec (map wf_name (w_frags W))) as [Y|N]; [exact Y|].
    destruct (proj2 (unique_fragment_names_iff W) N E18). }
  assert (NV : ~ Violates_no_fragment_cycles W).
  { intro V. exact (proj2 (no_fragment_cycles_iff W ND) V E9). }
  rewrite (proj2 (ranked_b_acyclic S (erase W)) (acyclic_of_W S W NV)) in Hr. discriminate.
Qed.

Theorem validate_fuel_irrelevant : forall S W fuel fuel',
  vfuel W <= fuel -> vfuel W <= fuel' -> (validate_model fuel S W = [] <-> validate_model fuel' S W = []).
Proof.
  intros S W fuel fuel' L L'. destruct (ranked_b (erase W)) eqn:Hr.
  - rewrite (proj1 (validate_fuel_sufficient S W fuel Hr L)), (proj1 (validate_fuel_sufficient S W fuel' Hr L')). reflexivity.
  - split; intro E; exfalso; eapply cyclic_rejected; eauto.
Qed.

(* ---- NoFragmentCycles: the DFS never exhausts its internal fuel |fragments| + 1: every
   recursive call descends into a definition name not visited before ---- *)
Section DetectFuel.
Variable W : wdoc.
Open Scope string_scope.

Lemma fold_ext_inv : forall {A} (P : cyc -> Prop) (step step' : cyc -> A -> cyc) (l : list A),
  (forall st x, In x l -> P st -> step st x = step' st x /\ P (step st x)) ->
  forall st, P st -> fold_left step l st = fold_left step' l st /\ P (fold_left step l st).
Proof.
  intros A P step step' l. induction l as [|x r IH]; intros H st Hs; simpl; [split; [reflexivity | exact Hs]|].
  destruct (H st x (or_introl eq_refl) Hs) as [E Hp]. rewrite <- E.
  apply IH; [intros st' y Hy; apply H; right; exact Hy | exact Hp].
Qed.

Lemma detect_fuel : forall fuel fuel' f path idx st,
  In f (w_frags W) -> ~ In (wf_name f) (cy_visited st) -> unv W st <= fuel -> unv W st <= fuel' ->
  detect W fuel f path idx st = detect W fuel' f path idx st /\
  incl (cy_visited st) (cy_visited (detect W fuel f path idx st)).
Proof.
  induction fuel as [|fu IH]; intros fuel' f path idx st Hf Hn L L';
    pose proof (unv_dec W st (wf_name f) (in_map wf_name _ f Hf) Hn) as U1; [lia|].
  destruct fuel' as [|fu']; [lia|]. cbn [detect].
  set (st1 := {| cy_visited := wf_name f :: cy_visited st; cy_errs := cy_errs st |}) in *.
  assert (I1 : incl (cy_visited st) (cy_visited st1)) by (intros x Hx; right; exact Hx).
  destruct (ctx_spreads (wf_sel f)) as [|sp0 sps]; [split; [reflexivity | exact I1]|].
  match goal with |- fold_left ?stp ?l st1 = fold_left ?stp' ?l st1 /\ _ =>
    destruct (fold_ext_inv (fun st' => incl (cy_visited st1) (cy_visited st')) stp stp' l) with (st := st1) as [E P] end.
  - intros st' sp _ Hp.
    destruct (alookup (snd (snd sp)) ((wf_name f, Datatypes.length path) :: idx)); [split; [reflexivity | exact Hp]|].
    destruct (nmem (snd (snd sp)) (cy_visited st')) eqn:Ev; [split; [reflexivity | exact Hp]|].
    destruct (fragw W (snd (snd sp))) as [sf|] eqn:Efw; [|split; [reflexivity | exact Hp]].
    destruct (fragw_some W _ _ Efw) as [Hsf Hname].
    assert (Hn' : ~ In (wf_name sf) (cy_visited st')) by (rewrite Hname; apply nmem_not_in; exact Ev).
    pose proof (unv_mono W st1 st' Hp) as Um.
    destruct (IH fu' sf (path ++ [fst sp])%list ((wf_name f, Datatypes.length path) :: idx)%list st' Hsf Hn') as [E I]; [lia | lia|].
    split; [exact E | eapply incl_tran; eauto].
  - apply incl_refl.
  - split; [exact E | eapply incl_tran; eauto].
Qed.

Definition cycles_with_fuel (n : nat) : list N :=
  cy_errs (fold_left (fun st f => if nmem (wf_name f) (cy_visited st) then st else detect W n f [] [] st)
                     (w_frags W) {| cy_visited := []; cy_errs := [] |}).

Theorem cycles_fuel_irrelevant : forall n, Datatypes.S (List.length (w_frags W)) <= n ->
  cycles_with_fuel n = rule_no_fragment_cycles W.
Proof.
  intros n L. unfold cycles_with_fuel, rule_no_fragment_cycles. f_equal.
  apply (fold_ext_inv (fun _ => True)); [|exact I]. intros st f Hf _. split; [|exact I].
  destruct (nmem (wf_name f) (cy_visited st)) eqn:Ev; [reflexivity|]. pose proof (unv_le W st).
  apply detect_fuel; [exact Hf | apply nmem_not_in; exact Ev | lia | lia].
Qed.
End DetectFuel.

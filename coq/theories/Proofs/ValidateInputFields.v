(* UniqueInputFieldNames: the model reports an error exactly when some object literal of the
   document (at any nesting depth inside an argument value or a default value) names a
   field twice, and reports it at the name node of a field of such a literal. *)
From Coq Require Import List String NArith.
From GQL Require Import Exec.Syntax Validate.VSyntax Validate.Overlap Validate.Rules Proofs.ValidateRules.
Import ListNotations.
Open Scope string_scope.
Open Scope list_scope.

Definition ofields := list (N * (name * wvalue)).
Definition onames (l : ofields) : list name := map (fun p => fst (snd p)) l.

(* the object literal [o] occurs in the value [v] *)
Inductive sub_obj : wvalue -> ofields -> Prop :=
| sub_here : forall id l, sub_obj (WObj id l) l
| sub_list : forall id l e o, In e l -> sub_obj e o -> sub_obj (WList id l) o
| sub_field : forall id l p o, In p l -> sub_obj (snd (snd p)) o -> sub_obj (WObj id l) o.

Definition has_dup (v : wvalue) : Prop := exists o, sub_obj v o /\ ~ NoDup (onames o).

(* the inner loop of obj_dups over the fields of one literal *)
Fixpoint go_fields (l : ofields) (seen : list (name * N)) : list N :=
  match l with
  | [] => []
  | p :: r =>
    match alookup (fst (snd p)) seen with
    | Some first => first :: obj_dups (snd (snd p)) ++ go_fields r seen
    | None => obj_dups (snd (snd p)) ++ go_fields r (seen ++ [(fst (snd p), fst p)])
    end
  end.

Lemma obj_dups_obj : forall id l, obj_dups (WObj id l) = go_fields l [].
Proof. intros id l. reflexivity. Qed.

Definition fkey (p : N * (name * wvalue)) : name * N := (fst (snd p), fst p).

Lemma go_fields_in : forall l seen x, In x (go_fields l seen) <->
  In x (dup_firsts seen (map fkey l)) \/ exists p, In p l /\ In x (obj_dups (snd (snd p))).
Proof.
  induction l as [|p r IH]; intros seen x; simpl.
  - split; [intros [] | intros [[]|(p & [] & _)]].
  - destruct (alookup (fst (snd p)) seen) as [first|]; simpl; rewrite in_app_iff, IH; split.
    + intros [H|[H|[H|(q & Hq & H)]]]; [left; left | right; exists p | left; right | right; exists q]; auto.
    + intros [[H|H]|(q & [<-|Hq] & H)]; [left | right; right; left | right; left | right; right; right; exists q]; auto.
    + intros [H|[H|(q & Hq & H)]]; [right; exists p | left | right; exists q]; auto.
    + intros [H|(q & [<-|Hq] & H)]; [right; left | left | right; right; exists q]; auto.
Qed.

Lemma obj_dups_iff : forall v, obj_dups v <> [] <-> has_dup v.
Proof.
  intro v. split.
  - induction v as [id n|id z|id n d|id s|id b|id n|id l IH|id l IH] using wvalue_ind'; intro H;
      try (destruct H; reflexivity); rewrite Forall_forall in IH.
    + simpl in H. apply flat_map_nonempty in H. destruct H as (e & He & H).
      destruct (IH e He H) as (o & Ho & Hd). exists o. split; [eapply sub_list; eauto | exact Hd].
    + rewrite obj_dups_obj in H. apply nonempty_ex in H. destruct H as (x & H).
      apply go_fields_in in H. destruct H as [H|(p & Hp & H)].
      * exists l. split; [apply sub_here|]. apply (dup_firsts_iff fkey), nonempty_ex. eauto.
      * destruct (IH p Hp) as (o & Ho & Hd); [apply nonempty_ex; eauto|].
        exists o. split; [eapply sub_field; eauto | exact Hd].
  - intros (o & Ho & Hd). induction Ho as [id l|id l e o He _ IH|id l p o Hp _ IH].
    + apply (dup_firsts_iff fkey), nonempty_ex in Hd. destruct Hd as (x & H).
      rewrite obj_dups_obj. apply nonempty_ex. exists x. apply go_fields_in. auto.
    + simpl. apply flat_map_nonempty. exists e. auto.
    + destruct (proj1 (nonempty_ex _) (IH Hd)) as (x & H).
      rewrite obj_dups_obj. apply nonempty_ex. exists x. apply go_fields_in. eauto.
Qed.

Lemma obj_dups_located : forall v x, In x (obj_dups v) ->
  exists o p, sub_obj v o /\ In p o /\ x = fst p.
Proof.
  induction v as [id n|id z|id n d|id s|id b|id e|id l IHl|id l IHl] using wvalue_ind'; intros x H;
    try destruct H; rewrite Forall_forall in IHl.
  - simpl in H. apply in_flat_map in H. destruct H as (e & He & H).
    destruct (IHl e He x H) as (o & p & Hs & Hp). exists o, p. split; [eapply sub_list; eauto | exact Hp].
  - rewrite obj_dups_obj in H. apply go_fields_in in H. destruct H as [H|(p & Hp & H)].
    + apply dup_firsts_in in H. destruct H as (p & Hp & ->). exists l, p. split; [apply sub_here | auto].
    + destruct (IHl p Hp x H) as (o & q & Hs & Hq). exists o, q. split; [eapply sub_field; eauto | exact Hq].
Qed.

Definition Violates_unique_input_field_names (S : schema) (W : wdoc) : Prop :=
  (exists o v d, In o (w_ops W) /\ In v (wo_vars o) /\ wv_default v = Some d /\ has_dup d) \/
  (exists ow ad a, In (IArg ow ad a) (doc_items S W) /\ has_dup (wa_val a)).

Lemma unique_input_field_names_iff : forall S W,
  rule_unique_input_field_names S W <> [] <-> Violates_unique_input_field_names S W.
Proof.
  intros S W. apply app_some.
  - etransitivity; [apply flat_map_nonempty2|]. split.
    + intros (o & v & Ho & Hv & H). destruct (wv_default v) as [d|] eqn:E; [|destruct H; reflexivity].
      exists o, v, d. apply obj_dups_iff in H. auto.
    + intros (o & v & d & Ho & Hv & E & H). exists o, v. rewrite E. apply obj_dups_iff in H. auto.
  - etransitivity; [apply flat_map_nonempty|]. split.
    + intros ([| | | |ow ad a|] & Hi & H); try (destruct H; reflexivity).
      exists ow, ad, a. split; [exact Hi | apply obj_dups_iff; exact H].
    + intros (ow & ad & a & Hi & H). exists (IArg ow ad a). split; [exact Hi | apply obj_dups_iff; exact H].
Qed.

Theorem unique_input_field_names_located : forall S W x, In x (rule_unique_input_field_names S W) ->
  exists v o p, sub_obj v o /\ In p o /\ x = fst p /\
    ((exists op vd, In op (w_ops W) /\ In vd (wo_vars op) /\ wv_default vd = Some v) \/
     (exists ow ad a, In (IArg ow ad a) (doc_items S W) /\ wa_val a = v)).
Proof.
  intros S W. apply app_located.
  - apply flat_map_located2. intros op vd Ho Hv x H. destruct (wv_default vd) as [d|] eqn:Ed; [|destruct H].
    destruct (obj_dups_located d x H) as (o & p & Hs & Hp & E). exists d, o, p. repeat (split; [assumption|]).
    left. exists op, vd. auto.
  - apply flat_map_located. intros [| | | |ow ad a|] Hi x H; try destruct H.
    destruct (obj_dups_located (wa_val a) x H) as (o & p & Hs & Hp & E). exists (wa_val a), o, p. repeat (split; [assumption|]).
    right. exists ow, ad, a. auto.
Qed.

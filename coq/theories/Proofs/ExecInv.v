(* The executor (Exec/Exec.v) as a relation with an induction principle (Run_ind), which the
   invariants of this directory are proved by; the first of them here: everything a
   (sub)execution at response path p records -- resolver calls, errors, a raised error, deferred
   values -- lies under p. *)
From Coq Require Import List NArith String Bool.
From GQL Require Import Exec.Syntax Exec.Coerce Exec.Exec Exec.Conform Exec.Request Proofs.ExecField.
Import ListNotations.
Open Scope string_scope.
Open Scope list_scope.

Definition prefix (p q : path) : Prop := exists r, q = p ++ r.

Lemma prefix_refl : forall p, prefix p p.
Proof. intro p. exists []. rewrite app_nil_r. reflexivity. Qed.

Lemma prefix_trans : forall p q r, prefix p q -> prefix q r -> prefix p r.
Proof. intros p q r [a ->] [b ->]. exists (a ++ b). rewrite app_assoc. reflexivity. Qed.

Lemma prefix_app : forall p r, prefix p (p ++ r).
Proof. intros p r. exists r. reflexivity. Qed.

(* deferred values still in a response under construction: (type, path) *)
Fixpoint thunks (q : presp) : list (tyref * path) :=
  match q with
  | QThunk t _ _ p _ => [(t, p)]
  | QList l => flat_map thunks l
  | QObj l => flat_map (fun kv => thunks (snd kv)) l
  | _ => []
  end.

Definition thunk_ok (p : path) (tp : tyref * path) : Prop := is_nonnull (fst tp) = false /\ prefix p (snd tp).
Definition thunks_ok (p : path) (q : presp) : Prop := Forall (thunk_ok p) (thunks q).

Record ext (p : path) (s s' : st) : Prop := {
  ext_c : exists cs, st_calls s' = st_calls s ++ cs /\ Forall (fun c => prefix p (c_path c)) cs;
  ext_e : exists es, st_errs s' = st_errs s ++ es /\ Forall (fun e => prefix p (e_path e)) es }.

Lemma ext_refl : forall p s, ext p s s.
Proof. intros p s. split; exists []; rewrite app_nil_r; split; auto. Qed.

Lemma ext_trans : forall p s1 s2 s3, ext p s1 s2 -> ext p s2 s3 -> ext p s1 s3.
Proof.
  intros p s1 s2 s3 [[c1 [E1 F1]] [e1 [G1 H1]]] [[c2 [E2 F2]] [e2 [G2 H2]]]. split.
  - exists (c1 ++ c2). rewrite E2, E1, app_assoc. split; [reflexivity|apply Forall_app; split; assumption].
  - exists (e1 ++ e2). rewrite G2, G1, app_assoc. split; [reflexivity|apply Forall_app; split; assumption].
Qed.

Lemma ext_weaken : forall p p' s s', prefix p p' -> ext p' s s' -> ext p s s'.
Proof.
  intros p p' s s' Hp [[c [E F]] [e [G H]]]. split.
  - exists c. split; [exact E|]. eapply Forall_impl; [|exact F]. intros a Ha. eapply prefix_trans; eassumption.
  - exists e. split; [exact G|]. eapply Forall_impl; [|exact H]. intros a Ha. eapply prefix_trans; eassumption.
Qed.

Lemma thunks_ok_weaken : forall p p' q, prefix p p' -> thunks_ok p' q -> thunks_ok p q.
Proof.
  intros p p' q Hp H. unfold thunks_ok in *. eapply Forall_impl; [|exact H].
  intros [t tp] [H1 H2]. split; [exact H1|]. eapply prefix_trans; eassumption.
Qed.

Lemma ext_add_err : forall p e s, prefix p (e_path e) -> ext p s (add_err e s).
Proof. intros p e s H. split; cbn; [exists []; rewrite app_nil_r; auto|exists [e]; auto]. Qed.

Lemma ext_same : forall p s s', st_calls s' = st_calls s -> st_errs s' = st_errs s -> ext p s s'.
Proof. intros p s s' Hc He. split; exists []; rewrite app_nil_r; auto. Qed.

Definition xmap {A B : Type} (f : A -> B) (r : xres A) : xres B :=
  match r with XOk a s => XOk (f a) s | XRaise e s => XRaise e s | XFuel => XFuel end.

(* what holds after a step from s: the state has moved by R; a result satisfies T, a raised error U *)
Definition post {A : Type} (R : st -> st -> Prop) (U : gerr -> Prop) (T : A -> st -> Prop) (s : st) (r : xres A) : Prop :=
  match r with
  | XOk a s' => R s s' /\ T a s'
  | XRaise e s' => R s s' /\ U e
  | XFuel => True
  end.

Section Post.
Variables (R : st -> st -> Prop) (U : gerr -> Prop).
Hypothesis Rt : forall a b c, R a b -> R b c -> R a c.

Lemma post_pre : forall A (T : A -> st -> Prop) s0 s r, R s0 s -> post R U T s r -> post R U T s0 r.
Proof. intros A T s0 s [a s'|e s'|] H Hr; cbn in *; auto; (split; [eapply Rt; [exact H|apply Hr]|apply Hr]). Qed.

Lemma post_xmap : forall A B (T : A -> st -> Prop) (T' : B -> st -> Prop) (f : A -> B) s r,
  (forall a s', T a s' -> T' (f a) s') -> post R U T s r -> post R U T' s (xmap f r).
Proof. intros A B T T' f s [a s'|e s'|] H Hr; cbn in *; auto. split; [apply Hr|apply H, Hr]. Qed.

Lemma post_next : forall A B C (T1 : A -> st -> Prop) (T2 : B -> st -> Prop) (T : C -> st -> Prop) (f : B -> C) s y s' r,
  post R U T1 s (XOk y s') -> post R U T2 s' r ->
  (forall b s'', R s' s'' -> T1 y s' -> T2 b s'' -> T (f b) s'') -> post R U T s (xmap f r).
Proof.
  intros A B C T1 T2 T f s y s' r [H1 H2] Hr H. eapply post_pre; [exact H1|].
  destruct r as [b s''|e s''|]; cbn in *; auto. split; [apply Hr|]. apply H; [apply Hr|exact H2|apply Hr].
Qed.
End Post.

Definition under {A : Type} (p : path) (T : A -> Prop) : st -> xres A -> Prop :=
  post (ext p) (fun e => prefix p (e_path e)) (fun a _ => T a).

(* the invariant of a sub-execution at path p *)
Definition inv1 (p : path) (s : st) (r : xres presp) : Prop :=
  match r with
  | XOk q s' => ext p s s' /\ thunks_ok p q
  | XRaise e s' => ext p s s' /\ prefix p (e_path e)
  | XFuel => True
  end.

Definition invF (p : path) : st -> xres (list (name * presp)) -> Prop :=
  under p (Forall (fun kv => thunks_ok p (snd kv))).

(* forcing: no raise, and nothing deferred remains *)
Definition invD (p : path) (s : st) (r : xres presp) : Prop :=
  match r with
  | XOk q s' => ext p s s' /\ thunks q = []
  | XRaise _ _ => False
  | XFuel => True
  end.

Lemma inv1_weaken : forall p p' s r, prefix p p' -> inv1 p' s r -> inv1 p s r.
Proof.
  intros p p' s [q s'|e s'|] Hp H; cbn in *; auto; destruct H as [H1 H2];
    (split; [eapply ext_weaken; eassumption|]); [eapply thunks_ok_weaken|eapply prefix_trans]; eassumption.
Qed.

Lemma inv1_catch : forall p s t r, inv1 p s r -> inv1 p s (catch_at t r).
Proof.
  intros p s t [q s'|e s'|] H; cbn in *; auto.
  destruct (is_nonnull t); cbn; [exact H|].
  destruct H as [H1 H2]. split.
  - eapply ext_trans; [exact H1|apply ext_add_err; exact H2].
  - constructor.
Qed.

Lemma inv1_child : forall p (x : pseg) s t r, inv1 (p ++ [x]) s r -> inv1 p s (catch_at t r).
Proof. intros p x s t r H. apply inv1_catch. eapply inv1_weaken; [apply prefix_app|exact H]. Qed.

Lemma inv1_pre : forall p s0 s r, ext p s0 s -> inv1 p s r -> inv1 p s0 r.
Proof. intros p s0 s r. apply (post_pre _ _ (ext_trans p)). Qed.

Lemma flat_map_all_nil : forall A B (f : A -> list B) l, Forall (fun x => f x = []) l -> flat_map f l = [].
Proof. intros A B f l H. induction H as [|x l Hx _ IH]; cbn; [reflexivity|rewrite Hx, IH; reflexivity]. Qed.

Lemma thunks_list_nil : forall qs, Forall (fun q => thunks q = []) qs -> flat_map thunks qs = [].
Proof. intros qs. apply flat_map_all_nil. Qed.

Lemma thunks_fields_nil : forall (l : list (name * presp)),
  Forall (fun kv => thunks (snd kv) = []) l -> flat_map (fun kv => thunks (snd kv)) l = [].
Proof. intros l. apply flat_map_all_nil. Qed.

Lemma thunks_ok_list : forall p l, thunks_ok p (QList l) -> Forall (thunks_ok p) l.
Proof. intros p l. apply Forall_flat_map. Qed.

Lemma thunks_ok_list_intro : forall p l, Forall (thunks_ok p) l -> thunks_ok p (QList l).
Proof. intros p l. apply Forall_flat_map. Qed.

Lemma thunks_ok_obj : forall p l, thunks_ok p (QObj l) -> Forall (fun kv => thunks_ok p (snd kv)) l.
Proof. intros p l. apply Forall_flat_map. Qed.

Lemma thunks_ok_obj_intro : forall p (l : list (name * presp)),
  Forall (fun kv => thunks_ok p (snd kv)) l -> thunks_ok p (QObj l).
Proof. intros p l. apply Forall_flat_map. Qed.

Lemma thunks_ok_nil : forall p q, thunks q = [] -> thunks_ok p q.
Proof. intros p q H. unfold thunks_ok. rewrite H. constructor. Qed.

Definition leaf (j : jv) : presp := if nullish j then QNull else QLeaf j.

Definition null_raises (p : path) (nodes : list N) (r : xres presp) : xres presp :=
  match r with XOk QNull s => XRaise {| e_path := p; e_nodes := nodes |} s | _ => r end.

Definition escapes (thunked : bool) (r : xres presp) : xres presp :=
  match r with XRaise e s => if thunked then XRaise e (set_escape s) else r | _ => r end.

Definition keyed (k : name) (y : option presp) (ys : list (name * presp)) : list (name * presp) :=
  match y with Some q => (k, q) :: ys | None => ys end.

Definition atom (q : presp) : Prop := match q with QNull | QLeaf _ => True | _ => False end.

Section Run.
Variable E : env.

Definition asked (fp : path) : outcome * bool :=
  match en_or E fp with Some o => force o | None => (OVal RNull, false) end.

Definition field_call (obj : name) (src : rv) (k : name) (occs : list occ) (p : path) (args : list (name * jv)) : call :=
  {| c_path := p ++ [PKey k]; c_parent := obj; c_field := first_name occs; c_source := src;
     c_args := args; c_nodes := map oc_id occs |}.

(* the state once the invocation for key k is on record *)
Definition after_call (obj : name) (src : rv) (k : name) (occs : list occ) (p : path) (args : list (name * jv)) (s : st) : st :=
  note_missing (en_or E (p ++ [PKey k])) (p ++ [PKey k]) (add_call (field_call obj src k occs p args) s).

Lemma after_call_calls : forall obj src k occs p args s,
  st_calls (after_call obj src k occs p args s) = st_calls s ++ [field_call obj src k occs p args].
Proof. intros. unfold after_call. destruct (en_or E _); reflexivity. Qed.

Lemma after_call_errs : forall obj src k occs p args s, st_errs (after_call obj src k occs p args s) = st_errs s.
Proof. intros. unfold after_call. destruct (en_or E _); reflexivity. Qed.

Lemma ext_field_call : forall obj src k occs p args s, ext (p ++ [PKey k]) s (after_call obj src k occs p args s).
Proof.
  intros. split.
  - exists [field_call obj src k occs p args]. split; [apply after_call_calls|]. constructor; [apply prefix_refl|constructor].
  - exists []. rewrite app_nil_r. split; [apply after_call_errs|constructor].
Qed.

(* ExecuteField by cases: __typename; a name the type lacks; arguments that run out of fuel;
   otherwise the resolver is asked and its outcome completed, caught and, where required, forced *)
Lemma exec_field_elim : forall (Q : xres (option presp) -> Prop) fuel' cmp dth obj src k occs p s,
  (String.eqb (first_name occs) "__typename" = true -> Q (XOk (Some (QLeaf (JStr obj))) s)) ->
  (String.eqb (first_name occs) "__typename" = false ->
   find_field (first_name occs) (object_fields (en_S E) obj) = None -> Q (XOk None s)) ->
  Q XFuel ->
  (forall fd args o th,
     String.eqb (first_name occs) "__typename" = false ->
     find_field (first_name occs) (object_fields (en_S E) obj) = Some fd ->
     get_argument_values fuel' (en_S E) (f_args fd) (match occs with o :: _ => oc_args o | [] => [] end)
                         (Some (en_vars E)) = Some args ->
     asked (p ++ [PKey k]) = (o, th) ->
     Q (field_finish (en_serial E && match p with [] => true | _ => false end) dth
          (field_caught cmp (f_type fd) (map oc_id occs) occs (p ++ [PKey k]) o th
             (after_call obj src k occs p args s)))) ->
  Q (exec_field fuel' cmp dth E obj src k occs p s).
Proof.
  intros Q fuel' cmp dth obj src k occs p s H1 H2 H3 H4. rewrite exec_field_unfold. cbv zeta.
  destruct (String.eqb _ "__typename") eqn:Etn in |- *; [exact (H1 Etn)|].
  destruct (find_field _ _) as [fd|] eqn:Efd in |- *; [|exact (H2 Etn Efd)].
  destruct (get_argument_values _ _ _ _ _) as [args|] eqn:Ea in |- *; [|exact H3].
  destruct (asked (p ++ [PKey k])) as [o th] eqn:Eo in |- *. unfold asked in Eo. rewrite Eo.
  exact (H4 fd args o th Etn Efd Ea Eo).
Qed.
End Run.

Lemma inv1_escapes : forall p s th r, inv1 p s r -> inv1 p s (escapes th r).
Proof.
  intros p s th [q s'|e s'|] H; try exact H. destruct th; [|exact H].
  split; [eapply ext_trans; [apply H|apply ext_same; reflexivity]|apply H].
Qed.

Lemma inv1_field_defer : forall p s th t nodes occs o s2 r,
  ext p s s2 -> inv1 p s r -> inv1 p s (field_defer th t (QThunk t nodes occs p o) s2 r).
Proof.
  intros p s th t nodes occs o s2 r Hs Hr. unfold field_defer.
  destruct (th && negb (is_nonnull t)) eqn:Et; [|apply inv1_escapes; exact Hr].
  split; [exact Hs|]. constructor; [|constructor]. split; [|apply prefix_refl].
  apply andb_true_iff in Et. destruct Et as [_ Et]. cbn. destruct (is_nonnull t); [discriminate|reflexivity].
Qed.

Lemma inv1_on_outcome : forall p s f nodes o,
  (forall v, inv1 p s (f v s)) -> inv1 p s (on_outcome f {| e_path := p; e_nodes := nodes |} o s).
Proof. intros p s f nodes o Hf. destruct o; try (split; [apply ext_refl|apply prefix_refl]). apply Hf. Qed.

Lemma field_caught_inv : forall cmp t nodes occs fp o th s2,
  (forall v, inv1 fp s2 (cmp t nodes occs fp fp v s2)) -> inv1 fp s2 (field_caught cmp t nodes occs fp o th s2).
Proof.
  intros cmp t nodes occs fp o th s2 IHc.
  apply inv1_catch, inv1_field_defer; [apply ext_refl|apply inv1_on_outcome, IHc].
Qed.

(* ExecuteField at p for key k: everything it records lies under p ++ [PKey k] *)
Definition invO (p : path) : st -> xres (option presp) -> Prop :=
  under p (fun y => match y with Some q => thunks_ok p q | None => True end).

(* The executor as a relation: Run E (Complete ... s r) (and likewise for the other judgements)
   holds whenever the function of Exec/Exec.v, started in state s, returns r with fuel to spare.
   One constructor per way a step can go; what follows a step that went well is a premise, so
   that a property of all executions is proved by one induction on these derivations (Run_ind)
   instead of an induction on fuel that unfolds the functions.  Side conditions the proofs never need are
   left out: the relation is sound for the functions, not complete. *)
Section Rel.
Variable E : env.

Inductive judg : Type :=
| Complete (t : tyref) (nodes : list N) (occs : list occ) (fpath p : path) (v : rv) (s : st) (r : xres presp)
| Items (t : tyref) (nodes : list N) (occs : list occ) (fpath p : path) (l : list rv) (i : N) (s : st)
        (r : xres (list presp))
| Object (obj : name) (occs : list occ) (p : path) (src : rv) (s : st) (r : xres presp)
| Groups (obj : name) (src : rv) (g : groups) (p : path) (s : st) (r : xres (list (name * presp)))
| Field (obj : name) (src : rv) (k : name) (occs : list occ) (p : path) (s : st) (r : xres (option presp))
| Invoke (obj : name) (src : rv) (k : name) (occs : list occ) (p : path) (s : st) (fd : fielddef) (r : xres presp)
| Outcome (t : tyref) (nodes : list N) (occs : list occ) (p : path) (o : outcome) (s : st) (r : xres presp)
| Dethunk (q : presp) (s : st) (r : xres presp)
| DList (l : list presp) (s : st) (r : xres (list presp))
| DFields (l : list (name * presp)) (s : st) (r : xres (list (name * presp))).

Inductive Run : judg -> Prop :=
| C_nonnull t nodes occs fpath p v s r :
    Run (Complete t nodes occs fpath p v s r) ->
    Run (Complete (TNonNull t) nodes occs fpath p v s (null_raises p nodes r))
| C_null t nodes occs fpath p v s :
    is_nonnull t = false -> Run (Complete t nodes occs fpath p v s (XOk QNull s))
| C_scalar n k nodes occs fpath p v s :
    lookup_type (en_S E) n = Some (TScalar k) ->
    Run (Complete (TNamed n) nodes occs fpath p v s (XOk (leaf (serialize_scalar k v)) s))
| C_enum n vals nodes occs fpath p v s :
    lookup_type (en_S E) n = Some (TEnum vals) ->
    Run (Complete (TNamed n) nodes occs fpath p v s (XOk (leaf (serialize_enum vals v)) s))
| C_fail t nodes occs fpath p v s s' :
    s' = s \/ s' = add_tcall (fpath, v) s ->
    Run (Complete t nodes occs fpath p v s (XRaise {| e_path := p; e_nodes := nodes |} s'))
| C_list t nodes occs fpath p l s r :
    Run (Items t nodes occs fpath p l 0%N s r) ->
    Run (Complete (TList t) nodes occs fpath p (RList l) s (xmap QList r))
| C_object n rt nodes occs fpath p v s s1 r :
    is_composite (en_S E) n -> possible_type (en_S E) n rt = true ->
    s1 = s \/ s1 = add_tcall (fpath, v) s ->
    Run (Object rt occs p v s1 r) ->
    Run (Complete (TNamed n) nodes occs fpath p v s r)

| I_nil t nodes occs fpath p i s : Run (Items t nodes occs fpath p [] i s (XOk [] s))
| I_stop t nodes occs fpath p x l i s r1 e s' :
    Run (Complete t nodes occs fpath (p ++ [PIdx i]) x s r1) -> catch_at t r1 = XRaise e s' ->
    Run (Items t nodes occs fpath p (x :: l) i s (XRaise e s'))
| I_next t nodes occs fpath p x l i s r1 y s' r :
    Run (Complete t nodes occs fpath (p ++ [PIdx i]) x s r1) -> catch_at t r1 = XOk y s' ->
    Run (Items t nodes occs fpath p l (i + 1)%N s' r) ->
    Run (Items t nodes occs fpath p (x :: l) i s (xmap (cons y) r))

| O_fields obj occs p src s fuel g r :
    collect_all fuel (en_S E) (en_D E) (en_vars E) obj (map oc_sub occs) [] [] = Some g ->
    Run (Groups obj src g p s r) ->
    Run (Object obj occs p src s (xmap QObj r))

| G_nil obj src p s : Run (Groups obj src [] p s (XOk [] s))
| G_stop obj src k occs g p s e s' :
    Run (Field obj src k occs p s (XRaise e s')) -> Run (Groups obj src ((k, occs) :: g) p s (XRaise e s'))
| G_next obj src k occs g p s y s' r :
    Run (Field obj src k occs p s (XOk y s')) -> Run (Groups obj src g p s' r) ->
    Run (Groups obj src ((k, occs) :: g) p s (xmap (keyed k y) r))

(* ExecuteField for response key k: no resolver for __typename and for names the type lacks;
   otherwise the invocation (Invoke), the nearest nullable position, and, for a top-level
   field of a mutation, the forcing of what was deferred *)
| F_typename obj src k occs p s :
    String.eqb (first_name occs) "__typename" = true ->
    Run (Field obj src k occs p s (XOk (Some (QLeaf (JStr obj))) s))
| F_skip obj src k occs p s :
    String.eqb (first_name occs) "__typename" = false ->
    find_field (first_name occs) (object_fields (en_S E) obj) = None ->
    Run (Field obj src k occs p s (XOk None s))
| F_plain obj src k occs p s fd r1 :
    Run (Invoke obj src k occs p s fd r1) ->
    Run (Field obj src k occs p s (xmap Some (catch_at (f_type fd) r1)))
| F_forced obj src k occs s fd r1 y s' r :
    Run (Invoke obj src k occs [] s fd r1) -> catch_at (f_type fd) r1 = XOk y s' ->
    en_serial E = true -> Run (Dethunk y s' r) ->
    Run (Field obj src k occs [] s (xmap Some r))

| N_defer obj src k occs p s fd fuel args o :
    String.eqb (first_name occs) "__typename" = false ->
    find_field (first_name occs) (object_fields (en_S E) obj) = Some fd ->
    get_argument_values fuel (en_S E) (f_args fd) (match occs with o :: _ => oc_args o | [] => [] end)
                        (Some (en_vars E)) = Some args ->
    asked E (p ++ [PKey k]) = (o, true) -> is_nonnull (f_type fd) = false ->
    Run (Invoke obj src k occs p s fd
           (XOk (QThunk (f_type fd) (map oc_id occs) occs (p ++ [PKey k]) o)
                (after_call E obj src k occs p args s)))
| N_now obj src k occs p s fd fuel args o thunked r :
    String.eqb (first_name occs) "__typename" = false ->
    find_field (first_name occs) (object_fields (en_S E) obj) = Some fd ->
    get_argument_values fuel (en_S E) (f_args fd) (match occs with o :: _ => oc_args o | [] => [] end)
                        (Some (en_vars E)) = Some args ->
    asked E (p ++ [PKey k]) = (o, thunked) -> thunked && negb (is_nonnull (f_type fd)) = false ->
    Run (Outcome (f_type fd) (map oc_id occs) occs (p ++ [PKey k]) o
            (after_call E obj src k occs p args s) r) ->
    Run (Invoke obj src k occs p s fd (escapes thunked r))

| U_val t nodes occs p v s r :
    Run (Complete t nodes occs p p v s r) -> Run (Outcome t nodes occs p (OVal v) s r)
| U_fail t nodes occs p o s :
    (forall v, o <> OVal v) -> Run (Outcome t nodes occs p o s (XRaise {| e_path := p; e_nodes := nodes |} s))

| D_atom q s : atom q -> Run (Dethunk q s (XOk q s))
| D_list l s r : Run (DList l s r) -> Run (Dethunk (QList l) s (xmap QList r))
| D_obj l s r : Run (DFields l s r) -> Run (Dethunk (QObj l) s (xmap QObj r))
| D_stop t nodes occs p o s r1 e s' :
    Run (Outcome t nodes occs p o s r1) -> catch_at t r1 = XRaise e s' ->
    Run (Dethunk (QThunk t nodes occs p o) s (XRaise e s'))
| D_next t nodes occs p o s r1 y s' r :
    Run (Outcome t nodes occs p o s r1) -> catch_at t r1 = XOk y s' -> Run (Dethunk y s' r) ->
    Run (Dethunk (QThunk t nodes occs p o) s r)

| DL_nil s : Run (DList [] s (XOk [] s))
| DL_stop x l s e s' : Run (Dethunk x s (XRaise e s')) -> Run (DList (x :: l) s (XRaise e s'))
| DL_next x l s y s' r : Run (Dethunk x s (XOk y s')) -> Run (DList l s' r) -> Run (DList (x :: l) s (xmap (cons y) r))

| DF_nil s : Run (DFields [] s (XOk [] s))
| DF_stop k x l s e s' : Run (Dethunk x s (XRaise e s')) -> Run (DFields ((k, x) :: l) s (XRaise e s'))
| DF_next k x l s y s' r :
    Run (Dethunk x s (XOk y s')) -> Run (DFields l s' r) -> Run (DFields ((k, x) :: l) s (xmap (cons (k, y)) r)).
End Rel.

Definition ran {A : Type} (Q : xres A -> Prop) (r : xres A) : Prop := r <> XFuel -> Q r.

Lemma xmap_ran : forall A B (f : A -> B) r, xmap f r <> XFuel -> r <> XFuel.
Proof. intros A B f r H Hr. apply H. rewrite Hr. reflexivity. Qed.

Lemma catch_ran : forall t r, catch_at t r <> XFuel -> r <> XFuel.
Proof. intros t r H Hr. apply H. rewrite Hr. reflexivity. Qed.

Section Sound.
Variable E : env.

Lemma items_run : forall (cmp : N -> rv -> st -> xres presp) t nodes occs fpath p,
  (forall i x s, ran (fun r => Run E (Complete t nodes occs fpath (p ++ [PIdx i]) x s r)) (cmp i x s)) ->
  forall l i s, ran (fun r => Run E (Items t nodes occs fpath p l i s r)) (items_loop (fun i x s0 => catch_at t (cmp i x s0)) l i s).
Proof.
  intros cmp t nodes occs fpath p Hc. induction l as [|x l IH]; intros i s; cbn [items_loop].
  - intros _. constructor.
  - specialize (Hc i x s). destruct (catch_at t (cmp i x s)) as [y s'|e s'|] eqn:Ec; intros Hr; [| |contradiction].
    + eapply (I_next E); [apply Hc; apply (catch_ran t); congruence|exact Ec|].
      apply IH. eapply xmap_ran. exact Hr.
    + eapply I_stop; [apply Hc; apply (catch_ran t); congruence|exact Ec].
Qed.

Lemma dethunk_list_run : forall f, (forall q s, ran (fun r => Run E (Dethunk q s r)) (f q s)) ->
  forall l s, ran (fun r => Run E (DList l s r)) (dethunk_list f l s).
Proof.
  intros f Hf. induction l as [|x l IH]; intros s; cbn [dethunk_list].
  - intros _. constructor.
  - specialize (Hf x s). destruct (f x s) as [y s'|e s'|]; intros Hr; [| |contradiction].
    + eapply (DL_next E); [apply Hf; discriminate|]. apply IH. eapply xmap_ran. exact Hr.
    + apply DL_stop. apply Hf. discriminate.
Qed.

Lemma dethunk_fields_run : forall f, (forall q s, ran (fun r => Run E (Dethunk q s r)) (f q s)) ->
  forall l s, ran (fun r => Run E (DFields l s r)) (dethunk_fields f l s).
Proof.
  intros f Hf. induction l as [|[k x] l IH]; intros s; cbn [dethunk_fields].
  - intros _. constructor.
  - specialize (Hf x s). destruct (f x s) as [y s'|e s'|]; intros Hr; [| |contradiction].
    + eapply (DF_next E); [apply Hf; discriminate|]. apply IH. eapply xmap_ran. exact Hr.
    + apply DF_stop. apply Hf. discriminate.
Qed.

Lemma outcome_run : forall (cmp : rv -> st -> xres presp) t nodes occs p o s,
  (forall v s0, ran (fun r => Run E (Complete t nodes occs p p v s0 r)) (cmp v s0)) ->
  ran (fun r => Run E (Outcome t nodes occs p o s r)) (on_outcome cmp {| e_path := p; e_nodes := nodes |} o s).
Proof.
  intros cmp t nodes occs p o s Hc.
  destruct o; try (intros _; apply U_fail; intros v0 H0; discriminate). intros Hr. apply U_val. apply Hc. exact Hr.
Qed.

Lemma exec_field_run : forall fuel' cmp dth obj src k occs p s,
  (forall t nodes occs0 fpath p0 v s0, ran (fun r => Run E (Complete t nodes occs0 fpath p0 v s0 r)) (cmp t nodes occs0 fpath p0 v s0)) ->
  (forall q s0, ran (fun r => Run E (Dethunk q s0 r)) (dth q s0)) ->
  ran (fun r => Run E (Field obj src k occs p s r)) (exec_field fuel' cmp dth E obj src k occs p s).
Proof.
  intros fuel' cmp dth obj src k occs p s Hc Hd. apply exec_field_elim.
  - intros Etn _. apply F_typename; exact Etn.
  - intros Etn Efd _. apply F_skip; assumption.
  - intros H; contradiction.
  - intros fd args o th Etn Efd Ea Eo. unfold field_caught.
    match goal with |- context [field_defer ?a ?b ?c ?d ?e] =>
      assert (H1 : ran (fun r => Run E (Invoke obj src k occs p s fd r)) (field_defer a b c d e)); [|set (r1 := field_defer a b c d e) in *] end.
    { unfold field_defer. destruct (th && negb (is_nonnull (f_type fd))) eqn:Et.
      - intros _. apply andb_true_iff in Et. destruct Et as [-> Et]. eapply N_defer; try eassumption.
        destruct (is_nonnull (f_type fd)); [discriminate|reflexivity].
      - intros Hr. eapply (N_now E); try eassumption. apply outcome_run; [intros v s0; apply Hc|].
        intros H. rewrite H in Hr. apply Hr. reflexivity. }
    assert (Hp : catch_at (f_type fd) r1 <> XFuel ->
                 Run E (Field obj src k occs p s (xmap Some (catch_at (f_type fd) r1))))
      by (intros Hr; apply F_plain, H1, (catch_ran _ _ Hr)).
    destruct (catch_at (f_type fd) r1) as [y s'|e s'|] eqn:Ec; cbn [field_finish]; [|intros _; apply Hp; discriminate|intros H; contradiction].
    destruct (en_serial E) eqn:Es; [destruct p as [|a p]|]; cbn [andb]; intros Hr; [|apply Hp; discriminate..].
    eapply (F_forced E); [apply H1, (catch_ran (f_type fd)); congruence|exact Ec|exact Es|]. apply Hd. eapply xmap_ran. exact Hr.
Qed.

Definition Sound (fuel : nat) : Prop :=
  (forall t nodes occs fpath p v s,
     ran (fun r => Run E (Complete t nodes occs fpath p v s r)) (complete fuel E t nodes occs fpath p v s)) /\
  (forall obj occs p src s, ran (fun r => Run E (Object obj occs p src s r)) (exec_object fuel E obj occs p src s)) /\
  (forall obj src g p s, ran (fun r => Run E (Groups obj src g p s r)) (exec_groups fuel E obj src g p s)) /\
  (forall q s, ran (fun r => Run E (Dethunk q s r)) (dethunk fuel E q s)).

Lemma run_sound : forall fuel, Sound fuel.
Proof.
  induction fuel as [|fuel [IHc [IHo [IHg IHd]]]]; [repeat split; intros; intros H; contradiction|].
  assert (Hfail : forall t nodes occs fpath p v s,
            Run E (Complete t nodes occs fpath p v s (XRaise {| e_path := p; e_nodes := nodes |} s)))
    by (intros; apply C_fail; left; reflexivity).
  repeat split.
  - intros t nodes occs fpath p v s. cbn [complete]. destruct t as [n|t'|t'].
    + destruct (rv_nullish v); [intros _; apply C_null; reflexivity|].
      destruct (lookup_type (en_S E) n) as [[k|vals|fs ifs|fs|ms|fs]|] eqn:El; try (intros _; apply Hfail).
      (* an interface and a union alike: the runtime type is asked for *)
      4,5: destruct (en_tor E v) as [rt|]; [|intros _; apply C_fail; right; reflexivity];
        destruct (possible_type (en_S E) n rt) eqn:Ep; [|intros _; apply C_fail; right; reflexivity];
        intros Hr; eapply C_object; [unfold is_composite; rewrite El; exact I|exact Ep|right; reflexivity|apply IHo; exact Hr].
      * intros _. apply C_scalar. exact El.
      * intros _. apply C_enum. exact El.
      * intros Hr. eapply C_object; [unfold is_composite; rewrite El; exact I| |left; reflexivity|apply IHo; exact Hr].
        unfold possible_type. rewrite El. apply String.eqb_refl.
    + destruct (rv_nullish v); [intros _; apply C_null; reflexivity|].
      destruct v; try (intros _; apply Hfail). intros Hr.
      apply (C_list E). apply items_run; [intros i x s0; apply IHc|]. eapply xmap_ran. exact Hr.
    + specialize (IHc t' nodes occs fpath p v s).
      destruct (complete fuel E t' nodes occs fpath p v s) as [q s'|e s'|]; [| |intros H; contradiction];
        intros _; apply (C_nonnull E) in IHc; try discriminate; [destruct q|]; exact IHc.
  - intros obj occs p src s. cbn [exec_object].
    destruct (collect_all fuel (en_S E) (en_D E) (en_vars E) obj (map oc_sub occs) [] []) as [g|] eqn:Eg;
      [|intros H; contradiction].
    intros Hr. eapply (O_fields E); [exact Eg|]. apply IHg. eapply xmap_ran. exact Hr.
  - intros obj src g p s. cbn [exec_groups]. destruct g as [|[k occs] rest]; [intros _; constructor|].
    pose proof (exec_field_run fuel (complete fuel E) (dethunk fuel E) obj src k occs p s IHc IHd) as Hf.
    destruct (exec_field fuel (complete fuel E) (dethunk fuel E) E obj src k occs p s) as [y s'|e s'|];
      [| |intros H; contradiction]; intros Hr.
    + eapply (G_next E); [apply Hf; discriminate|]. apply IHg. eapply xmap_ran. exact Hr.
    + apply G_stop. apply Hf. discriminate.
  - intros q s. cbn [dethunk]. destruct q as [|v|l|l|t nodes occs tp o].
    + intros _. apply D_atom. exact I.
    + intros _. apply D_atom. exact I.
    + intros Hr. apply (D_list E). apply dethunk_list_run; [exact IHd|]. eapply xmap_ran. exact Hr.
    + intros Hr. apply (D_obj E). apply dethunk_fields_run; [exact IHd|]. eapply xmap_ran. exact Hr.
    + cbv zeta.
      pose proof (outcome_run (complete fuel E t nodes occs tp tp) t nodes occs tp o s
                    (fun v s0 => IHc t nodes occs tp tp v s0)) as Ho.
      unfold on_outcome in Ho.
      destruct (catch_at t _) as [y s'|e s'|] eqn:Ec; intros Hr.
      * eapply D_next; [apply Ho; apply (catch_ran t); congruence|exact Ec|apply IHd; exact Hr].
      * eapply D_stop; [apply Ho; apply (catch_ran t); congruence|exact Ec].
      * contradiction.
Qed.
End Sound.

Definition nofail {A : Type} (p : path) (T : A -> Prop) : st -> xres A -> Prop :=
  post (ext p) (fun _ => False) (fun a _ => T a).

Lemma nofail_invD : forall A (T : A -> Prop) (f : A -> presp) p s r,
  (forall a, T a -> thunks (f a) = []) -> nofail p T s r -> invD p s (xmap f r).
Proof. intros A T f p s [a s'|e s'|] H Hr; cbn in *; auto; [split; [apply Hr|apply H, Hr]|apply Hr]. Qed.

Lemma ext_tcall : forall p fpath v s s1, s1 = s \/ s1 = add_tcall (fpath, v) s -> ext p s s1.
Proof. intros p fpath v s s1 [->| ->]; apply ext_same; reflexivity. Qed.

Lemma run_inv : forall E j, Run E j ->
  match j with
  | Complete _ _ _ _ p _ s r | Object _ _ p _ s r | Outcome _ _ _ p _ s r => inv1 p s r
  | Items _ _ _ _ p _ _ s r => under p (Forall (thunks_ok p)) s r
  | Groups _ _ _ p s r => invF p s r
  | Field _ _ k _ p s r => invO (p ++ [PKey k]) s r
  | Invoke _ _ k _ p s _ r => inv1 (p ++ [PKey k]) s r
  | Dethunk q s r => forall p, thunks_ok p q -> invD p s r
  | DList l s r => forall p, Forall (thunks_ok p) l -> nofail p (Forall (fun q => thunks q = [])) s r
  | DFields l s r =>
    forall p, Forall (fun kv => thunks_ok p (snd kv)) l -> nofail p (Forall (fun kv => thunks (snd kv) = [])) s r
  end.
Proof.
  intros E.
  apply Run_ind; cbv beta iota.
  - intros t nodes occs fpath p v s [[]|e s'|] _ IH; cbn in *; auto.
    split; [apply IH|apply prefix_refl].
  - intros. split; [apply ext_refl|constructor].
  - intros. unfold leaf. destruct (nullish _); (split; [apply ext_refl|constructor]).
  - intros. unfold leaf. destruct (nullish _); (split; [apply ext_refl|constructor]).
  - intros t nodes occs fpath p v s s' Hs. split; [eapply ext_tcall; exact Hs|apply prefix_refl].
  - intros t nodes occs fpath p l s r _ IH. eapply post_xmap; [|exact IH].
    intros ys s'. apply thunks_ok_list_intro.
  - intros n rt nodes occs fpath p v s s1 r _ _ Hs _ IH. eapply inv1_pre; [eapply ext_tcall; exact Hs|exact IH].
  - intros. split; [apply ext_refl|constructor].
  - intros t nodes occs fpath p x l i s r1 e s' _ IH Ec.
    apply (inv1_child _ _ _ t) in IH. rewrite Ec in IH. exact IH.
  - intros t nodes occs fpath p x l i s r1 y s' r _ IH Ec _ IH2. apply (inv1_child _ _ _ t) in IH. rewrite Ec in IH.
    eapply (post_next _ _ (ext_trans p) _ _ _ (fun q _ => thunks_ok p q)); [exact IH|exact IH2|].
    intros; constructor; assumption.
  - intros obj occs p src s fuel g r _ _ IH. eapply post_xmap; [|exact IH].
    intros fs s'. apply thunks_ok_obj_intro.
  - intros. split; [apply ext_refl|constructor].
  - intros obj src k occs g p s e s' _ [H1 H2].
    split; [eapply ext_weaken; [apply prefix_app|exact H1]|eapply prefix_trans; [apply prefix_app|exact H2]].
  - intros obj src k occs g p s y s' r _ [H1 H2] _ IH2.
    eapply (post_next _ _ (ext_trans p) _ _ _ (fun y _ => match y with Some q => thunks_ok p q | None => True end) _ _ _ s y s');
      [split; [eapply ext_weaken; [apply prefix_app|exact H1]|]|exact IH2|].
    + destruct y; [eapply thunks_ok_weaken; [apply prefix_app|exact H2]|exact I].
    + intros fs s'' _ Hy Hfs. destruct y; [constructor; assumption|exact Hfs].
  - intros. split; [apply ext_refl|constructor].
  - intros. split; [apply ext_refl|exact I].
  - intros obj src k occs p s fd r1 _ IH. apply (inv1_catch _ _ (f_type fd)) in IH. eapply post_xmap; [|exact IH]; auto.
  - intros obj src k occs s fd r1 y s' r _ IH Ec Hser _ IHd.
    apply (inv1_catch _ _ (f_type fd)) in IH. rewrite Ec in IH. destruct IH as [H1 H2].
    specialize (IHd _ H2). destruct r as [y' s''|e s''|]; cbn in *; auto; [|contradiction].
    destruct IHd as [D1 D2]. split; [eapply ext_trans; eassumption|apply thunks_ok_nil; exact D2].
  - intros obj src k occs p s fd fuel args o _ _ _ _ Hnn.
    split; [apply ext_field_call|]. constructor; [split; [exact Hnn|apply prefix_refl]|constructor].
  - intros obj src k occs p s fd fuel args o thunked r _ _ _ _ _ _ IH.
    apply inv1_escapes. eapply inv1_pre; [apply ext_field_call|exact IH].
  - intros t nodes occs p v s r _ IH. exact IH.
  - intros. split; [apply ext_refl|apply prefix_refl].
  - intros q s Hq p _. split; [apply ext_refl|]. destruct q; try contradiction; reflexivity.
  - intros l s r _ IH p Hq. eapply nofail_invD; [|exact (IH p (thunks_ok_list p l Hq))]. apply thunks_list_nil.
  - intros l s r _ IH p Hq. eapply nofail_invD; [|exact (IH p (thunks_ok_obj p l Hq))]. apply thunks_fields_nil.
  - (* a deferred value sits at a nullable position, where catch_at does not raise *)
    intros t nodes occs tp o s r1 e s' _ _ Ec p Hq. destruct (Forall_inv Hq) as [Hnn _]. cbn in Hnn.
    destruct r1; cbn in Ec; try discriminate. rewrite Hnn in Ec. discriminate.
  - intros t nodes occs tp o s r1 y s' r _ IH Ec _ IHd p Hq.
    destruct (Forall_inv Hq) as [_ Hpre]. cbn in Hpre.
    apply (inv1_catch _ _ t) in IH. rewrite Ec in IH. destruct IH as [H1 H2].
    specialize (IHd _ H2). destruct r as [y' s''|e' s''|]; cbn in *; auto.
    split; [|apply IHd]. eapply ext_weaken; [exact Hpre|eapply ext_trans; [exact H1|apply IHd]].
  - intros. split; [apply ext_refl|constructor].
  - intros x l s e s' _ IH p Hl. destruct (IH p (Forall_inv Hl)).
  - intros x l s y s' r _ IH _ IH2 p Hl.
    eapply (post_next _ _ (ext_trans p) _ _ _ (fun q _ => thunks q = []));
      [exact (IH p (Forall_inv Hl))|exact (IH2 p (Forall_inv_tail Hl))|].
    intros; constructor; assumption.
  - intros. split; [apply ext_refl|constructor].
  - intros k x l s e s' _ IH p Hl. destruct (IH p (Forall_inv Hl)).
  - intros k x l s y s' r _ IH _ IH2 p Hl.
    eapply (post_next _ _ (ext_trans p) _ _ _ (fun q _ => thunks q = []));
      [exact (IH p (Forall_inv Hl))|exact (IH2 p (Forall_inv_tail Hl))|].
    intros; constructor; assumption.
Qed.

Definition P (fuel : nat) : Prop :=
  (forall E t nodes occs fpath p v s, inv1 p s (complete fuel E t nodes occs fpath p v s)) /\
  (forall E obj occs p src s, inv1 p s (exec_object fuel E obj occs p src s)) /\
  (forall E obj src g p s, invF p s (exec_groups fuel E obj src g p s)) /\
  (forall E q s p, thunks_ok p q -> invD p s (dethunk fuel E q s)).

Lemma unless_fuel : forall A (Q Q' : xres A -> Prop) r, ran Q r -> (forall r', Q r' -> Q' r') -> Q' XFuel -> Q' r.
Proof. intros A Q Q' [a s|e s|] H HQ H0; [apply HQ, H; discriminate|apply HQ, H; discriminate|exact H0]. Qed.

Lemma exec_inv : forall fuel, P fuel.
Proof.
  intros fuel. split; [|split; [|split]]; intros E; destruct (run_sound E fuel) as [Sc [So [Sg Sd]]]; intros.
  - apply (unless_fuel _ _ (inv1 p s) _ (Sc t nodes occs fpath p v s)); [intros r' Hr; exact (run_inv E _ Hr)|exact I].
  - apply (unless_fuel _ _ (inv1 p s) _ (So obj occs p src s)); [intros r' Hr; exact (run_inv E _ Hr)|exact I].
  - apply (unless_fuel _ _ (invF p s) _ (Sg obj src g p s)); [intros r' Hr; exact (run_inv E _ Hr)|exact I].
  - apply (unless_fuel _ _ (invD p s) _ (Sd q s)); [intros r' Hr; exact (run_inv E _ Hr p H)|exact I].
Qed.

Lemma exec_field_inv : forall fuel E obj src k occs p s,
  invO (p ++ [PKey k]) s (exec_field fuel (complete fuel E) (dethunk fuel E) E obj src k occs p s) /\
  (en_serial E = true -> p = [] ->
   match exec_field fuel (complete fuel E) (dethunk fuel E) E obj src k occs p s with
   | XOk (Some y) _ => thunks y = []
   | _ => True
   end).
Proof.
  intros fuel E obj src k occs p s. destruct (exec_inv fuel) as [IHc [_ [_ IHd]]].
  apply (exec_field_elim E (fun r => invO (p ++ [PKey k]) s r /\
           (en_serial E = true -> p = [] -> match r with XOk (Some y) _ => thunks y = [] | _ => True end))).
  - intros _. split; [split; [apply ext_refl|constructor]|reflexivity].
  - intros _ _. split; [split; [apply ext_refl|exact I]|auto].
  - split; [exact I|auto].
  - intros fd args o th _ _ _ _.
    match goal with |- context [field_caught ?c ?t ?n ?oc ?fp ?o ?th ?s2] =>
      assert (H : inv1 fp s (field_caught c t n oc fp o th s2)) end.
    { eapply inv1_pre; [apply ext_field_call|]. apply field_caught_inv. intros v. apply IHc. }
    destruct (field_caught _ _ _ _ _ _ _ _) as [y s'|e s'|]; cbn [field_finish]; [|split; [exact H|auto]|split; [exact I|auto]].
    destruct (en_serial E); [destruct p|]; cbn [andb];
      try (split; [exact H|intros; discriminate]).
    destruct H as [H1 H2]. specialize (IHd E y s' _ H2).
    destruct (dethunk fuel E y s') as [y' s''|e s''|]; cbn in IHd |- *; [|contradiction|auto].
    split; [split; [eapply ext_trans; [exact H1|apply IHd]|apply thunks_ok_nil; apply IHd]|intros _ _; apply IHd].
Qed.

Lemma Dethunk_obj_inv : forall E l s q s',
  Run E (Dethunk (QObj l) s (XOk q s')) -> exists l', q = QObj l' /\ Run E (DFields l s (XOk l' s')).
Proof.
  (* only D_atom and D_obj can end in a judgement of this form; written as a match because
     inversion on the 33 constructors is dear *)
  intros E l s q s' H.
  refine (match H in Run _ j
                return match j with
                       | Dethunk (QObj l) s (XOk q s') => exists l', q = QObj l' /\ Run E (DFields l s (XOk l' s'))
                       | _ => True
                       end with
          | D_atom _ q0 s0 Ha => _ | D_obj _ l0 s0 r Hr => _ | _ => I end).
  - destruct q0; try exact I. destruct Ha.
  - destruct r; try exact I. eexists. split; [reflexivity|exact Hr].
Qed.

(* a completed request: the root selection set is executed from the empty state, what it
   deferred is forced (which cannot fail), and a failure that reaches the root nulls the data *)
Inductive Finished (E : env) (rt : name) (root : rv) (g : groups) : option resp -> st -> Prop :=
| Fin_data fs s1 q s :
    Run E (Groups rt root g [] st0 (XOk fs s1)) -> Run E (Dethunk (QObj fs) s1 (XOk q s)) ->
    Finished E rt root g (Some (to_resp q)) s
| Fin_null e s1 :
    Run E (Groups rt root g [] st0 (XRaise e s1)) -> Finished E rt root g None (add_err e s1).

Lemma request_run : forall fuel S D opn inputs root or tor data s,
  request fuel S D opn inputs root or tor = RDone data s ->
  exists op rt vars g v,
    get_operation D opn = Some op /\ root_type S op = Some rt /\
    get_variable_values fuel S (o_vars op) inputs = Some (inl vars) /\
    collect fuel S D vars rt (o_sel op) [] [] = Some (g, v) /\
    Finished {| en_S := S; en_D := D; en_vars := vars; en_or := or; en_tor := tor;
                en_serial := match o_kind op with OpMutation => true | _ => false end |} rt root g data s.
Proof.
  intros fuel S D opn inputs root or tor data s H. unfold request in H.
  destruct (get_operation D opn) as [op|]; [|discriminate].
  destruct (root_type S op) as [rt|] eqn:Ert; [|discriminate].
  destruct (get_variable_values fuel S (o_vars op) inputs) as [[vars|e]|] eqn:Ev; try discriminate.
  destruct (collect fuel S D vars rt (o_sel op) [] []) as [[g v]|] eqn:Ec; [|discriminate].
  exists op, rt, vars, g, v. repeat (split; [first [reflexivity|assumption]|]).
  set (E := {| en_S := S; en_D := D; en_vars := vars; en_or := or; en_tor := tor;
               en_serial := match o_kind op with OpMutation => true | _ => false end |}) in *.
  destruct (run_sound E fuel) as [_ [_ [Sg Sd]]]. specialize (Sg rt root g [] st0).
  destruct (exec_groups fuel E rt root g [] st0) as [fs s1|e s1|]; [| |discriminate].
  - specialize (Sd (QObj fs) s1). specialize (Sg ltac:(discriminate)).
    destruct (dethunk fuel E (QObj fs) s1) as [q s2|e s2|]; [| |discriminate];
      specialize (Sd ltac:(discriminate)).
    + injection H as <- <-. exact (Fin_data E rt root g fs s1 q s2 Sg Sd).
    + exfalso. apply (run_inv E) in Sg. apply (run_inv E _ Sd []). apply thunks_ok_obj_intro. apply Sg.
  - injection H as <- <-. apply Fin_null. apply Sg. discriminate.
Qed.

(* What the transition systems of Conc/ have in common: runs of a partial step function,
   invariants, termination by a measure, and the acceptor of observed traces (closure under
   library steps, then one visible step).  Each model brings its own `run`, `orun`, `lib_closure`
   ...; they are written alike, so the definitions below are convertible with theirs and the
   lemmas apply to them as they stand. *)
From Coq Require Import List Bool Lia.
Import ListNotations.

Section Lts.
Context {st label : Type}.
Variable step_fn : st -> label -> option st.
Variable run : st -> list label -> st -> Prop.

Definition is_run : Prop := forall s ls s', run s ls s' <->
  match ls with [] => s' = s | l :: r => exists s1, step_fn s l = Some s1 /\ run s1 r s' end.
Hypothesis R : is_run.

Lemma run_nil' : forall s, run s [] s.
Proof. intros s. apply R. reflexivity. Qed.

Lemma run_cons' : forall s l s1 ls s2, step_fn s l = Some s1 -> run s1 ls s2 -> run s (l :: ls) s2.
Proof. intros s l s1 ls s2 H1 H2. apply R. eauto. Qed.

Lemma run_app : forall ls s s1 ls' s2, run s ls s1 -> run s1 ls' s2 -> run s (ls ++ ls') s2.
Proof.
  induction ls as [|l ls IH]; intros s s1 ls' s2 H1 H2; apply R in H1.
  - subst s1. exact H2.
  - destruct H1 as (s0 & H0 & H1). eapply run_cons'; eauto.
Qed.

Lemma run_snoc : forall s ls s1 l s2, run s ls s1 -> step_fn s1 l = Some s2 -> run s (ls ++ [l]) s2.
Proof. intros s ls s1 l s2 H1 H2. eapply run_app; [exact H1|]. eapply run_cons'; [exact H2|apply run_nil']. Qed.

Lemma run_invariant : forall (P : st -> Prop), (forall s l s', P s -> step_fn s l = Some s' -> P s') ->
  forall ls s s', run s ls s' -> P s -> P s'.
Proof.
  intros P HS. induction ls as [|l ls IH]; intros s s' H1 H0; apply R in H1.
  - subst s'. exact H0.
  - destruct H1 as (s1 & H1 & H2). eauto.
Qed.

Fixpoint exec (s : st) (ls : list label) : option st :=
  match ls with
  | [] => Some s
  | l :: r => match step_fn s l with Some s1 => exec s1 r | None => None end
  end.

Lemma exec_run : forall ls s s', exec s ls = Some s' <-> run s ls s'.
Proof.
  induction ls as [|l ls IH]; intros s s'; simpl.
  - split; intros H; [injection H as <-; apply run_nil'|apply R in H; congruence].
  - destruct (step_fn s l) as [s1|] eqn:E.
    + rewrite IH. split; intros H; [eapply run_cons'; eauto|].
      apply R in H. destruct H as (s2 & E2 & H). congruence.
    + split; [discriminate|]. intros H. apply R in H. destruct H as (s2 & E2 & _). congruence.
Qed.

Lemma accepts_run : forall s ls, (if exec s ls then true else false) = true <-> exists s', run s ls s'.
Proof.
  intros s ls. destruct (exec s ls) as [s'|] eqn:E.
  - split; [intros _; exists s'; apply exec_run; exact E|reflexivity].
  - split; [discriminate|]. intros (s' & H). apply exec_run in H. congruence.
Qed.

Variable measure : st -> nat.
Variable good : label -> bool.
Hypothesis decreases : forall s l s', good l = true -> step_fn s l = Some s' -> measure s' < measure s.

Lemma run_bounded : forall ls s s', run s ls s' -> Forall (fun l => good l = true) ls ->
  length ls + measure s' <= measure s.
Proof.
  induction ls as [|l ls IH]; intros s s' H F; apply R in H; simpl.
  - subst s'. lia.
  - destruct H as (s1 & H1 & H2). inversion F as [|? ? Hl F']; subst.
    pose proof (decreases _ _ _ Hl H1). pose proof (IH _ _ H2 F'). lia.
Qed.

Lemma terminates : forall (P goal : st -> Prop),
  (forall s l s', P s -> good l = true -> step_fn s l = Some s' -> P s') ->
  (forall s, P s -> goal s \/ exists l s', good l = true /\ step_fn s l = Some s') ->
  forall s, P s -> exists ls s', run s ls s' /\ Forall (fun l => good l = true) ls /\ goal s'.
Proof.
  intros P goal Hpres Hprog.
  assert (G : forall n s, measure s < n -> P s ->
              exists ls s', run s ls s' /\ Forall (fun l => good l = true) ls /\ goal s').
  { induction n as [|n IH]; intros s Hm HP; [lia|].
    destruct (Hprog s HP) as [Hg|(l & s1 & Hl & Hs)].
    - exists [], s. split; [apply run_nil'|split; [constructor|exact Hg]].
    - destruct (IH s1) as (ls & s2 & H & F & Hg); [pose proof (decreases s l s1 Hl Hs); lia|eauto|].
      exists (l :: ls), s2. split; [eapply run_cons'; eauto|split; [constructor; assumption|exact Hg]]. }
  intros s HP. apply (G (S (measure s))); [lia|exact HP].
Qed.

Variable lib_labels : list label.
Hypothesis labels_good : forall l, In l lib_labels <-> good l = true.
Variable st_eqb : st -> st -> bool.

Fixpoint dedup (l : list st) : list st :=
  match l with
  | [] => []
  | x :: r => if existsb (st_eqb x) r then dedup r else x :: dedup r
  end.

Definition opt_list {A} (o : option A) : list A := match o with Some x => [x] | None => [] end.

Definition lib_round (ss : list st) : list st :=
  flat_map (fun s => flat_map (fun l => opt_list (step_fn s l)) lib_labels) ss.

Fixpoint lib_closure (fuel : nat) (ss : list st) : list st :=
  match fuel with
  | O => ss
  | S f => ss ++ lib_closure f (dedup (lib_round ss))
  end.

Definition covers (ss : list st) (s : st) : Prop :=
  exists s0 ls, In s0 ss /\ run s0 ls s /\ Forall (fun l => good l = true) ls.

Lemma covers_in : forall ss s, In s ss -> covers ss s.
Proof. intros ss s H. exists s, []. split; [exact H|split; [apply run_nil'|constructor]]. Qed.

Lemma in_opt_list : forall A (o : option A) x, In x (opt_list o) <-> o = Some x.
Proof. intros A [y|] x; cbn; split; try congruence; try tauto. intros [H|[]]. congruence. intros H. left. congruence. Qed.

Lemma dedup_incl : forall l x, In x (dedup l) -> In x l.
Proof.
  induction l as [|y l IH]; intros x H; cbn in H; [exact H|].
  destruct (existsb _ l); [right; apply IH; exact H|].
  destruct H as [H|H]; [left; exact H|right; apply IH; exact H].
Qed.

Lemma lib_closure_sound : forall fuel ss s, In s (lib_closure fuel ss) -> covers ss s.
Proof.
  induction fuel as [|f IH]; intros ss s' H; cbn in H; [apply covers_in; exact H|].
  apply in_app_or in H. destruct H as [H|H]; [apply covers_in; exact H|].
  destruct (IH _ _ H) as (s1 & ls & I1 & H1 & F). apply dedup_incl, in_flat_map in I1.
  destruct I1 as (s & Is & I1). apply in_flat_map in I1. destruct I1 as (l & Il & I1). apply in_opt_list in I1.
  exists s, (l :: ls). split; [exact Is|]. split; [eapply run_cons'; eauto|].
  constructor; [apply labels_good; exact Il|exact F].
Qed.

Hypothesis st_eqb_eq : forall a b, st_eqb a b = true -> a = b.

Lemma dedup_complete : forall l x, In x l -> In x (dedup l).
Proof.
  induction l as [|y l IH]; intros x H; [contradiction|]. cbn.
  destruct (existsb (st_eqb y) l) eqn:E.
  - destruct H as [H|H]; [|apply IH; exact H]. subst y. apply existsb_exists in E. destruct E as (z & Iz & Ez).
    apply st_eqb_eq in Ez. subst z. apply IH. exact Iz.
  - destruct H as [H|H]; [left; exact H|right; apply IH; exact H].
Qed.

Lemma lib_closure_complete : forall ls fuel ss s s', In s ss -> run s ls s' ->
  Forall (fun l => good l = true) ls -> length ls <= fuel -> In s' (lib_closure fuel ss).
Proof.
  induction ls as [|l ls IH]; intros fuel ss s s' Is H F L; apply R in H.
  - subst s'. destruct fuel; cbn; [exact Is|apply in_or_app; left; exact Is].
  - destruct H as (s1 & H1 & H2). inversion F as [|? ? Hl F']; subst.
    destruct fuel as [|f]; [cbn in L; lia|]. cbn [lib_closure]. apply in_or_app. right.
    apply (IH f _ s1 s'); [|exact H2|exact F'|cbn in L; lia].
    apply dedup_complete, in_flat_map. exists s. split; [exact Is|].
    apply in_flat_map. exists l. split; [apply labels_good; exact Hl|apply in_opt_list; exact H1].
Qed.

Variable obs : Type.
(* `vis s o s1`: from s, observation o is made on the way to s1 *)
Variable vis : st -> obs -> st -> Prop.
Variable obs_step : st -> obs -> list st.
Hypothesis obs_step_sound : forall s o s1, In s1 (obs_step s o) -> vis s o s1.
Hypothesis obs_step_complete : forall s o s1, vis s o s1 -> In s1 (obs_step s o).
Hypothesis vis_run : forall s o s1, vis s o s1 -> exists ls, run s ls s1.
Variable fuel : list st -> nat.
Hypothesis fuel_bound : forall ss s, In s ss -> measure s <= fuel ss.

Definition obs_after (ss : list st) (o : obs) : list st :=
  dedup (flat_map (fun s => obs_step s o) (dedup (lib_closure (fuel ss) ss))).

Fixpoint obs_run (ss : list st) (os : list obs) : list st :=
  match os with
  | [] => ss
  | o :: r => obs_run (obs_after ss o) r
  end.

Variable orun : st -> list obs -> st -> Prop.
Record is_orun : Prop := {
  o_nil : forall s, orun s [] s;
  o_lib : forall s l s1 os s2, good l = true -> step_fn s l = Some s1 -> orun s1 os s2 -> orun s os s2;
  o_vis : forall s o s1 os s2, vis s o s1 -> orun s1 os s2 -> orun s (o :: os) s2;
  o_ind : forall P : st -> list obs -> st -> Prop,
      (forall s, P s [] s) ->
      (forall s l s1 os s2, good l = true -> step_fn s l = Some s1 -> P s1 os s2 -> P s os s2) ->
      (forall s o s1 os s2, vis s o s1 -> P s1 os s2 -> P s (o :: os) s2) ->
      forall s os s', orun s os s' -> P s os s' }.
Hypothesis O : is_orun.

Lemma orun_is_run : forall s os s', orun s os s' -> exists ls, run s ls s'.
Proof.
  apply (o_ind O).
  - intros s. exists []. apply run_nil'.
  - intros s l s1 os s2 _ H (ls & H1). exists (l :: ls). eapply run_cons'; eauto.
  - intros s o s1 os s2 V (ls & H1). destruct (vis_run _ _ _ V) as (l0 & H0). exists (l0 ++ ls). eapply run_app; eauto.
Qed.

Lemma orun_covered : forall ss s, covers ss s -> forall os s', orun s os s' -> exists s0, In s0 ss /\ orun s0 os s'.
Proof.
  intros ss s (s0 & ls & I0 & H & F) os s' Or. exists s0. split; [exact I0|].
  clear I0. revert s0 H F. induction ls as [|l ls IH]; intros s0 H F; apply R in H.
  - subst s0. exact Or.
  - destruct H as (s1 & H1 & H2). inversion F as [|? ? Hl F']; subst. eapply (o_lib O); eauto.
Qed.

Theorem obs_run_sound : forall os ss s', In s' (obs_run ss os) -> exists s, In s ss /\ orun s os s'.
Proof.
  induction os as [|o os IH]; intros ss s' H; cbn [obs_run] in H.
  - exists s'. split; [exact H|apply (o_nil O)].
  - destruct (IH _ _ H) as (s1 & I1 & Or). apply dedup_incl, in_flat_map in I1.
    destruct I1 as (sc & Ic & I1). apply dedup_incl, lib_closure_sound in Ic.
    apply (orun_covered _ _ Ic). eapply (o_vis O); [apply obs_step_sound; exact I1|exact Or].
Qed.

Lemma covers_in_closure : forall ss s, covers ss s -> In s (dedup (lib_closure (fuel ss) ss)).
Proof.
  intros ss s (s0 & ls & I0 & H & F). apply dedup_complete, (lib_closure_complete ls _ ss s0 s I0 H F).
  pose proof (run_bounded _ _ _ H F). pose proof (fuel_bound ss s0 I0). lia.
Qed.

Theorem obs_run_complete : forall s os s', orun s os s' -> forall ss, covers ss s -> covers (obs_run ss os) s'.
Proof.
  apply (o_ind O (fun s os s' => forall ss, covers ss s -> covers (obs_run ss os) s')).
  - intros s ss C. exact C.
  - intros s l s1 os s2 Hl H IH ss (s0 & ls & I0 & H0 & F). apply IH. exists s0, (ls ++ [l]).
    split; [exact I0|]. split; [eapply run_snoc; eauto|apply Forall_app; split; [exact F|constructor; [exact Hl|constructor]]].
  - intros s o s1 os s2 V IH ss C. cbn [obs_run]. apply IH, covers_in, dedup_complete, in_flat_map.
    exists s. split; [apply covers_in_closure; exact C|apply obs_step_complete; exact V].
Qed.

Definition accepts_from (s0 : st) (os : list obs) : bool := match obs_run [s0] os with [] => false | _ => true end.

Theorem acceptor_sound : forall s0 os, accepts_from s0 os = true -> exists s, orun s0 os s.
Proof.
  intros s0 os H. unfold accepts_from in H. destruct (obs_run [s0] os) as [|s' r] eqn:E; [discriminate H|].
  destruct (obs_run_sound os [s0] s') as (s & [<-|[]] & Or); [rewrite E; left; reflexivity|]. exists s'. exact Or.
Qed.

Theorem acceptor_complete : forall s0 os s, orun s0 os s -> accepts_from s0 os = true.
Proof.
  intros s0 os s Or. unfold accepts_from.
  destruct (obs_run_complete _ _ _ Or [s0]) as (x & _ & Ix & _); [apply covers_in; left; reflexivity|].
  destruct (obs_run [s0] os); [contradiction|reflexivity].
Qed.

End Lts.

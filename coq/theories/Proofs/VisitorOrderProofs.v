(* C14 -- document order and "exactly once": the events of the walk are the Euler tour of
   the tree (pre-order enters, post-order leaves) restricted to what the visitor is shown. *)
From Coq Require Import List NArith Bool Arith Permutation.
From GQL Require Import Visitor.VisitorTree Visitor.VisitorWalk Visitor.VisitorLoop Visitor.VisitorOrder
     Proofs.VisitorWalkProofs.
Import ListNotations.

Section TourFacts.
Variable keys_of : N -> list N.
Variable sk : gnode -> bool.

Lemma tour_unfold n :
  tour keys_of sk n =
  (PEnter, n) :: (if sk n then [] else tkeys keys_of sk (g_slots n) (keys_of (g_kind n)) ++ [(PLeave, n)]).
Proof.
  destruct n as [id kind slots]. cbn [g_slots g_kind]. cbn -[tkeys app].
  apply f_equal. destruct (sk (GNode id kind slots)); [reflexivity|]. apply (f_equal (fun x => x ++ _)).
  induction (keys_of kind) as [|k ks IH]; [reflexivity|]. cbn [tkeys]. rewrite <- IH.
  apply (f_equal (fun x => x ++ _)). clear IH.
  induction slots as [|[nm o|nm l] ss IHs]; cbn [find_slot slot_name]; [reflexivity | |];
    (destruct (N.eqb k nm); [|exact IHs]); [destruct o|]; reflexivity.
Qed.

Lemma tkeys_kids cin slots ks :
  tkeys keys_of sk slots ks = fold_right (@app _) [] (map (fun x : kid => tour keys_of sk (snd x)) (kids cin slots ks)).
Proof.
  induction ks as [|k ks IH]; [reflexivity|]. cbn [tkeys].
  change (kids cin slots (k :: ks)) with (slot_kids cin k (find_slot k slots) ++ kids cin slots ks).
  rewrite map_app, fold_right_app, <- IH.
  destruct (find_slot k slots) as [[nm [ch|]|nm l]|]; cbn [tslot slot_kids map fold_right]; try reflexivity.
  generalize 0. induction l as [|ch l IHl]; intros i; [reflexivity|].
  cbn [tlist list_kids map fold_right]. rewrite <- app_assoc, (IHl (S i)). reflexivity.
Qed.
End TourFacts.

Section Order.
Variable keys_of : N -> list N.
Variable sel : N -> phase -> option N.
Variable pol : N -> phase -> action.
Notation W := (walk keys_of sel pol).
Notation sk := (skips sel pol).
Notation marks := (fun p : tr => map ev_mark (fst p)).

Hypothesis no_break : forall id ph, pol id ph <> Break.

Theorem walk_is_tour : forall n c key, marks (W c key n) = shown sel (tour keys_of sk n).
Proof.
  induction n as [id kind slots IH] using gnode_child_ind. intros c key.
  set (n := GNode id kind slots).
  assert (Happ : forall a b, shown sel (a ++ b) = shown sel a ++ shown sel b) by (intros; apply flat_map_app).
  assert (Hemit : forall ph, map ev_mark (emit sel ph c key n) = shown sel [(ph, n)]).
  { intros ph. unfold emit, shown. cbn [flat_map fst snd]. destruct (sel (g_kind n) ph); reflexivity. }
  assert (HK : forall cin ks,
             map ev_mark (fold_right (@app _) [] (map (kid_events keys_of sel pol) (kids cin slots ks)))
             = shown sel (tkeys keys_of sk slots ks)).
  { intros cin ks. rewrite (tkeys_kids _ _ cin).
    apply (folds_rel (fun p t => map ev_mark p = shown sel t)); [reflexivity | |].
    - intros p q a b Hp Hq. rewrite map_app, Happ, Hp, Hq. reflexivity.
    - intros x Hx. apply IH, (kids_child _ _ _ _ Hx). }
  rewrite (walk_no_break _ _ _ no_break), tour_unfold. cbn [fst].
  change (skips sel pol n) with (match act sel pol n PEnter with Skip => true | _ => false end).
  change ((PEnter, n) :: ?r) with ([(PEnter, n)] ++ r).
  destruct (act sel pol n PEnter); [|rewrite !app_nil_r; apply Hemit|];
    rewrite !map_app, !Happ, HK, !Hemit; reflexivity.
Qed.
End Order.

Inductive Sub {A} : list A -> list A -> Prop :=
| Sub_nil : Sub [] []
| Sub_cons x l1 l2 : Sub l1 l2 -> Sub (x :: l1) (x :: l2)
| Sub_skip x l1 l2 : Sub l1 l2 -> Sub l1 (x :: l2).

Lemma Sub_nil_l {A} (l : list A) : Sub [] l.
Proof. induction l; constructor; assumption. Qed.
Lemma Sub_refl {A} (l : list A) : Sub l l.
Proof. induction l; constructor; assumption. Qed.
Lemma Sub_app {A} (a a' b b' : list A) : Sub a a' -> Sub b b' -> Sub (a ++ b) (a' ++ b').
Proof. induction 1; intros Hb; cbn; try constructor; auto. Qed.
Lemma Sub_map {A B} (f : A -> B) a b : Sub a b -> Sub (map f a) (map f b).
Proof. induction 1; cbn; constructor; assumption. Qed.
Lemma Sub_filter_l {A} (f : A -> bool) a b : Sub a b -> Sub (filter f a) b.
Proof. induction 1; cbn; [constructor | destruct (f x); constructor; assumption | constructor; assumption]. Qed.
Lemma Sub_In {A} (a b : list A) x : Sub a b -> In x a -> In x b.
Proof. induction 1; cbn; intuition. Qed.
Lemma Sub_NoDup {A} (a b : list A) : Sub a b -> NoDup b -> NoDup a.
Proof.
  induction 1; intros Hn; [constructor | |].
  - inversion Hn; subst. constructor; [intros Hi; apply (Sub_In _ _ _ H) in Hi; contradiction | auto].
  - inversion Hn; subst. auto.
Qed.

Section Prune.
Variable keys_of : N -> list N.
Variable sk : gnode -> bool.
Notation fe := (filter is_enter).

Theorem enters_sub_preorder : forall n, Sub (enters keys_of sk n) (preorder keys_of n).
Proof.
  intros n. unfold enters, preorder, enters. apply Sub_map.
  induction n as [id kind slots IH] using gnode_child_ind.
  rewrite !tour_unfold. cbn [filter is_enter fst]. apply Sub_cons.
  destruct (sk (GNode id kind slots)); [apply Sub_nil_l|].
  rewrite !filter_app. cbn [g_slots g_kind filter is_enter fst]. apply Sub_app; [|constructor].
  rewrite !(tkeys_kids _ _ w_root). apply (folds_rel (fun a b => Sub (fe a) (fe b))); [constructor | |].
  - intros p q a b Hp Hq. rewrite !filter_app. apply Sub_app; assumption.
  - intros x Hx. apply IH, (kids_child _ _ _ _ Hx).
Qed.

Theorem leaves_perm : forall n,
  Permutation (leaves keys_of sk n) (filter (fun m => negb (sk m)) (enters keys_of sk n)).
Proof.
  induction n as [id kind slots IH] using gnode_child_ind. unfold leaves, enters.
  rewrite !tour_unfold. cbn [filter is_enter is_leave negb fst map snd].
  destruct (sk (GNode id kind slots)) eqn:Es; cbn [negb]; [constructor|].
  rewrite !filter_app, !map_app. cbn [filter is_enter is_leave negb fst map snd app].
  rewrite app_nil_r. cbn [g_slots g_kind].
  eapply Permutation_trans; [apply Permutation_sym, Permutation_cons_append|]. apply perm_skip.
  rewrite (tkeys_kids _ _ w_root).
  apply (folds_all (fun t => Permutation (map snd (filter is_leave t)) (filter (fun m => negb (sk m)) (map snd (fe t)))));
    [constructor | |].
  - intros p q Hp Hq. rewrite !filter_app, !map_app, filter_app. apply Permutation_app; assumption.
  - intros x Hx. apply IH, (kids_child _ _ _ _ Hx).
Qed.
End Prune.

Section Counting.
Variable keys_of : N -> list N.
Variable sel : N -> phase -> option N.
Variable pol : N -> phase -> action.
Notation sk := (skips sel pol).

Notation in_ph ph := (fun x : phase * gnode => phase_eqb (fst x) ph).

Lemma ids_marks ph evs :
  map e_id (filter (fun e => phase_eqb (e_phase e) ph) evs)
  = map (fun m => snd (fst m)) (filter (fun m => phase_eqb (fst (fst m)) ph) (map ev_mark evs)).
Proof.
  induction evs as [|e r IH]; [reflexivity|]. cbn [map filter ev_mark fst snd].
  destruct (phase_eqb (e_phase e) ph); cbn [map]; rewrite IH; reflexivity.
Qed.

Lemma shown_ids ph T :
  map (fun m => snd (fst m)) (filter (fun m : phase * N * N => phase_eqb (fst (fst m)) ph) (shown sel T))
  = map g_id (filter (has_fn sel ph) (map snd (filter (in_ph ph) T))).
Proof.
  induction T as [|[p m] r IH]; [reflexivity|]. unfold shown in *. cbn [flat_map fst snd filter].
  rewrite filter_app, map_app, IH. clear IH. unfold has_fn.
  destruct p, ph; cbn [phase_eqb map filter fst snd app]; destruct (sel (g_kind m) _); reflexivity.
Qed.

Section NoBreak.
Hypothesis no_break : forall id ph, pol id ph <> Break.

Lemma ph_order ph t :
  map e_id (filter (fun e => phase_eqb (e_phase e) ph) (walk_events keys_of sel pol t))
  = map g_id (filter (has_fn sel ph) (map snd (filter (in_ph ph) (tour keys_of sk t)))).
Proof.
  rewrite ids_marks. unfold walk_events, walk_root.
  rewrite (walk_is_tour keys_of sel pol no_break t w_root None). apply shown_ids.
Qed.
Theorem enter_order t :
  enter_ids (walk_events keys_of sel pol t) = map g_id (filter (has_fn sel PEnter) (enters keys_of sk t)).
Proof. exact (ph_order PEnter t). Qed.
Theorem leave_order t :
  leave_ids (walk_events keys_of sel pol t) = map g_id (filter (has_fn sel PLeave) (leaves keys_of sk t)).
Proof.
  unfold leave_ids, leaves. rewrite (ph_order PLeave t). do 3 f_equal. apply filter_ext. intros [[|] m]; reflexivity.
Qed.
End NoBreak.

Lemma nodup_count (l : list N) :
  NoDup l -> forall x, count_occ N.eq_dec l x = 1 <-> In x l.
Proof.
  intros Hn x. split; intros H.
  - apply (count_occ_In N.eq_dec). rewrite H. apply Nat.lt_0_1.
  - apply NoDup_count_occ'; assumption.
Qed.

Lemma nodup_enters (f : gnode -> bool) t :
  NoDup (map g_id (preorder keys_of t)) -> NoDup (map g_id (filter f (enters keys_of sk t))).
Proof.
  intros Hn. eapply Sub_NoDup; [|exact Hn]. apply Sub_map. apply Sub_filter_l. apply enters_sub_preorder.
Qed.
Lemma nodup_leaves t :
  NoDup (map g_id (preorder keys_of t)) ->
  NoDup (map g_id (filter (has_fn sel PLeave) (leaves keys_of sk t))).
Proof.
  intros Hn. eapply Sub_NoDup; [apply Sub_map, Sub_filter_l, Sub_refl|].
  eapply Permutation_NoDup; [|exact (nodup_enters (fun m => negb (sk m)) t Hn)].
  apply Permutation_map, Permutation_sym, leaves_perm.
Qed.
End Counting.

Section Prefix.
Variable keys_of : N -> list N.
Variable sel : N -> phase -> option N.
Variable pol : N -> phase -> action.
Notation W := (walk keys_of sel pol).
Notation W' := (walk keys_of sel (unbreak pol)).

Lemma unbreak_no_break : forall id ph, unbreak pol id ph <> Break.
Proof. intros id ph. unfold unbreak. destruct (pol id ph); discriminate. Qed.

Lemma act_unbreak n ph :
  act sel (unbreak pol) n ph = match act sel pol n ph with Break => Continue | a => a end.
Proof. unfold act, unbreak. destruct (sel (g_kind n) ph); [destruct (pol (g_id n) ph)|]; reflexivity. Qed.

Definition pre_ok (p p' : tr) : Prop :=
  snd p' = false /\ (exists rest, fst p' = fst p ++ rest) /\ (snd p = false -> p' = p).

Lemma pre_refl p : snd p = false -> pre_ok p p.
Proof. intros H. split; [exact H|]. split; [exists []; rewrite app_nil_r; reflexivity | reflexivity]. Qed.

Lemma pre_seq p q p' q' : pre_ok p p' -> pre_ok q q' -> pre_ok (seq p q) (seq p' q').
Proof.
  intros (Hp1 & (rp & Hp2) & Hp3) (Hq1 & (rq & Hq2) & Hq3).
  destruct p as [ep bp], p' as [ep' bp'], q as [eq1 bq], q' as [eq' bq']. cbn [fst snd] in *. subst bp' bq'.
  destruct bp; cbn [seq fst snd].
  - split; [reflexivity|]. split; [|discriminate]. exists (rp ++ eq'). rewrite Hp2, app_assoc. reflexivity.
  - specialize (Hp3 eq_refl). inversion Hp3; subst ep'. split; [reflexivity|]. split.
    + exists rq. rewrite Hq2, app_assoc. reflexivity.
    + intros Hb. specialize (Hq3 Hb). inversion Hq3; subst. reflexivity.
Qed.

Theorem walk_prefix : forall n c key, pre_ok (W c key n) (W' c key n).
Proof.
  induction n as [id kind slots IH] using gnode_child_ind. intros c key.
  assert (HK : forall cin ks, pre_ok (wkeys keys_of sel pol cin slots ks) (wkeys keys_of sel (unbreak pol) cin slots ks)).
  { intros cin ks. rewrite !wkeys_kids. apply (folds_rel pre_ok); [apply pre_refl; reflexivity | apply pre_seq|].
    intros x Hx. apply IH, (kids_child _ _ _ _ Hx). }
  assert (HL : pre_ok (leave_tr sel pol c key (GNode id kind slots)) (leave_tr sel (unbreak pol) c key (GNode id kind slots))).
  { unfold leave_tr. rewrite act_unbreak.
    destruct (act sel pol (GNode id kind slots) PLeave); try (apply pre_refl; reflexivity).
    split; [reflexivity|]. split; [exists []; rewrite app_nil_r; reflexivity | discriminate]. }
  rewrite (walk_unfold keys_of sel pol).
  destruct (act sel pol (GNode id kind slots) PEnter) eqn:Ea; [rewrite walk_unfold, act_unbreak, Ea ..|].
  - apply pre_seq; [apply pre_refl; reflexivity|]. apply pre_seq; [apply HK | exact HL].
  - apply pre_refl; reflexivity.
  - rewrite (walk_no_break _ _ _ unbreak_no_break). split; [reflexivity|].
    split; [eexists; reflexivity | discriminate].
Qed.

Theorem events_prefix t :
  exists rest, walk_events keys_of sel (unbreak pol) t = walk_events keys_of sel pol t ++ rest.
Proof. unfold walk_events, walk_root. exact (proj1 (proj2 (walk_prefix t w_root None))). Qed.

Lemma count_prefix (p : event -> bool) a rest x :
  count_occ N.eq_dec (map e_id (filter p a)) x <= count_occ N.eq_dec (map e_id (filter p (a ++ rest))) x.
Proof. rewrite filter_app, map_app, count_occ_app. apply Nat.le_add_r. Qed.

Theorem at_most_once t :
  NoDup (map g_id (preorder keys_of t)) ->
  forall x, count_occ N.eq_dec (enter_ids (walk_events keys_of sel pol t)) x <= 1
            /\ count_occ N.eq_dec (leave_ids (walk_events keys_of sel pol t)) x <= 1.
Proof.
  intros Hn x. destruct (events_prefix t) as [rest Hr].
  pose proof (enter_order keys_of sel (unbreak pol) unbreak_no_break t) as He.
  pose proof (leave_order keys_of sel (unbreak pol) unbreak_no_break t) as Hl.
  pose proof (nodup_enters keys_of sel (unbreak pol) (has_fn sel PEnter) t Hn) as Ne. rewrite <- He in Ne.
  pose proof (nodup_leaves keys_of sel (unbreak pol) t Hn) as Nl. rewrite <- Hl in Nl.
  rewrite Hr in Ne, Nl. split.
  - eapply Nat.le_trans; [apply (count_prefix _ _ rest) | apply (NoDup_count_occ N.eq_dec), Ne].
  - eapply Nat.le_trans; [apply (count_prefix _ _ rest) | apply (NoDup_count_occ N.eq_dec), Nl].
Qed.

Theorem left_iff_visited_not_skipped t m :
  In m (leaves keys_of (skips sel pol) t)
  <-> In m (enters keys_of (skips sel pol) t) /\ skips sel pol m = false.
Proof.
  split.
  - intros H. apply (Permutation_in _ (leaves_perm keys_of (skips sel pol) t)) in H.
    apply filter_In in H. destruct H as [H1 H2]. split; [exact H1 | apply negb_true_iff; exact H2].
  - intros [H1 H2]. apply (Permutation_in _ (Permutation_sym (leaves_perm keys_of (skips sel pol) t))).
    apply filter_In. split; [exact H1 | apply negb_true_iff; exact H2].
Qed.

Theorem exactly_once t :
  (forall id ph, pol id ph <> Break) ->
  NoDup (map g_id (preorder keys_of t)) ->
  forall x,
    (count_occ N.eq_dec (enter_ids (walk_events keys_of sel pol t)) x = 1
     <-> In x (map g_id (filter (has_fn sel PEnter) (enters keys_of (skips sel pol) t))))
    /\ (count_occ N.eq_dec (leave_ids (walk_events keys_of sel pol t)) x = 1
        <-> In x (map g_id (filter (has_fn sel PLeave) (leaves keys_of (skips sel pol) t))))
    /\ (~ In x (map g_id (enters keys_of (skips sel pol) t)) ->
        count_occ N.eq_dec (enter_ids (walk_events keys_of sel pol t)) x = 0
        /\ count_occ N.eq_dec (leave_ids (walk_events keys_of sel pol t)) x = 0).
Proof.
  intros Hnb Hn x.
  rewrite (enter_order keys_of sel pol Hnb t), (leave_order keys_of sel pol Hnb t).
  pose proof (nodup_count _ (nodup_enters keys_of sel pol (has_fn sel PEnter) t Hn) x) as He.
  pose proof (nodup_count _ (nodup_leaves keys_of sel pol t Hn) x) as Hl.
  split; [exact He|]. split; [exact Hl|]. intros Hni. split; apply count_occ_not_In; intros Hi; apply Hni.
  - apply in_map_iff in Hi. destruct Hi as (m & <- & Hm). apply filter_In in Hm. apply in_map. apply Hm.
  - apply in_map_iff in Hi. destruct Hi as (m & <- & Hm). apply filter_In in Hm. apply in_map.
    apply left_iff_visited_not_skipped, Hm.
Qed.

End Prefix.

(* C05: the specification of literals that mention variables at any depth (CoerceSpec.SLv) is
   inhabited, and the model computes what it says (theorems: Proofs/CoerceProofs.v, Proofs/ArgProofs.v). *)
From Coq Require Import List ZArith String.
From GQL Require Import Exec.Syntax Exec.Coerce Exec.CoerceSpec.
Import ListNotations.
Open Scope string_scope.
Open Scope list_scope.

(* not vacuous: a list literal holding a variable and an input-object literal holding a variable *)
Definition Sv : schema := {|
  s_types := [("Int", TScalar SInt); ("String", TScalar SString);
              ("In", TInputObject [{| a_name := "n"; a_type := TNonNull (TNamed "Int"); a_default := None |};
                                   {| a_name := "s"; a_type := TNamed "String"; a_default := Some (JStr "dflt") |}])];
  s_query := "Q"; s_mutation := None |}.
Definition defs_v : list argdef :=
  [{| a_name := "l"; a_type := TList (TNamed "Int"); a_default := None |};
   {| a_name := "o"; a_type := TNamed "In"; a_default := None |}].
Definition args_v : list (name * value) :=
  [("l", VList [VInt 1; VVar "x"]); ("o", VObj [("n", VVar "x"); ("s", VVar "missing")])].

Example SLvF_nonvacuous :
  SLvF Sv [("x", JInt 7)] defs_v args_v
       [("l", JList [JInt 1; JInt 7]); ("o", JObj [("n", JInt 7); ("s", JStr "dflt")])] /\
  get_argument_values 10 Sv defs_v args_v (Some [("x", JInt 7)])
  = Some [("l", JList [JInt 1; JInt 7]); ("o", JObj [("n", JInt 7); ("s", JStr "dflt")])].
Proof.
  split; [|vm_compute; reflexivity].
  apply (SLvF_cons Sv [("x", JInt 7)] {| a_name := "l"; a_type := TList (TNamed "Int"); a_default := None |} _ args_v (JList [JInt 1; JInt 7])).
  - cbn. apply SLv_list. constructor.
    + eapply SLv_scalar; [reflexivity|]. apply sl_int. reflexivity.
    + constructor; [|constructor]. apply (SLv_var Sv [("x", JInt 7)] (TNamed "Int") "x").
  - apply (SLvF_cons Sv [("x", JInt 7)] {| a_name := "o"; a_type := TNamed "In"; a_default := None |} _ args_v
                     (JObj (keep_nonnull [("n", JInt 7); ("s", JStr "dflt")]))); [|constructor].
    cbn. change (JObj [("n", JInt 7); ("s", JStr "dflt")]) with (JObj (keep_nonnull [("n", JInt 7); ("s", JStr "dflt")])).
    eapply SLv_obj; [reflexivity|reflexivity|].
    apply (SLvF_cons Sv [("x", JInt 7)] {| a_name := "n"; a_type := TNonNull (TNamed "Int"); a_default := None |} _ _ (JInt 7)).
    + cbn. apply (SLv_var Sv [("x", JInt 7)] (TNonNull (TNamed "Int")) "x").
    + apply (SLvF_cons Sv [("x", JInt 7)] {| a_name := "s"; a_type := TNamed "String"; a_default := Some (JStr "dflt") |} _ _ JNull); [|constructor].
      cbn. apply (SLv_var Sv [("x", JInt 7)] (TNamed "String") "missing").
Qed.

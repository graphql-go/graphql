(* Completeness of the parser model for type-system definitions, and for whole documents. *)
From Coq Require Import String List NArith Bool Lia.
From GQL Require Import Base.Bytes Syntax.Lexer Syntax.Ast Syntax.Parser Syntax.Grammar Proofs.SyntaxSound Proofs.SyntaxComplete.
Import ListNotations.
Open Scope N_scope.

Lemma named_complete : forall n, Complete parse_named DNamed n [].
Proof. intros n p a pe rest [t K] _ _. apply parse_named_yes. exact K. Qed.
Lemma name_complete : forall n, Complete parse_name DName n [].
Proof. intros n p a pe rest [t K] _ _. apply parse_name_yes. exact K. Qed.

Lemma descr_complete : forall pdsc dsc n r pe, DDescr pdsc dsc -> tk n = NAME ->
  parse_description (pe, pdsc ++ n :: r) = Ok (dsc, (endof pe pdsc, n :: r)).
Proof.
  intros pdsc dsc n r pe D K. unfold parse_description, peek_description, peek.
  destruct D as [|t [Kt|Kt]]; cbn [app snd]; rewrite ?K, ?Kt; reflexivity.
Qed.

Lemma descr_starts : forall pdsc dsc, DDescr pdsc dsc -> starts [STRING; BLOCK_STRING] pdsc.
Proof.
  intros pdsc dsc D. destruct D as [|t K]; [left; reflexivity|]. right.
  destruct K as [K|K]; [exists STRING|exists BLOCK_STRING]; (split; [simpl; rewrite K; reflexivity|simpl; auto]).
Qed.

Lemma cur_start_descr : forall pdsc dsc n r pe, DDescr pdsc dsc -> cur_start (pe, pdsc ++ n :: r) = start_of (pdsc ++ [n]).
Proof. intros pdsc dsc n r pe D. destruct D; reflexivity. Qed.

Definition iv_follow : list tkind := [BANG; EQUALS; AT; PAREN_L].

Lemma default_starts : forall pv dv, DOpt DDefault pv dv -> starts [EQUALS] pv.
Proof.
  intros pv dv D. destruct D as [|pv v Dd]; [left; reflexivity|]. destruct Dd as [e pv v Ke _]. right. exists EQUALS.
  split; [simpl; rewrite Ke; reflexivity|left; reflexivity].
Qed.
#[export] Hint Resolve default_starts descr_starts : nk.

Lemma not_in2 : forall (a b c : tkind), a <> b -> a <> c -> ~ In a [b; c].
Proof. intros a b c H1 H2 [E|[E|[]]]; congruence. Qed.

Lemma parse_ivdef_complete : forall fuel, Complete (parse_ivdef fuel) DIVDef fuel iv_follow.
Proof.
  intros fuel p v pe rest [pdsc dsc n c pt t pv dv pd dirs Ddsc Kn Kc Dt Dv Dd] Hl F. lens Hl.
  unfold parse_ivdef. norm. call descr_complete. call parse_name_yes. call expect_yes. call parse_type_complete.
  destruct Dv as [|pv' v' [e pv0 v0 Ke Dv0]]; cbn [app]; lens Hl;
    [call skip_nk|call skip_yes; call parse_value_complete]; call parse_directives_complete; destruct Ddsc; eo.
Qed.

Lemma parse_argdefs_complete : forall fuel, Complete (parse_argdefs fuel) DArgDefs (S fuel) [PAREN_L].
Proof. intro fuel. apply (opt_delim_complete ivdef_first (parse_ivdef_complete fuel)); sets. Qed.

Lemma ivdefs_complete : forall fuel,
  Complete (reverse fuel BRACE_L (parse_ivdef fuel) BRACE_R false) (DDelim DIVDef BRACE_L BRACE_R false) (S fuel) [].
Proof. intro fuel. apply (reverse_complete ivdef_first (parse_ivdef_complete fuel)); [sets|sets|apply le_n]. Qed.

Definition fd_follow : list tkind := [BANG; AT; PAREN_L].

Lemma parse_fielddef_complete : forall fuel, Complete (parse_fielddef fuel) DFieldDef fuel fd_follow.
Proof.
  intros fuel p v pe rest [pdsc dsc n pa args c pt t pd dirs Ddsc Kn Da Kc Dt Dd] Hl F. lens Hl.
  unfold parse_fielddef. norm. call descr_complete. call parse_name_yes. call parse_argdefs_complete. call expect_yes.
  call parse_type_complete. call parse_directives_complete. destruct Ddsc; eo.
Qed.

Lemma fielddefs_complete : forall fuel,
  Complete (reverse fuel BRACE_L (parse_fielddef fuel) BRACE_R false) (DDelim DFieldDef BRACE_L BRACE_R false) (S fuel) [].
Proof. intro fuel. apply (reverse_complete fielddef_first (parse_fielddef_complete fuel)); [sets|sets|apply le_n]. Qed.

Definition ev_follow : list tkind := [AT; PAREN_L].

Lemma parse_enumvaldef_complete : forall fuel, Complete (parse_enumvaldef fuel) DEnumValDef fuel ev_follow.
Proof.
  intros fuel p v pe rest [pdsc dsc n pd dirs Ddsc Kn Dd] Hl F. lens Hl.
  unfold parse_enumvaldef. norm. call descr_complete. call parse_name_yes. call parse_directives_complete. destruct Ddsc; eo.
Qed.

Lemma enumvaldefs_complete : forall fuel,
  Complete (reverse fuel BRACE_L (parse_enumvaldef fuel) BRACE_R false) (DDelim DEnumValDef BRACE_L BRACE_R false) (S fuel) [].
Proof. intro fuel. apply (reverse_complete enumvaldef_first (parse_enumvaldef_complete fuel)); [sets|sets|apply le_n]. Qed.

Lemma parse_optypedef_complete : forall n, Complete parse_optypedef DOpTypeDef n [].
Proof.
  intros n p v pe rest [k op c t Kk Ho Kc Kt] _ _. unfold parse_optypedef. norm.
  call parse_optype_yes. call expect_yes. call parse_named_yes. reflexivity.
Qed.

Lemma optypedefs_complete : forall fuel,
  Complete (reverse fuel BRACE_L parse_optypedef BRACE_R true) (DDelim DOpTypeDef BRACE_L BRACE_R true) (S fuel) [].
Proof. intro fuel. apply (reverse_complete optypedef_first (parse_optypedef_complete fuel)); [sets|sets|apply le_n]. Qed.

Lemma implements_starts : forall p l, DImplements p l -> starts [NAME] p.
Proof. intros p l D. destruct D as [|i pa p l Ki _ _ _]; [left; reflexivity|]. right. exists NAME. split; [simpl; rewrite Ki; reflexivity|left; reflexivity]. Qed.
#[export] Hint Resolve implements_starts : nk.

Lemma parse_implements_complete : forall fuel, Complete (parse_implements fuel) DImplements fuel [NAME; AMP].
Proof.
  intros fuel p l pe rest [|i pa p0 l0 Ki Vi Hpa Ds] Hl F; unfold parse_implements; norm.
  - test cur_is_kw_nk. reflexivity.
  - test cur_is_kw_yes. unfold advance. cbn [snd]. cbv beta iota. lens Hl.
    destruct Hpa as [->|(a & -> & Ka)]; cbn [app]; lens Hl.
    + assert (Fp : first_in [NAME] p0) by (destruct Ds as [q b [t Kt]|q b s ps l1 [t Kt] _ _]; eexists; eexists; (split; [reflexivity|left; auto])).
      call skip_nk. apply (sep_by_complete AMP fuel (named_complete fuel) named_first _ _ (tend i) rest Ds); [lia|sc].
    + call skip_yes. apply (sep_by_complete AMP fuel (named_complete fuel) named_first _ _ (tend a) rest Ds); [lia|sc].
Qed.

Lemma parse_objdef_complete : forall fuel, Complete (parse_objdef fuel) DObjDef fuel [].
Proof.
  intros fuel p o pe rest [pdsc dsc k n pi ifs pd dirs pf fs Ddsc Kk Vk Kn Di Dd Df] Hl _. lens Hl.
  unfold parse_objdef. norm. call descr_complete. call expect_kw_yes. call parse_name_yes.
  call parse_implements_complete. call parse_directives_complete. call fielddefs_complete. destruct Ddsc; eo.
Qed.

(* parse_definition chooses by the keyword, which may stand after a description *)
Definition ts_chain (fuel : nat) (v : bytes) (st : pst) : res (definition * pst) :=
  if bytes_eqb v (kw "fragment") then parse_fragment_definition fuel st
  else if bytes_eqb v (kw "query") || bytes_eqb v (kw "mutation") || bytes_eqb v (kw "subscription")
       then parse_operation fuel st
  else if bytes_eqb v (kw "schema") then parse_schema_definition fuel st
  else if bytes_eqb v (kw "scalar") then parse_scalar_definition fuel st
  else if bytes_eqb v (kw "type") then ' (o, st1) <- parse_objdef fuel st ;; Ok (DObject o, st1)
  else if bytes_eqb v (kw "interface") then parse_interface_definition fuel st
  else if bytes_eqb v (kw "union") then parse_union_definition fuel st
  else if bytes_eqb v (kw "enum") then parse_enum_definition fuel st
  else if bytes_eqb v (kw "input") then parse_input_definition fuel st
  else if bytes_eqb v (kw "extend") then parse_extend_definition fuel st
  else if bytes_eqb v (kw "directive") then parse_directive_definition fuel st
  else Err.

Lemma dispatch : forall fuel pe pdsc dsc k r, DDescr pdsc dsc -> tk k = NAME ->
  parse_definition fuel (pe, pdsc ++ k :: r) = ts_chain fuel (tval k) (pe, pdsc ++ k :: r).
Proof.
  intros fuel pe pdsc dsc [kk ks ke kv] r D K. cbn [tk] in K. subst kk.
  destruct D as [|[tt ts te tv] Kt]; [reflexivity|]. cbn [tk] in Kt. destruct Kt as [Kt|Kt]; subst tt; reflexivity.
Qed.

Definition def_follow : list tkind := [AT; PAREN_L; PIPE].

Lemma parse_braced_complete : forall A w (item : pst -> res (A * pst)) (I : list token -> A -> Prop) mk fuel,
  Complete (reverse fuel BRACE_L item BRACE_R false) (DDelim I BRACE_L BRACE_R false) (S fuel) [] ->
  forall pdsc dsc k n pd dirs pf fs pe rest, DDescr pdsc dsc -> tk k = NAME -> tval k = w -> tk n = NAME -> DDirecs pd dirs ->
  DDelim I BRACE_L BRACE_R false pf fs -> (length pdsc + S (S (length pd + length pf)) < fuel)%nat ->
  parse_braced w item mk fuel (pe, pdsc ++ k :: n :: pd ++ pf ++ rest)
  = Ok (mk dsc (tok_name n) dirs fs (span (pdsc ++ k :: n :: pd ++ pf)), (endof pe (pdsc ++ k :: n :: pd ++ pf), rest)).
Proof.
  intros A w item I mk fuel Hi pdsc dsc k n pd dirs pf fs pe rest Ddsc Kk Vk Kn Dd Df Hl.
  unfold parse_braced. norm. call descr_complete. call expect_kw_yes. call parse_name_yes.
  call parse_directives_complete. call Hi. destruct Ddsc; eo.
Qed.
Arguments parse_braced_complete {A w item I mk fuel}.

Lemma parse_definition_complete : forall fuel, Complete (parse_definition fuel) DDefinition fuel def_follow.
Proof.
  intros fuel p d pe rest D Hl F. destruct D as [p o Do|p f Df|p d Dt].
  - rewrite <- (parse_operation_complete fuel p o Do Hl pe rest).
    destruct Do as [p ss Ds|k op pn nm pv vds pd dirs ps ss Kk Ho _ _ _ _].
    + unfold parse_definition. test peek_first. reflexivity.
    + cbn [app]. rewrite (dispatch fuel pe [] None k _ DDescr_none Kk : parse_definition fuel (pe, k :: _) = _).
      unfold ts_chain. destruct (optype_of_query _ _ Ho) as [-> ->]. reflexivity.
  - rewrite <- (parse_fragment_definition_complete fuel p f Df Hl pe rest).
    destruct Df as [fk pn n o t pd dirs ps ss Kf Vf _ _ _ _ _ _].
    cbn [app]. rewrite (dispatch fuel pe [] None fk _ DDescr_none Kf : parse_definition fuel (pe, fk :: _) = _), Vf. reflexivity.
  - destruct Dt as [k pd dirs po ots Kk Vk Dd Do
                   |pdsc dsc k n pd dirs Ddsc Kk Vk Kn Dd
                   |p o Do
                   |pdsc dsc k n pd dirs pf fs Ddsc Kk Vk Kn Dd Df
                   |pdsc dsc k n pd dirs e pm ms Ddsc Kk Vk Kn Dd Ke Dm
                   |pdsc dsc k n pd dirs pv vs Ddsc Kk Vk Kn Dd Dv
                   |pdsc dsc k n pd dirs pf fs Ddsc Kk Vk Kn Dd Df
                   |k p o Kk Vk Do
                   |pdsc dsc k a n pa args o pl locs Ddsc Kk Vk Ka Kn Da Ko Vo Dl]; lens Hl; norm.
    + rewrite (dispatch fuel pe [] None k _ DDescr_none Kk : parse_definition fuel (pe, k :: _) = _), Vk.
      change (ts_chain fuel (kw "schema")) with (parse_schema_definition fuel). unfold parse_schema_definition. norm.
      call expect_kw_yes. call parse_directives_complete. call optypedefs_complete. eo.
    + rewrite (dispatch fuel pe pdsc dsc k _ Ddsc Kk), Vk.
      change (ts_chain fuel (kw "scalar")) with (parse_scalar_definition fuel). unfold parse_scalar_definition. norm.
      call descr_complete. call expect_kw_yes. call parse_name_yes. call parse_directives_complete. destruct Ddsc; eo.
    + assert (H : exists pdsc dsc k r, p = pdsc ++ k :: r /\ DDescr pdsc dsc /\ tk k = NAME /\ tval k = kw "type")
        by (destruct Do as [pdsc dsc k n pi ifs pd dirs pf fs Ddsc Kk Vk _ _ _ _]; eauto 8).
      destruct H as (pdsc & dsc & k & r & E & Ddsc & Kk & Vk). rewrite E, <- app_assoc. cbn [app].
      rewrite (dispatch fuel pe pdsc dsc k _ Ddsc Kk), Vk.
      change (ts_chain fuel (kw "type") ?st) with (' (o, st1) <- parse_objdef fuel st ;; Ok (DObject o, st1)).
      change (k :: r ++ rest) with ((k :: r) ++ rest). rewrite app_assoc, <- E. call parse_objdef_complete. reflexivity.
    + rewrite (dispatch fuel pe pdsc dsc k _ Ddsc Kk), Vk.
      change (ts_chain fuel (kw "interface")) with (parse_braced (kw "interface") (parse_fielddef fuel) DInterface fuel).
      apply (parse_braced_complete (fielddefs_complete fuel)); assumption.
    + rewrite (dispatch fuel pe pdsc dsc k _ Ddsc Kk), Vk.
      change (ts_chain fuel (kw "union")) with (parse_union_definition fuel). unfold parse_union_definition. norm.
      call descr_complete. call expect_kw_yes. call parse_name_yes. call parse_directives_complete. call expect_yes.
      call (sep_by_complete PIPE fuel (named_complete fuel) named_first). destruct Ddsc; eo.
    + rewrite (dispatch fuel pe pdsc dsc k _ Ddsc Kk), Vk.
      change (ts_chain fuel (kw "enum")) with (parse_braced (kw "enum") (parse_enumvaldef fuel) DEnum fuel).
      apply (parse_braced_complete (enumvaldefs_complete fuel)); assumption.
    + rewrite (dispatch fuel pe pdsc dsc k _ Ddsc Kk), Vk.
      change (ts_chain fuel (kw "input")) with (parse_braced (kw "input") (parse_ivdef fuel) DInput fuel).
      apply (parse_braced_complete (ivdefs_complete fuel)); assumption.
    + rewrite (dispatch fuel pe [] None k _ DDescr_none Kk : parse_definition fuel (pe, k :: _) = _), Vk.
      change (ts_chain fuel (kw "extend")) with (parse_extend_definition fuel). unfold parse_extend_definition. norm.
      call expect_kw_yes. call parse_objdef_complete. eo.
    + rewrite (dispatch fuel pe pdsc dsc k _ Ddsc Kk), Vk.
      change (ts_chain fuel (kw "directive")) with (parse_directive_definition fuel). unfold parse_directive_definition. norm.
      call descr_complete. call expect_kw_yes. call expect_yes. call parse_name_yes. call parse_argdefs_complete.
      call expect_kw_yes. call (sep_by_complete PIPE fuel (name_complete fuel) name_first). destruct Ddsc; eo.
Qed.

Theorem parse_tokens_complete : forall ts d, Derives ts d -> parse_tokens ts = Ok d.
Proof.
  intros ts d [p defs e Ds Hne Ke]. unfold parse_tokens, parse_document. rewrite app_length. cbn [length].
  change (p ++ [e]) with (p ++ e :: []) at 1.
  rewrite (many_complete definition_first (parse_definition_complete _) EOF
             ltac:(sets) ltac:(sets) p defs Ds _ e [] 0 Ke) by lia.
  cbv beta iota. destruct defs as [|d0 defs']; [contradiction Hne; reflexivity|]. cbn [is_nil snd].
  f_equal. f_equal. unfold mkl, span, cur_start, endof. cbn [fst snd]. rewrite !fold_left_app. cbn [fold_left].
  destruct p; reflexivity.
Qed.

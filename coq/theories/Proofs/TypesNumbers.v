(* C10: number lexemes.  What fmt prints for a Go int (dec_Z) or a float64 (fmt_g) is one INT or
   FLOAT token of the lexer, and reading the lexeme back as an exact decimal gives the number. *)
From Coq Require Import List NArith ZArith Bool Lia DecimalN DecimalFacts.
From GQL Require Import Base.Bytes Syntax.Lexer Types.Literal Proofs.SyntaxRender.
Import ListNotations.
Open Scope N_scope.

Lemma uint_bytes_inv : forall u, uint_of_bytes (bytes_of_uint u) = u.
Proof. induction u; simpl; try rewrite IHu; reflexivity. Qed.

Lemma N_of_dec_N : forall n, N_of_dec (dec_N n) = n.
Proof. intro n. unfold N_of_dec, dec_N. rewrite uint_bytes_inv. apply Unsigned.of_to. Qed.

Lemma digits_of_uint : forall u, forallb is_digit (bytes_of_uint u) = true.
Proof. induction u; simpl; try rewrite IHu; reflexivity. Qed.

Lemma dec_N_digits : forall n, forallb is_digit (dec_N n) = true.
Proof. intro n. apply digits_of_uint. Qed.

Definition int_shape (b : bytes) : Prop :=
  b = [48] \/ exists c r, b = c :: r /\ is_digit c = true /\ c <> 48 /\ forallb is_digit r = true.

(* N.to_uint gives a normalised numeral: "0", or no leading zero *)
Lemma dec_N_shape : forall n, int_shape (dec_N n).
Proof.
  intro n. unfold dec_N.
  assert (E : N.to_uint n = Decimal.unorm (N.to_uint n)) by (rewrite <- Unsigned.to_of, Unsigned.of_to; reflexivity).
  rewrite E. unfold Decimal.unorm.
  destruct (Decimal.nzhead (N.to_uint n)) eqn:H; [left; reflexivity|contradiction (nzhead_nonzero _ _ H)|..];
    right; do 2 eexists; (split; [reflexivity|split; [reflexivity|split; [discriminate|apply digits_of_uint]]]).
Qed.

Lemma int_shape_head : forall b, int_shape b -> exists c r, b = c :: r /\ is_digit c = true /\ forallb is_digit r = true.
Proof.
  intros b [->|(c & r & -> & Hc & _ & Hr)].
  - exists 48, []. repeat split.
  - exists c, r. repeat split; assumption.
Qed.

Lemma is_digit_range : forall c, is_digit c = true -> 48 <= c <= 57.
Proof. intros c H. unfold is_digit in H. apply andb_true_iff in H. destruct H as [H1 H2]. apply N.leb_le in H1, H2. lia. Qed.

Lemma is_digit_not : forall c, is_digit c = true -> (c =? 45) = false /\ (c =? 43) = false /\ (c =? 46) = false /\ (c =? 101) = false /\ (c =? 69) = false.
Proof. intros c H. apply is_digit_range in H. repeat split; apply N.eqb_neq; lia. Qed.

Lemma N_of_dec_D0 : forall b, N_of_dec (48 :: b) = N_of_dec b.
Proof.
  intro b. unfold N_of_dec. cbn [uint_of_bytes].
  rewrite <- (Unsigned.of_uint_norm (Decimal.D0 _)), unorm_D0, Unsigned.of_uint_norm. reflexivity.
Qed.

Lemma Z_of_dec_unsigned : forall b, int_shape b -> Z_of_dec b = Z.of_N (N_of_dec b).
Proof.
  intros b H. destruct (int_shape_head b H) as (c & r & -> & Hc & _).
  destruct (is_digit_not c Hc) as (H45 & H43 & _). unfold Z_of_dec.
  apply N.eqb_neq in H45, H43.
  destruct c as [|p]; [reflexivity|].
  repeat (destruct p as [p|p|]; try reflexivity; try (exfalso; apply H45; reflexivity); try (exfalso; apply H43; reflexivity)).
Qed.

Lemma Z_of_dec_Z : forall z, Z_of_dec (dec_Z z) = z.
Proof.
  intros [|p|p]; unfold dec_Z.
  - reflexivity.
  - rewrite (Z_of_dec_unsigned _ (dec_N_shape _)), N_of_dec_N. reflexivity.
  - cbn [Z_of_dec]. rewrite N_of_dec_N. reflexivity.
Qed.

Definition frac_shape (fp : bytes) : Prop :=
  fp = [] \/ exists ds, fp = 46 :: ds /\ ds <> [] /\ forallb is_digit ds = true.
(* no exponent, or 'e', a sign and digits, as fmt_exp prints it *)
Definition exp_shape (ep : bytes) : Prop :=
  ep = [] \/ exists (neg : bool) ds, ep = 101 :: (if neg then 45 else 43) :: ds /\ ds <> [] /\ forallb is_digit ds = true.

Definition nonnil {A} (l : list A) : bool := match l with [] => false | _ => true end.

Definition stops (rest : bytes) : Prop := match rest with [] => True | b :: _ => is_digit b = false end.

Lemma span_digits : forall (a rest : bytes), forallb is_digit a = true -> stops rest -> span is_digit (a ++ rest) = (a, rest).
Proof.
  intros a rest Ha Hr. apply span_app_stop; [exact Ha|].
  destruct rest as [|b r]; [reflexivity|]. simpl in Hr. rewrite Hr. reflexivity.
Qed.

Lemma frac_exp_stops : forall fp ep, frac_shape fp -> exp_shape ep -> stops (fp ++ ep).
Proof.
  intros fp ep [->|(ds & -> & _)] He.
  - destruct He as [->|(sg & ds & -> & _)]; simpl; auto.
  - simpl. reflexivity.
Qed.

Lemma exp_stops : forall ep, exp_shape ep -> stops ep.
Proof. intros ep [->|(neg & ds & -> & _)]; simpl; auto. Qed.

Lemma read_exp_shape : forall ep, exp_shape ep -> read_exp_part ep = Some (ep, nonnil ep, []).
Proof.
  intros ep [->|(neg & ds & -> & Hne & Hd)]; [reflexivity|].
  pose proof (span_digits ds [] Hd I) as Hsp. rewrite List.app_nil_r in Hsp.
  unfold read_exp_part. change ((101 =? 69) || (101 =? 101)) with true. cbv iota.
  replace (((if neg then 45 else 43) =? 43) || ((if neg then 45 else 43) =? 45)) with true by (destruct neg; reflexivity).
  rewrite Hsp. destruct ds; [contradiction Hne; reflexivity|reflexivity].
Qed.

Lemma read_frac_shape : forall fp ep, frac_shape fp -> exp_shape ep ->
  read_frac_part (fp ++ ep) = Some (fp, nonnil fp, ep).
Proof.
  intros fp ep [->|(ds & -> & Hne & Hd)] He.
  - cbn [app]. destruct He as [->|(sg & ds & -> & _)]; reflexivity.
  - cbn [app]. unfold read_frac_part. change (46 =? 46) with true. cbv iota.
    rewrite (span_digits ds ep Hd (exp_stops ep He)).
    destruct ds; [contradiction Hne; reflexivity|reflexivity].
Qed.

Lemma read_int_shape : forall ip rest, int_shape ip -> stops rest -> read_int_part (ip ++ rest) = Some (ip, rest).
Proof.
  intros ip rest [->|(c & r & -> & Hc & Hn & Hr)] Hs.
  - cbn [app]. unfold read_int_part. change (48 =? 48) with true. cbv iota.
    destruct rest as [|d rest']; [reflexivity|]. simpl in Hs. rewrite Hs. reflexivity.
  - cbn [app]. unfold read_int_part. apply N.eqb_neq in Hn. rewrite Hn.
    change (c :: r ++ rest) with ((c :: r) ++ rest).
    rewrite (span_digits (c :: r) rest); [reflexivity| |exact Hs].
    cbn [forallb]. rewrite Hc, Hr. reflexivity.
Qed.

Lemma existsb_app_false : forall (f : N -> bool) a b, existsb f a = false -> existsb f (a ++ b) = existsb f b.
Proof. intros f a b H. rewrite existsb_app, H. reflexivity. Qed.

Lemma floaty_digits : forall a, forallb is_digit a = true -> floaty a = false.
Proof.
  induction a as [|c a IH]; intro H; [reflexivity|]. cbn [forallb] in H. apply andb_true_iff in H. destruct H as [Hc Ha].
  unfold floaty. cbn [existsb]. destruct (is_digit_not c Hc) as (_ & _ & H46 & H101 & H69). rewrite H46, H101, H69.
  cbn [orb]. exact (IH Ha).
Qed.

Lemma int_shape_digits : forall ip, int_shape ip -> forallb is_digit ip = true.
Proof.
  intros ip H. destruct (int_shape_head ip H) as (c & r & -> & Hc & Hr). cbn [forallb]. rewrite Hc, Hr. reflexivity.
Qed.

Definition exp_val (ep : bytes) : Z := match ep with _ :: r => Z_of_dec r | [] => 0%Z end.

Lemma no_sign_digit : forall (lx : bytes) c r, lx = c :: r -> is_digit c = true ->
  match lx with 45 :: r' => (true, r') | _ => (false, lx) end = (false, lx).
Proof.
  intros lx c r -> H. apply is_digit_range in H. destruct c as [|p]; [reflexivity|].
  repeat (destruct p as [p|p|]; try reflexivity); exfalso; lia.
Qed.

(* a lexeme of the three parts: one number token, FLOAT when it has a fraction or an exponent,
   and read back as the decimal its digits and exponent denote *)
Section Parts.
  Variables (neg : bool) (ip fp ep : bytes).
  Hypothesis Hi : int_shape ip.
  Hypothesis Hf : frac_shape fp.
  Hypothesis He : exp_shape ep.

  Theorem read_number_parts :
    read_number (sign_bytes neg ++ ip ++ fp ++ ep) = Some (sign_bytes neg ++ ip ++ fp ++ ep, nonnil fp || nonnil ep, []).
  Proof.
    unfold read_number.
    pose proof (read_int_shape ip (fp ++ ep) Hi (frac_exp_stops fp ep Hf He)) as R1.
    pose proof (read_frac_shape fp ep Hf He) as R2. pose proof (read_exp_shape ep He) as R3.
    destruct neg; cbn [sign_bytes app].
    - change (45 =? 45) with true. cbv iota beta. rewrite R1, R2, R3. reflexivity.
    - destruct (int_shape_head ip Hi) as (c & r & E & Hc & _). subst ip.
      destruct (is_digit_not c Hc) as (H45 & _). cbn [app] in *. rewrite H45. cbv iota beta.
      rewrite R1, R2, R3. reflexivity.
  Qed.

  Lemma floaty_parts : floaty (sign_bytes neg ++ ip ++ fp ++ ep) = nonnil fp || nonnil ep.
  Proof.
    unfold floaty.
    rewrite existsb_app_false by (destruct neg; reflexivity).
    rewrite existsb_app_false by (apply (floaty_digits ip (int_shape_digits ip Hi))).
    destruct Hf as [->|(ds & -> & _)]; [|reflexivity].
    destruct He as [->|(sg & ds & -> & _)]; reflexivity.
  Qed.

  Corollary num_ok_parts : num_lexeme_ok (sign_bytes neg ++ ip ++ fp ++ ep) (nonnil fp || nonnil ep) = true.
  Proof.
    unfold num_lexeme_ok. rewrite read_number_parts.
    rewrite (proj2 (bytes_eqb_eq _ _) eq_refl). rewrite eqb_reflx. reflexivity.
  Qed.

  Theorem float_of_parts : float_of_lexeme (sign_bytes neg ++ ip ++ fp ++ ep)
    = canon_dec neg (digit_vals (ip ++ tl fp)) (Z.of_nat (length ip) + exp_val ep)%Z.
  Proof.
    unfold float_of_lexeme.
    pose proof (span_digits ip (fp ++ ep) (int_shape_digits ip Hi) (frac_exp_stops fp ep Hf He)) as R1.
    assert (R2 : (let '(f, r2) := match fp ++ ep with 46 :: r' => span is_digit r' | _ => ([], fp ++ ep) end in
                  canon_dec neg (digit_vals (ip ++ f)) (Z.of_nat (length ip) + match r2 with _ :: r' => Z_of_dec r' | [] => 0%Z end)%Z)
                 = canon_dec neg (digit_vals (ip ++ tl fp)) (Z.of_nat (length ip) + exp_val ep)%Z).
    { destruct Hf as [->|(ds & -> & Hne & Hd)].
      - cbn [app tl]. destruct He as [->|(neg' & ds & -> & _)]; reflexivity.
      - cbn [app tl]. rewrite (span_digits ds ep Hd (exp_stops ep He)). destruct ep; reflexivity. }
    destruct neg; cbn [sign_bytes app].
    - rewrite R1. exact R2.
    - destruct (int_shape_head ip Hi) as (c & r & E & Hc & _).
      rewrite (no_sign_digit (ip ++ fp ++ ep) c (r ++ fp ++ ep) ltac:(rewrite E; reflexivity) Hc).
      rewrite R1. exact R2.
  Qed.
End Parts.

Lemma dec_Z_parts : forall z, dec_Z z = sign_bytes (z <? 0)%Z ++ dec_N (Z.abs_N z) ++ [] ++ [].
Proof. intros [|p|p]; unfold dec_Z; cbn [sign_bytes Z.ltb Z.compare Z.abs_N app Z.to_N]; rewrite ?List.app_nil_r; reflexivity. Qed.

Lemma dec_Z_int_token : forall z, num_lexeme_ok (dec_Z z) false = true.
Proof.
  intro z. rewrite dec_Z_parts.
  exact (num_ok_parts _ _ [] [] (dec_N_shape _) (or_introl eq_refl) (or_introl eq_refl)).
Qed.

Lemma frac_dot0 : frac_shape [46; 48].
Proof. right. exists [48]. repeat split. discriminate. Qed.

Lemma dec_Z_dot0_parts : forall z, dec_Z z ++ [46; 48] = sign_bytes (z <? 0)%Z ++ dec_N (Z.abs_N z) ++ [46; 48] ++ [].
Proof. intro z. rewrite dec_Z_parts. rewrite !List.app_nil_r. rewrite <- List.app_assoc. reflexivity. Qed.

Lemma dec_Z_dot0_float_token : forall z, num_lexeme_ok (dec_Z z ++ [46; 48]) true = true.
Proof.
  intro z. rewrite dec_Z_dot0_parts.
  exact (num_ok_parts _ _ [46; 48] [] (dec_N_shape _) frac_dot0 (or_introl eq_refl)).
Qed.

Lemma digit_vals_bytes : forall ds, digit_vals (digit_bytes ds) = ds.
Proof.
  induction ds as [|d ds IH]; [reflexivity|]. unfold digit_vals, digit_bytes in *. cbn [map]. rewrite IH. f_equal. lia.
Qed.

Lemma digit_vals_app : forall a b, digit_vals (a ++ b) = digit_vals a ++ digit_vals b.
Proof. intros. unfold digit_vals. apply map_app. Qed.

Lemma digit_vals_zeros : forall n, digit_vals (zeros n) = repeat 0 n.
Proof. induction n as [|n IH]; [reflexivity|]. cbn [zeros repeat]. unfold digit_vals in *. cbn [map]. rewrite IH. reflexivity. Qed.

Lemma digit_byte : forall d, d <= 9 -> is_digit (48 + d) = true.
Proof. intros d H. apply andb_true_iff. split; apply N.leb_le; lia. Qed.

Lemma digit_bytes_digits : forall ds, forallb (fun x => x <=? 9) ds = true -> forallb is_digit (digit_bytes ds) = true.
Proof.
  induction ds as [|d ds IH]; intro H; [reflexivity|]. cbn [forallb] in H. apply andb_true_iff in H. destruct H as [Hd Hs].
  unfold digit_bytes in *. cbn [map forallb]. rewrite (IH Hs), (digit_byte d (proj1 (N.leb_le _ _) Hd)). reflexivity.
Qed.

Lemma zeros_digits : forall n, forallb is_digit (zeros n) = true.
Proof. induction n; [reflexivity|]. cbn [zeros forallb]. rewrite IHn. reflexivity. Qed.

Lemma zeros_length : forall n, length (zeros n) = n.
Proof. induction n; [reflexivity|]. cbn [zeros length]. rewrite IHn. reflexivity. Qed.

Lemma drop_zeros_head : forall d r, d <> 0 -> drop_zeros (d :: r) = d :: r.
Proof. intros d r H. destruct d; [contradiction H; reflexivity|reflexivity]. Qed.

Lemma drop_zeros_repeat : forall n r, drop_zeros (repeat 0 n ++ r) = drop_zeros r.
Proof. induction n as [|n IH]; intro r; [reflexivity|]. cbn [repeat app drop_zeros]. apply IH. Qed.

Lemma rev_repeat : forall (x : N) n, rev (repeat x n) = repeat x n.
Proof.
  induction n as [|n IH]; [reflexivity|]. cbn [repeat rev]. rewrite IH. symmetry. apply repeat_cons.
Qed.

Definition canonical (ds : list N) : Prop := exists d r, ds = d :: r /\ d <> 0 /\ last ds 1 <> 0.

Lemma rev_last_head : forall (ds : list N), ds <> [] -> exists r, rev ds = last ds 1 :: r.
Proof.
  intros ds H. exists (rev (removelast ds)). rewrite (app_removelast_last 1 H) at 1. apply rev_unit.
Qed.

Lemma strip_trailing_canonical : forall ds n, canonical ds -> rev (drop_zeros (rev (ds ++ repeat 0 n))) = ds.
Proof.
  intros ds n (d & r & E & Hd & Hl). rewrite List.rev_app_distr, rev_repeat, drop_zeros_repeat.
  destruct (rev_last_head ds ltac:(rewrite E; discriminate)) as (r' & Hr). rewrite Hr.
  rewrite (drop_zeros_head _ _ Hl). rewrite <- Hr. apply rev_involutive.
Qed.

Lemma canon_dec_canonical : forall neg ds n p, canonical ds -> canon_dec neg (ds ++ repeat 0 n) p = (neg, ds, p).
Proof.
  intros neg ds n p H. unfold canon_dec. pose proof H as (d & r & E & Hd & Hl).
  assert (E1 : drop_zeros (ds ++ repeat 0 n) = ds ++ repeat 0 n) by (rewrite E; cbn [app]; apply drop_zeros_head; exact Hd).
  rewrite E1. rewrite (strip_trailing_canonical ds n H). rewrite Nat.sub_diag. rewrite E.
  cbv iota beta. f_equal. lia.
Qed.

Lemma canon_dec_leading : forall neg ds k p, canonical ds ->
  canon_dec neg (repeat 0 k ++ ds) p = (neg, ds, (p - Z.of_nat k)%Z).
Proof.
  intros neg ds k p H. unfold canon_dec. pose proof H as (d & r & E & Hd & Hl).
  rewrite drop_zeros_repeat. rewrite E at 1 2. rewrite (drop_zeros_head _ _ Hd). rewrite <- E.
  pose proof (strip_trailing_canonical ds 0 H) as S0. cbn [repeat] in S0. rewrite List.app_nil_r in S0. rewrite S0.
  rewrite List.app_length, repeat_length. rewrite E. cbv iota beta. rewrite (drop_zeros_head _ _ Hd). f_equal. cbn [length]. lia.
Qed.

Lemma canon_dec_snoc0 : forall neg ds p, (ds = [0] \/ exists d r, ds = d :: r /\ d <> 0) ->
  canon_dec neg (ds ++ [0]) p = canon_dec neg ds p.
Proof.
  intros neg ds p [->|(d & r & -> & Hd)]; [reflexivity|].
  unfold canon_dec. cbn [app]. rewrite !(drop_zeros_head _ _ Hd).
  change (d :: r ++ [0]) with ((d :: r) ++ [0]). rewrite List.rev_app_distr. cbn [rev app drop_zeros].
  rewrite !Nat.sub_diag. reflexivity.
Qed.

Lemma digit_vals_shape : forall b, int_shape b -> digit_vals b = [0] \/ exists d r, digit_vals b = d :: r /\ d <> 0.
Proof.
  intros b [->|(c & r & -> & Hc & Hn & _)]; [left; reflexivity|].
  right. exists (c - 48), (digit_vals r). split; [reflexivity|]. apply is_digit_range in Hc. lia.
Qed.

Theorem float_of_int_dot0 : forall z, float_of_lexeme (dec_Z z ++ [46; 48]) = float_of_Z z.
Proof.
  intro z. rewrite dec_Z_dot0_parts.
  rewrite (float_of_parts _ _ _ _ (dec_N_shape _) frac_dot0 (or_introl eq_refl)).
  cbn [tl exp_val]. rewrite digit_vals_app. change (digit_vals [48]) with [0].
  rewrite (canon_dec_snoc0 _ _ _ (digit_vals_shape _ (dec_N_shape _))).
  unfold float_of_Z. unfold digit_vals at 3. rewrite map_length. rewrite Z.add_0_r. reflexivity.
Qed.

Definition fdigits_ok (ds : list N) : Prop := canonical ds /\ forallb (fun x => x <=? 9) ds = true.

Lemma Z_of_dec_signed : forall (neg : bool) b, forallb is_digit b = true -> b <> [] ->
  Z_of_dec ((if neg then 45 else 43) :: b) = (if neg then - Z.of_N (N_of_dec b) else Z.of_N (N_of_dec b))%Z.
Proof. intros [|] b _ _; reflexivity. Qed.

Lemma pad2_val : forall ds, N_of_dec (pad2 ds) = N_of_dec ds.
Proof. intros [|c [|c' r]]; cbn [pad2]; rewrite ?N_of_dec_D0; reflexivity. Qed.

Lemma pad2_digits : forall ds, forallb is_digit ds = true -> ds <> [] -> forallb is_digit (pad2 ds) = true /\ pad2 ds <> [].
Proof.
  intros ds H Hne. destruct ds as [|c [|c' r]]; cbn [pad2].
  - contradiction Hne; reflexivity.
  - split; [cbn [forallb] in *; rewrite H; reflexivity|discriminate].
  - split; [exact H|discriminate].
Qed.

Lemma fmt_exp_val : forall e, Z_of_dec (fmt_exp e) = e.
Proof.
  intro e. unfold fmt_exp.
  destruct (e <? 0)%Z eqn:En; cbn [Z_of_dec]; rewrite pad2_val, N_of_dec_N.
  - apply Z.ltb_lt in En. rewrite N2Z.inj_abs_N. lia.
  - apply Z.ltb_ge in En. rewrite N2Z.inj_abs_N. lia.
Qed.

Lemma fmt_exp_shape : forall e, exp_shape (101 :: fmt_exp e).
Proof.
  intro e. right. exists (e <? 0)%Z, (pad2 (dec_N (Z.abs_N e))). split; [reflexivity|].
  destruct (int_shape_head _ (dec_N_shape (Z.abs_N e))) as (c & r & E & _).
  destruct (pad2_digits _ (dec_N_digits (Z.abs_N e)) ltac:(rewrite E; discriminate)) as [H1 H2]. split; assumption.
Qed.

Section Float.
  Variables (neg : bool) (ds : list N) (dp : Z).
  Hypothesis Hds : fdigits_ok ds.

  Lemma fds_cons : exists d r, ds = d :: r /\ d <> 0 /\ d <= 9 /\ forallb (fun x => x <=? 9) r = true.
  Proof.
    destruct Hds as [(d & r & E & Hd & _) Hall]. exists d, r. rewrite E in Hall. cbn [forallb] in Hall.
    apply andb_true_iff in Hall. destruct Hall as [H9 Hr]. apply N.leb_le in H9. repeat split; assumption.
  Qed.

  Lemma head_digit_shape : forall d, d <> 0 -> d <= 9 -> is_digit (48 + d) = true /\ 48 + d <> 48.
  Proof. intros d H0 H9. split; [exact (digit_byte d H9)|lia]. Qed.

  Lemma fmt_e_int_shape : int_shape (fmt_e_int ds).
  Proof.
    destruct fds_cons as (d & r & -> & H0 & H9 & _). right. exists (48 + d), [].
    destruct (head_digit_shape d H0 H9) as [Hd Hn]. repeat split; assumption.
  Qed.

  Lemma fmt_e_frac_shape : frac_shape (fmt_e_frac ds).
  Proof.
    destruct fds_cons as (d & r & -> & _ & _ & Hr). destruct r as [|d' r']; [left; reflexivity|].
    right. exists (digit_bytes (d' :: r')). split; [reflexivity|]. split; [discriminate|apply digit_bytes_digits; exact Hr].
  Qed.

  Lemma fmt_e_digits : digit_vals (fmt_e_int ds ++ tl (fmt_e_frac ds)) = ds.
  Proof.
    destruct fds_cons as (d & r & -> & _ & _ & _). destruct r as [|d' r'].
    - cbn [fmt_e_int fmt_e_frac tl app]. change [48 + d] with (digit_bytes [d]). apply digit_vals_bytes.
    - cbn [fmt_e_int fmt_e_frac tl app]. change (48 + d :: digit_bytes (d' :: r')) with (digit_bytes (d :: d' :: r')).
      apply digit_vals_bytes.
  Qed.

  Lemma canon_self : forall p, canon_dec neg ds p = (neg, ds, p).
  Proof. intro p. pose proof (canon_dec_canonical neg ds 0 p (proj1 Hds)) as H. cbn [repeat] in H. rewrite List.app_nil_r in H. exact H. Qed.

  Lemma fmt_e_read : float_of_lexeme (fmt_e neg ds dp) = (neg, ds, dp).
  Proof.
    unfold fmt_e. rewrite (float_of_parts neg _ _ _ fmt_e_int_shape fmt_e_frac_shape (fmt_exp_shape (dp - 1))).
    rewrite fmt_e_digits. cbn [exp_val]. rewrite fmt_exp_val.
    replace (length (fmt_e_int ds)) with 1%nat by (destruct fds_cons as (d & r & -> & _); reflexivity).
    rewrite canon_self. f_equal. lia.
  Qed.

  Lemma fmt_e_token : num_lexeme_ok (fmt_e neg ds dp) (floaty (fmt_e neg ds dp)) = true.
  Proof.
    unfold fmt_e. rewrite (floaty_parts neg _ _ _ fmt_e_int_shape fmt_e_frac_shape (fmt_exp_shape (dp - 1))).
    apply num_ok_parts; [apply fmt_e_int_shape|apply fmt_e_frac_shape|apply fmt_exp_shape].
  Qed.

  Lemma split_digits : forall n, forallb (fun x => x <=? 9) (firstn n ds) = true /\ forallb (fun x => x <=? 9) (skipn n ds) = true.
  Proof. intro n. apply andb_true_iff. rewrite <- forallb_app, firstn_skipn. exact (proj2 Hds). Qed.

  Lemma fmt_f_int_shape : int_shape (fmt_f_int ds dp).
  Proof.
    unfold fmt_f_int. destruct (0 <? dp)%Z eqn:E; [|left; reflexivity].
    apply Z.ltb_lt in E. destruct fds_cons as (d & r & Eds & H0 & H9 & Hr).
    right. destruct (Z.to_nat dp) as [|k] eqn:Ek; [lia|].
    exists (48 + d), (digit_bytes (firstn k r) ++ zeros (Z.to_nat (dp - Z.of_nat (length ds)))).
    destruct (head_digit_shape d H0 H9) as [Hd Hn].
    split; [rewrite Eds; reflexivity|]. split; [exact Hd|]. split; [exact Hn|].
    rewrite forallb_app, zeros_digits, andb_true_r. apply digit_bytes_digits.
    pose proof (proj1 (split_digits (S k))) as F. rewrite Eds in F. cbn [firstn forallb] in F. apply andb_true_iff in F. tauto.
  Qed.

  Lemma fmt_f_frac_shape : frac_shape (fmt_f_frac ds dp).
  Proof.
    unfold fmt_f_frac. destruct (dp <? Z.of_nat (length ds))%Z eqn:E; [|left; reflexivity].
    apply Z.ltb_lt in E. right. exists (zeros (Z.to_nat (- dp)) ++ digit_bytes (skipn (Z.to_nat dp) ds)).
    split; [reflexivity|]. split.
    - intro H. apply app_eq_nil in H. destruct H as [_ H]. unfold digit_bytes in H. apply map_eq_nil in H.
      apply (f_equal (@length N)) in H. rewrite skipn_length in H.
      destruct fds_cons as (d & r & Eds & _). rewrite Eds in *. cbn [length] in *. lia.
    - rewrite forallb_app, zeros_digits. apply digit_bytes_digits. apply split_digits.
  Qed.

  Lemma fmt_f_read : float_of_lexeme (fmt_f neg ds dp) = (neg, ds, dp).
  Proof.
    unfold fmt_f. rewrite (float_of_parts neg _ _ [] fmt_f_int_shape fmt_f_frac_shape (or_introl eq_refl)).
    cbn [exp_val]. rewrite Z.add_0_r. unfold fmt_f_int, fmt_f_frac.
    set (n := Z.of_nat (length ds)).
    destruct (0 <? dp)%Z eqn:E0.
    - apply Z.ltb_lt in E0. destruct (dp <? n)%Z eqn:E1.
      + apply Z.ltb_lt in E1. cbn [tl].
        replace (Z.to_nat (dp - n)) with 0%nat by lia. replace (Z.to_nat (- dp)) with 0%nat by lia.
        cbn [zeros app]. rewrite List.app_nil_r. rewrite digit_vals_app, !digit_vals_bytes, firstn_skipn.
        rewrite canon_self. f_equal. unfold digit_bytes. rewrite map_length, firstn_length. unfold n in E1. lia.
      + apply Z.ltb_ge in E1. cbn [tl]. rewrite List.app_nil_r.
        rewrite firstn_all2 by (unfold n in E1; lia).
        rewrite digit_vals_app, digit_vals_bytes, digit_vals_zeros.
        rewrite (canon_dec_canonical neg ds _ _ (proj1 Hds)). f_equal.
        rewrite List.app_length. unfold digit_bytes. rewrite map_length.
        rewrite zeros_length. unfold n in *. lia.
    - apply Z.ltb_ge in E0. assert (E1 : (dp <? n)%Z = true).
      { apply Z.ltb_lt. unfold n. destruct fds_cons as (d & r & -> & _). cbn [length]. lia. }
      rewrite E1. cbn [tl]. replace (Z.to_nat dp) with 0%nat by lia. cbn [skipn].
      change ([48] ++ zeros (Z.to_nat (- dp)) ++ digit_bytes ds) with (zeros (S (Z.to_nat (- dp))) ++ digit_bytes ds).
      rewrite digit_vals_app, digit_vals_zeros, digit_vals_bytes.
      rewrite (canon_dec_leading neg ds _ _ (proj1 Hds)). f_equal. cbn [length]. lia.
  Qed.

  Lemma fmt_f_token : num_lexeme_ok (fmt_f neg ds dp) (floaty (fmt_f neg ds dp)) = true.
  Proof.
    unfold fmt_f. rewrite (floaty_parts neg _ _ [] fmt_f_int_shape fmt_f_frac_shape (or_introl eq_refl)).
    apply num_ok_parts; [apply fmt_f_int_shape|apply fmt_f_frac_shape|left; reflexivity].
  Qed.

  Lemma fmt_g_eq : fmt_g neg ds dp = if ((dp - 1 <? -4) || (6 <=? dp - 1))%Z then fmt_e neg ds dp else fmt_f neg ds dp.
  Proof. destruct fds_cons as (d & r & -> & _). reflexivity. Qed.

  Theorem fmt_g_read : float_of_lexeme (fmt_g neg ds dp) = (neg, ds, dp).
  Proof. rewrite fmt_g_eq. destruct ((dp - 1 <? -4) || (6 <=? dp - 1))%Z; [apply fmt_e_read|apply fmt_f_read]. Qed.

  Theorem fmt_g_token : num_lexeme_ok (fmt_g neg ds dp) (floaty (fmt_g neg ds dp)) = true.
  Proof. rewrite fmt_g_eq. destruct ((dp - 1 <? -4) || (6 <=? dp - 1))%Z; [apply fmt_e_token|apply fmt_f_token]. Qed.
End Float.

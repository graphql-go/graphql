(* C14 -- facts about traces and the recursive walk: the walk of a node is its enter event,
   the walks of its children in key-table order ([kids]), its leave event, put together by
   [seq]; without a break that is concatenation ([walk_no_break]).  Skip, break and nesting on
   the walk; VisitInParallel shows every sub-visitor the walk it would make alone. *)
From Coq Require Import List NArith Bool.
From GQL Require Import Visitor.VisitorTree Visitor.VisitorWalk Visitor.VisitorLoop.
Import ListNotations.

Lemma seq_nil_l q : seq nil_tr q = q.
Proof. destruct q; reflexivity. Qed.
Lemma seq_nil_r p : seq p nil_tr = p.
Proof. destruct p as [e []]; cbn; rewrite ?app_nil_r; reflexivity. Qed.
Lemma seq_assoc p q r : seq (seq p q) r = seq p (seq q r).
Proof. destruct p as [e []], q as [e' []], r as [e'' b'']; cbn; rewrite ?app_assoc; reflexivity. Qed.
Lemma fst_seq_cont e q : fst (seq (e, false) q) = e ++ fst q.
Proof. destruct q; reflexivity. Qed.
Lemma seq_stop e q : seq (e, true) q = (e, true).
Proof. reflexivity. Qed.
Lemma fst_seq_nostop p q : snd p = false -> fst (seq p q) = fst p ++ fst q.
Proof. destruct p as [e []], q; cbn; [discriminate | reflexivity]. Qed.
Lemma snd_seq_nostop p q : snd p = false -> snd (seq p q) = snd q.
Proof. destruct p as [e []], q; cbn; [discriminate | reflexivity]. Qed.
Lemma in_fst_seq e p q : In e (fst (seq p q)) -> In e (fst p) \/ In e (fst q).
Proof. destruct p as [ep []], q as [eq bq]; cbn; [auto | intros H; apply in_app_or in H; exact H]. Qed.

Section GInd.
Variable P : gnode -> Prop.
Definition SlotP (s : slot) : Prop :=
  match s with One _ None => True | One _ (Some c) => P c | Many _ l => Forall P l end.
Hypothesis H : forall id kind slots, Forall SlotP slots -> P (GNode id kind slots).
Fixpoint gnode_ind' (n : gnode) : P n :=
  match n with
  | GNode id kind slots =>
    H id kind slots
      ((fix F (ss : list slot) : Forall SlotP ss :=
          match ss with
          | [] => Forall_nil _
          | s :: r =>
            Forall_cons s
              (match s return SlotP s with
               | One _ None => I
               | One _ (Some c) => gnode_ind' c
               | Many _ l =>
                 (fix L (l : list gnode) : Forall P l :=
                    match l with
                    | [] => Forall_nil _
                    | c :: l' => Forall_cons c (gnode_ind' c) (L l')
                    end) l
               end) (F r)
          end) slots)
  end.
End GInd.

Definition in_slot (ch : gnode) (s : slot) : Prop :=
  match s with One _ o => o = Some ch | Many _ l => In ch l end.
Definition child_of (slots : list slot) (ch : gnode) : Prop := exists s, In s slots /\ in_slot ch s.

Lemma gnode_child_ind (P : gnode -> Prop) :
  (forall id kind slots, (forall ch, child_of slots ch -> P ch) -> P (GNode id kind slots)) ->
  forall n, P n.
Proof.
  intros H. induction n as [id kind slots IH] using gnode_ind'. apply H. intros ch (s & Hs & Hc).
  rewrite Forall_forall in IH. specialize (IH s Hs). destruct s as [nm o|nm l]; cbn in Hc, IH.
  - subst o. exact IH.
  - rewrite Forall_forall in IH. apply IH, Hc.
Qed.

Lemma slot_all_child f slots ch :
  forallb (slot_all f) slots = true -> child_of slots ch -> f ch = true.
Proof.
  intros Hall (s & Hs & Hc). rewrite forallb_forall in Hall. specialize (Hall s Hs).
  destruct s as [nm o|nm l]; cbn in Hc, Hall.
  - subst o. exact Hall.
  - rewrite forallb_forall in Hall. apply Hall, Hc.
Qed.

Lemma find_slot_in k ss s : find_slot k ss = Some s -> In s ss.
Proof.
  induction ss as [|s0 r IH]; cbn; [discriminate|].
  destruct (N.eqb k (slot_name s0)); [intros E; inversion E; auto | auto].
Qed.

(* the children of a node in the order of the key table, each with the position and the
   key under which the walk reaches it *)
Definition kid := (wctx * option pkey * gnode)%type.

Fixpoint list_kids (cl : wctx) (i : nat) (l : list gnode) : list kid :=
  match l with [] => [] | ch :: l' => (cl, Some (KIdx (N.of_nat i)), ch) :: list_kids cl (S i) l' end.
Definition slot_kids (cin : wctx) (k : N) (s : option slot) : list kid :=
  match s with
  | Some (One _ (Some ch)) => [(cin, Some (KName k), ch)]
  | Some (Many _ l) => list_kids (w_inner cin (Some (KName k)) None) 0 l
  | _ => []
  end.
Definition kids (cin : wctx) (slots : list slot) (ks : list N) : list kid :=
  flat_map (fun k => slot_kids cin k (find_slot k slots)) ks.

Lemma list_kids_inv cl i l x : In x (list_kids cl i l) -> In (snd x) l /\ fst (fst x) = cl.
Proof.
  revert i. induction l as [|ch l IH]; intros i H; [destruct H|].
  destruct H as [<-|H]; [split; [left|]; reflexivity|]. destruct (IH _ H). split; [right|]; assumption.
Qed.

Lemma kids_inv cin slots ks x : In x (kids cin slots ks) ->
  child_of slots (snd x) /\
  (fst (fst x) = cin \/ exists k, fst (fst x) = w_inner cin (Some (KName k)) None).
Proof.
  intros H. apply in_flat_map in H. destruct H as (k & _ & H).
  destruct (find_slot k slots) as [s|] eqn:Ef; [|destruct H]. apply find_slot_in in Ef.
  destruct s as [nm [ch|]|nm l]; cbn [slot_kids] in H.
  - destruct H as [<-|[]]. split; [exists (One nm (Some ch)); split; [exact Ef | reflexivity] | left; reflexivity].
  - destruct H.
  - apply list_kids_inv in H. destruct H as [G1 G2].
    split; [exists (Many nm l); split; assumption | right; exists k; exact G2].
Qed.

Lemma kids_child cin slots ks x : In x (kids cin slots ks) -> child_of slots (snd x).
Proof. intros H. apply (kids_inv _ _ _ _ H). Qed.

Lemma seqs_app a b :
  fold_right seq nil_tr (a ++ b) = seq (fold_right seq nil_tr a) (fold_right seq nil_tr b).
Proof.
  induction a as [|p a IH]; cbn [app fold_right]; [rewrite seq_nil_l; reflexivity|].
  rewrite IH, seq_assoc. reflexivity.
Qed.

Lemma folds_rel {X Y} (R : X -> Y -> Prop) xnil xseq ynil yseq (f : kid -> X) (g : kid -> Y) l :
  R xnil ynil -> (forall p q a b, R p a -> R q b -> R (xseq p q) (yseq a b)) ->
  (forall x, In x l -> R (f x) (g x)) -> R (fold_right xseq xnil (map f l)) (fold_right yseq ynil (map g l)).
Proof.
  intros Hn Hs. induction l as [|x l IH]; intros H; [exact Hn|].
  cbn. apply Hs; [apply H; left; reflexivity | apply IH; intros y Hy; apply H; right; exact Hy].
Qed.

Lemma folds_all {X} (Q : X -> Prop) xnil xseq (f : kid -> X) l :
  Q xnil -> (forall p q, Q p -> Q q -> Q (xseq p q)) -> (forall x, In x l -> Q (f x)) ->
  Q (fold_right xseq xnil (map f l)).
Proof.
  intros Hn Hs H. apply (folds_rel (fun p _ => Q p) xnil xseq tt (fun _ _ => tt) f (fun _ => tt) l); auto.
Qed.

Lemma seqs_nostop (f : kid -> tr) l :
  (forall x, In x l -> snd (f x) = false) ->
  fold_right seq nil_tr (map f l) = (fold_right (@app _) [] (map (fun x => fst (f x)) l), false).
Proof.
  intros H. apply (folds_rel (fun p t => p = (t, false))); [reflexivity | intros p q a b -> ->; reflexivity|].
  intros x Hx. rewrite <- (H x Hx). destruct (f x); reflexivity.
Qed.

Section W.
Variable keys_of : N -> list N.
Variable sel : N -> phase -> option N.
Variable pol : N -> phase -> action.
Notation W := (walk keys_of sel pol).

Lemma walk_unfold c key n :
  walk keys_of sel pol c key n =
  match act sel pol n PEnter with
  | Break => (emit sel PEnter c key n, true)
  | Skip => (emit sel PEnter c key n, false)
  | Continue =>
    seq (emit sel PEnter c key n, false)
        (seq (wkeys keys_of sel pol (w_inner c key (Some (g_id n))) (g_slots n) (keys_of (g_kind n)))
             (leave_tr sel pol c key n))
  end.
Proof.
  destruct n as [id kind slots]. cbn [g_id g_slots g_kind]. cbn -[seq emit act leave_tr wkeys].
  destruct (act sel pol (GNode id kind slots) PEnter); try reflexivity.
  apply f_equal, (f_equal (fun x => seq x _)).
  induction (keys_of kind) as [|k ks IH]; [reflexivity|]. cbn [wkeys]. rewrite <- IH.
  apply (f_equal (fun x => seq x _)). clear IH.
  induction slots as [|[nm o|nm l] ss IHs]; cbn [find_slot slot_name]; [reflexivity | |];
    (destruct (N.eqb k nm); [|exact IHs]); [destruct o; reflexivity|].
  cbn [wslot]. generalize 0%nat. induction l as [|ch l IHl]; intros i; [reflexivity|].
  cbn [wlist]. rewrite IHl. reflexivity.
Qed.

Definition walk_kid (x : kid) : tr := W (fst (fst x)) (snd (fst x)) (snd x).

Lemma wkeys_kids cin slots ks :
  wkeys keys_of sel pol cin slots ks = fold_right seq nil_tr (map walk_kid (kids cin slots ks)).
Proof.
  induction ks as [|k ks IH]; [reflexivity|]. cbn [wkeys].
  change (kids cin slots (k :: ks)) with (slot_kids cin k (find_slot k slots) ++ kids cin slots ks).
  rewrite map_app, seqs_app, <- IH.
  f_equal. destruct (find_slot k slots) as [[nm [ch|]|nm l]|]; cbn [wslot slot_kids]; try reflexivity.
  - symmetry. apply seq_nil_r.
  - generalize 0. induction l as [|ch l IHl]; intros i; [reflexivity|]. cbn [wlist list_kids]. rewrite IHl. reflexivity.
Qed.

Lemma nsteps_unfold n :
  nsteps keys_of n = S (S (ksteps keys_of (g_slots n) (keys_of (g_kind n)))).
Proof.
  destruct n as [id kind slots]. cbn [g_slots g_kind]. cbn -[ksteps Nat.add]. do 2 apply f_equal.
  induction (keys_of kind) as [|k ks IH]; [reflexivity|]. cbn [ksteps]. rewrite <- IH.
  apply (f_equal (fun x => x + _)). clear IH.
  induction slots as [|[nm o|nm l] ss IHs]; cbn [find_slot slot_name]; [reflexivity | |];
    (destruct (N.eqb k nm); [|exact IHs]); [destruct o; reflexivity|].
  cbn [sstep]. destruct l; reflexivity.
Qed.

Lemma skip_drops_subtree c key n :
  act sel pol n PEnter = Skip -> W c key n = (emit sel PEnter c key n, false).
Proof. intros H. rewrite walk_unfold, H. reflexivity. Qed.

Lemma break_on_enter_stops c key n rest :
  act sel pol n PEnter = Break -> seq (W c key n) rest = (emit sel PEnter c key n, true).
Proof. intros H. rewrite walk_unfold, H. reflexivity. Qed.

Lemma break_on_leave_stops c key n rest :
  act sel pol n PLeave = Break -> seq (leave_tr sel pol c key n) rest = (emit sel PLeave c key n, true).
Proof. intros H. unfold leave_tr. rewrite H. reflexivity. Qed.

Definition kid_events (x : kid) : list event := fst (walk_kid x).

(* Without a break the walk is plain concatenation. *)
Theorem walk_no_break :
  (forall id ph, pol id ph <> Break) -> forall n c key,
  W c key n =
  (emit sel PEnter c key n ++
   match act sel pol n PEnter with
   | Skip => []
   | _ => fold_right (@app _) [] (map kid_events (kids (w_inner c key (Some (g_id n))) (g_slots n) (keys_of (g_kind n))))
          ++ emit sel PLeave c key n
   end, false).
Proof.
  intros Hnb. induction n as [id kind slots IH] using gnode_child_ind. intros c key.
  assert (Ha : forall ph, act sel pol (GNode id kind slots) ph <> Break).
  { intros ph. unfold act. destruct (sel _ ph); [apply Hnb | discriminate]. }
  rewrite walk_unfold.
  destruct (act sel pol (GNode id kind slots) PEnter) eqn:E; [|rewrite app_nil_r; reflexivity|exfalso; exact (Ha _ E)].
  rewrite wkeys_kids, seqs_nostop by (intros x Hx; unfold walk_kid; rewrite (IH _ (kids_child _ _ _ _ Hx)); reflexivity).
  unfold leave_tr. destruct (act sel pol (GNode id kind slots) PLeave) eqn:El; [reflexivity | reflexivity | exfalso; exact (Ha _ El)].
Qed.

Theorem never_break_never_stops :
  (forall id ph, pol id ph <> Break) -> forall n c key, snd (W c key n) = false.
Proof. intros Hnb n c key. rewrite walk_no_break by exact Hnb. reflexivity. Qed.

Lemma wkeys_no_break cin slots ks :
  (forall id ph, pol id ph <> Break) ->
  wkeys keys_of sel pol cin slots ks = (fold_right (@app _) [] (map kid_events (kids cin slots ks)), false).
Proof. intros Hnb. rewrite wkeys_kids. apply seqs_nostop. intros x _. apply never_break_never_stops, Hnb. Qed.

Theorem all_continue_nested :
  (forall id ph, pol id ph = Continue) -> forall n c key,
  W c key n = (emit sel PEnter c key n
               ++ fst (wkeys keys_of sel pol (w_inner c key (Some (g_id n))) (g_slots n) (keys_of (g_kind n)))
               ++ emit sel PLeave c key n, false).
Proof.
  intros Hc n c key.
  assert (Hnb : forall id ph, pol id ph <> Break) by (intros id ph; rewrite Hc; discriminate).
  rewrite walk_no_break, wkeys_no_break by exact Hnb.
  replace (act sel pol n PEnter) with Continue by (unfold act; destruct (sel _ _); [rewrite Hc|]; reflexivity).
  reflexivity.
Qed.

Theorem walk_nested :
  (forall kind ph, sel kind ph <> None) -> (forall id ph, pol id ph <> Break) ->
  forall n c key, nested pol (fst (W c key n)).
Proof.
  intros sel_total no_break. induction n as [id kind slots IH] using gnode_child_ind. intros c key.
  rewrite walk_no_break by exact no_break. unfold act, emit. cbn [fst g_kind g_id g_slots].
  destruct (sel kind PEnter) as [fe|] eqn:Ee; [|exfalso; exact (sel_total _ _ Ee)].
  destruct (sel kind PLeave) as [fl|] eqn:El; [|exfalso; exact (sel_total _ _ El)].
  destruct (pol id PEnter) eqn:Ep.
  - apply (N_node pol (mk_event PEnter c key (GNode id kind slots) fe) _
                      (mk_event PLeave c key (GNode id kind slots) fl)); auto.
    apply folds_all; [constructor | apply N_app|]. intros x Hx. apply IH, (kids_child _ _ _ _ Hx).
  - apply N_skip; [reflexivity | exact Ep].
  - exfalso; exact (no_break _ _ Ep).
Qed.

End W.

Section Par.
Variable keys_of : N -> list N.
Variable sel : N -> phase -> option N.
Variable pol : N -> phase -> action.

(* the traversal the VisitInParallel wrapper receives, and the one sub-visitor alone *)
Notation F := (walk keys_of par_sel par_pol).
Notation Fkeys := (wkeys keys_of par_sel par_pol).
Notation W := (walk keys_of sel pol).
Notation Wkeys := (wkeys keys_of sel pol).
Notation prun := (par_run sel pol).

Definition mark_of (t : tr) : option skipmark := if snd t then Some SkBreak else None.

Lemma F_unfold c key n :
  F c key n = seq ([mk_event PEnter c key n FN_ENTER], false)
                  (seq (Fkeys (w_inner c key (Some (g_id n))) (g_slots n) (keys_of (g_kind n)))
                       ([mk_event PLeave c key n FN_LEAVE], false)).
Proof. rewrite walk_unfold. reflexivity. Qed.

Lemma Fkeys_ids_of slots cin ks :
  (forall ch, child_of slots ch -> forall c key e, In e (fst (F c key ch)) -> In (e_id e) (ids ch)) ->
  forall e, In e (fst (Fkeys cin slots ks)) -> In (e_id e) (flat_map (slot_ids ids) slots).
Proof.
  intros IH. rewrite wkeys_kids. apply folds_all.
  - intros e [].
  - intros p q Hp Hq e He. apply in_fst_seq in He. destruct He; auto.
  - intros x Hx e He. destruct (kids_child _ _ _ _ Hx) as (s & Hs & Hc). apply in_flat_map. exists s.
    split; [exact Hs|]. apply (IH _ (ex_intro _ s (conj Hs Hc))) in He.
    destruct s as [nm o|nm l]; cbn in Hc |- *; [subst o; exact He | apply in_flat_map; eauto].
Qed.

Lemma F_ids : forall n c key e, In e (fst (F c key n)) -> In (e_id e) (ids n).
Proof.
  induction n as [id kind slots IH] using gnode_child_ind. intros c key e Hin.
  rewrite F_unfold in Hin. cbn [g_id g_slots g_kind] in Hin.
  apply in_fst_seq in Hin. destruct Hin as [[<-|[]]|Hin]; [left; reflexivity|].
  apply in_fst_seq in Hin. destruct Hin as [Hin|[<-|[]]]; [|left; reflexivity].
  right. exact (Fkeys_ids_of slots _ _ IH e Hin).
Qed.

(* in a tree of pointers the events below a node are about other nodes *)
Lemma Fkeys_fresh id kind slots cin ks e :
  tree_ok (GNode id kind slots) = true -> In e (fst (Fkeys cin slots ks)) -> e_id e <> id.
Proof.
  intros Hok Hin E. cbn [tree_ok] in Hok. apply andb_prop in Hok. destruct Hok as [Hfresh _].
  apply (Fkeys_ids_of slots) in Hin; [|intros ch _; apply F_ids].
  apply negb_true_iff, not_true_iff_false in Hfresh. apply Hfresh, existsb_exists.
  exists (e_id e). split; [exact Hin | apply N.eqb_eq; symmetry; exact E].
Qed.

Lemma prun_break evs : prun (Some SkBreak) evs = (Some SkBreak, []).
Proof.
  induction evs as [|e r IH]; [reflexivity|]. cbn [par_run]. unfold par_step.
  destruct (e_phase e); rewrite IH; reflexivity.
Qed.

Lemma prun_skipping x evs :
  (forall e, In e evs -> e_id e <> x) -> prun (Some (SkNode x)) evs = (Some (SkNode x), []).
Proof.
  induction evs as [|e r IH]; intros Hn; [reflexivity|]. cbn [par_run]. unfold par_step.
  assert (Hx : N.eqb x (e_id e) = false).
  { apply N.eqb_neq. intros E. apply (Hn e (or_introl eq_refl)). symmetry; exact E. }
  destruct (e_phase e); rewrite ?Hx, IH; auto; intros e' Hi; apply Hn; right; exact Hi.
Qed.

Lemma prun_app sk a b :
  prun sk (a ++ b) = let '(sk1, o1) := prun sk a in let '(sk2, o2) := prun sk1 b in (sk2, o1 ++ o2).
Proof.
  revert sk. induction a as [|e a IH]; intros sk; cbn [app par_run].
  - destruct (prun sk b); reflexivity.
  - destruct (par_step sel pol sk e) as [sk1 o1]. rewrite IH.
    destruct (prun sk1 a) as [sk2 o2]. destruct (prun sk2 b) as [sk3 o3].
    rewrite app_assoc. reflexivity.
Qed.

(* "p is the full traversal of a part of the tree, p' what the sub-visitor sees of it alone" *)
Definition agrees (p p' : tr) : Prop :=
  snd p = false /\ prun None (fst p) = (mark_of p', fst p').

Lemma agrees_seq p q p' q' : agrees p p' -> agrees q q' -> agrees (seq p q) (seq p' q').
Proof.
  intros [Hp Hpr] [Hq Hqr]. split.
  - rewrite snd_seq_nostop; assumption.
  - rewrite fst_seq_nostop by assumption. rewrite prun_app, Hpr.
    destruct p' as [e' [|]]; unfold mark_of; cbn [snd fst seq].
    + rewrite prun_break, app_nil_r. reflexivity.
    + rewrite Hqr. destruct q' as [e2 b2]. reflexivity.
Qed.

Lemma agrees_leave c key n :
  agrees ([mk_event PLeave c key n FN_LEAVE], false) (leave_tr sel pol c key n).
Proof.
  split; [reflexivity|]. unfold leave_tr, act, emit. cbn [fst par_run]. unfold par_step.
  cbn [e_phase mk_event e_kind e_id].
  destruct (sel (g_kind n) PLeave); [destruct (pol (g_id n) PLeave)|]; reflexivity.
Qed.

Theorem par_agrees : forall n, tree_ok n = true -> forall c key, agrees (F c key n) (W c key n).
Proof.
  induction n as [id kind slots IH] using gnode_child_ind. intros Hok c key.
  pose proof (fun cin ks e => Fkeys_fresh id kind slots cin ks e Hok) as Hids.
  cbn [tree_ok] in Hok. apply andb_prop in Hok. destruct Hok as [_ Hkids].
  assert (HK : forall cin ks, agrees (Fkeys cin slots ks) (Wkeys cin slots ks)).
  { intros cin ks. rewrite !wkeys_kids. apply (folds_rel agrees); [split; reflexivity | apply agrees_seq|].
    intros x Hx. pose proof (kids_child _ _ _ _ Hx) as Hc. apply IH; [exact Hc | exact (slot_all_child _ _ _ Hkids Hc)]. }
  rewrite F_unfold, walk_unfold. unfold act, emit. cbn [g_id g_slots g_kind].
  set (cin := w_inner c key (Some id)).
  assert (HFK : snd (Fkeys cin slots (keys_of kind)) = false) by apply HK.
  destruct (sel kind PEnter) as [fn|] eqn:Es; [destruct (pol id PEnter) eqn:Ep|].
  1, 4: (apply agrees_seq; [split; [reflexivity|]; cbn; rewrite Es, ?Ep; reflexivity|];
         apply agrees_seq; [apply HK | apply agrees_leave]).
  (* skip: the subtree and the leave are withheld, then the mark is cleared; break: nothing follows *)
  all: split; [rewrite !snd_seq_nostop by (try reflexivity; exact HFK); reflexivity|];
    rewrite !fst_seq_nostop by (try reflexivity; exact HFK);
    cbn [fst app par_run par_step mk_event e_phase e_kind e_id g_kind g_id]; rewrite Es, Ep.
  - rewrite prun_app, (prun_skipping id) by (apply Hids).
    cbn [par_run par_step e_phase e_id mk_event g_id]. rewrite N.eqb_refl. reflexivity.
  - rewrite prun_break. reflexivity.
Qed.

Theorem par_projection t :
  tree_ok t = true ->
  par_observed sel pol (walk_events keys_of par_sel par_pol t) = walk_events keys_of sel pol t.
Proof.
  intros Hok. unfold par_observed, walk_events, walk_root.
  destruct (par_agrees t Hok w_root None) as [_ ->]. reflexivity.
Qed.

End Par.

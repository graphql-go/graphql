(* C14 -- type tracking: the TypeInfo stacks, driven by VisitWithTypeInfo along the traversal,
   report at every callback the top-down `types_at` of the chain of enclosing nodes. *)
From Coq Require Import List NArith Bool.
From GQL Require Import Visitor.VisitorTree Visitor.VisitorWalk Visitor.VisitorLoop
     Visitor.VisitorKeysSpec Visitor.TypeInfo Visitor.TypeInfoPre Proofs.VisitorWalkProofs.
Import ListNotations.
Open Scope N_scope.

Section TIP.
Variable sch : tschema.
Variable attr : N -> nattr.
Variable sel : N -> phase -> option N.
Variable pol : N -> phase -> action.
Variable keys_of : N -> list N.
Variable kind_of : N -> N.

Notation opol := (twi_pol sel pol kind_of).
Notation OW := (walk keys_of par_sel opol).
Notation OWkeys := (wkeys keys_of par_sel opol).
Notation tstep := (ti_step sch attr sel pol).
Notation obs := (phase * N * tenv)%type.

Fixpoint ti_end (st : tistate) (evs : list event) : tistate :=
  match evs with [] => st | e :: r => ti_end (fst (tstep st e)) r end.

Lemma ti_run_app st a b :
  ti_run sch attr sel pol st (a ++ b) = ti_run sch attr sel pol st a ++ ti_run sch attr sel pol (ti_end st a) b.
Proof.
  revert st. induction a as [|e a IH]; intros st; [reflexivity|]. cbn [app ti_run ti_end].
  destruct (tstep st e) as [s1 o1]. cbn [fst]. rewrite IH, app_assoc. reflexivity.
Qed.

Lemma ti_end_app st a b : ti_end st (a ++ b) = ti_end (ti_end st a) b.
Proof. revert st. induction a as [|e a IH]; intros st; [reflexivity|]. apply IH. Qed.

Definition spec_one (e : event) : list obs :=
  match sel (e_kind e) (e_phase e) with
  | Some _ => [(e_phase e, e_id e, types_at sch attr (chain_of kind_of e))]
  | None => []
  end.
Definition spec_obs (evs : list event) : list obs := flat_map spec_one evs.

(* running the part p of the traversal from state st reports the spec and, unless the
   traversal was stopped, ends in st' *)
Definition goodfrom (st st' : tistate) (p : tr) : Prop :=
  ti_run sch attr sel pol st (fst p) = spec_obs (fst p) /\ (snd p = false -> ti_end st (fst p) = st').

Lemma good_nil st : goodfrom st st nil_tr.
Proof. split; reflexivity. Qed.

Lemma good_seq st st1 st2 p q : goodfrom st st1 p -> goodfrom st1 st2 q -> goodfrom st st2 (seq p q).
Proof.
  unfold goodfrom. destruct p as [ep [|]], q as [eq1 bq]; cbn [seq fst snd]; intros [Hp Hp'] [Hq Hq'].
  - split; [exact Hp | discriminate].
  - unfold spec_obs in *. rewrite ti_run_app, ti_end_app, flat_map_app, Hp, (Hp' eq_refl), Hq. auto.
Qed.

Lemma good_one st st' e stop : tstep st e = (st', spec_one e) -> goodfrom st st' ([e], stop).
Proof.
  intros H. unfold goodfrom, spec_obs. cbn [fst snd ti_run ti_end flat_map]. rewrite H. cbn [fst].
  rewrite !app_nil_r. auto.
Qed.

Definition chainK (c : wctx) : list (N * N) :=
  map (fun id => (id, kind_of id)) (flat_map (fun o => optl o) (w_ancs c ++ [w_parent c])).

Lemma chain_event ph c key n fn :
  chain_of kind_of (mk_event ph c key n fn) = chainK c ++ [(g_id n, g_kind n)].
Proof. reflexivity. Qed.

Lemma chainK_inner c key p :
  chainK (w_inner c key p) = chainK c ++ map (fun id => (id, kind_of id)) (optl p).
Proof.
  unfold chainK, w_inner. cbn [w_ancs w_parent]. rewrite flat_map_app, map_app. cbn [flat_map].
  rewrite app_nil_r. reflexivity.
Qed.

Lemma types_at_snoc chain id kind :
  types_at sch attr (chain ++ [(id, kind)]) = enter_env sch attr (types_at sch attr chain) id kind.
Proof. unfold types_at. rewrite fold_left_app. reflexivity. Qed.

(* case analysis on the kinds that TypeInfo distinguishes; the last case is any other kind *)
Ltac kind_cases kind :=
  destruct (N.eq_dec kind K_SELSET) as [->|];
  [|destruct (N.eq_dec kind K_FIELD) as [->|];
    [|destruct (N.eq_dec kind K_DIRECTIVE) as [->|];
      [|destruct (N.eq_dec kind K_OPDEF) as [->|];
        [|destruct (N.eq_dec kind K_INLINE) as [->|];
          [|destruct (N.eq_dec kind K_FRAGDEF) as [->|];
            [|destruct (N.eq_dec kind K_VARDEF) as [->|];
              [|destruct (N.eq_dec kind K_ARGUMENT) as [->|];
                [|destruct (N.eq_dec kind K_LISTVALUE) as [->|];
                  [|destruct (N.eq_dec kind K_OBJFIELD) as [->|]]]]]]]]]].

(* Enter pushes what enter_env computes; Leave undoes it, given that a directive (argument)
   is not entered inside a directive (argument); the two variables change only there *)
Lemma enter_spec st id kind :
  tops (ti_enter sch attr st id kind) = enter_env sch attr (tops st) id kind
  /\ ((kind = K_DIRECTIVE -> ti_dir st = None) -> (kind = K_ARGUMENT -> ti_arg st = None) ->
      ti_leave (ti_enter sch attr st id kind) kind = st)
  /\ (kind <> K_DIRECTIVE -> ti_dir (ti_enter sch attr st id kind) = ti_dir st)
  /\ (kind <> K_ARGUMENT -> ti_arg (ti_enter sch attr st id kind) = ti_arg st).
Proof.
  kind_cases kind.
  11: { assert (E : forall K, kind <> K -> N.eqb kind K = false) by (intros K; apply N.eqb_neq).
        assert (E1 : ti_enter sch attr st id kind = st) by (unfold ti_enter; rewrite !E by assumption; reflexivity).
        rewrite E1. unfold ti_leave, enter_env. rewrite !E by assumption. repeat split; reflexivity. }
  all: (split; [reflexivity|]); (split; [|split; intros H; reflexivity || contradiction]);
    intros Hd Ha; destruct st; try reflexivity.
  - specialize (Hd eq_refl). cbn in Hd. subst. reflexivity.
  - specialize (Ha eq_refl). cbn in Ha. subst. reflexivity.
Qed.

Definition inv (st : tistate) (c : wctx) (d a : bool) : Prop :=
  tops st = types_at sch attr (chainK c) /\ (d = false -> ti_dir st = None) /\ (a = false -> ti_arg st = None).

Lemma kinds_of_child id kind slots ch i k :
  child_of slots ch -> In (i, k) (kinds_of ch) -> In (i, k) (kinds_of (GNode id kind slots)).
Proof.
  intros (s & Hs & Hc) Hi. cbn [kinds_of]. right. apply in_flat_map. exists s. split; [exact Hs|].
  destruct s as [nm o|nm l]; cbn in Hc; [subst o; exact Hi | apply in_flat_map; eauto].
Qed.

(* entering a node from a state that fits its position gives a state that reports the types
   inside the node and fits the position inside it, and leaving gives the first state back *)
Lemma inv_enter st c key d a id kind :
  inv st c d a -> kind_of id = kind ->
  negb (N.eqb kind K_DIRECTIVE && d) = true -> negb (N.eqb kind K_ARGUMENT && a) = true ->
  tops (ti_enter sch attr st id kind) = types_at sch attr (chainK c ++ [(id, kind)])
  /\ inv (ti_enter sch attr st id kind) (w_inner c key (Some id)) (d || N.eqb kind K_DIRECTIVE) (a || N.eqb kind K_ARGUMENT)
  /\ ti_leave (ti_enter sch attr st id kind) kind = st.
Proof.
  intros (Htops & Hdir & Harg) Hkind Hnd Hna.
  destruct (enter_spec st id kind) as (Htops1 & Hback & Hdir1 & Harg1).
  rewrite Htops, <- types_at_snoc in Htops1. split; [exact Htops1|]. split; [split; [|split]|].
  - rewrite chainK_inner. cbn [optl map]. rewrite Hkind. exact Htops1.
  - intros E. apply orb_false_elim in E. destruct E as [-> E].
    rewrite Hdir1; [apply Hdir; reflexivity | apply N.eqb_neq; exact E].
  - intros E. apply orb_false_elim in E. destruct E as [-> E].
    rewrite Harg1; [apply Harg; reflexivity | apply N.eqb_neq; exact E].
  - apply Hback; intros ->.
    + apply Hdir. rewrite N.eqb_refl in Hnd. destruct d; [discriminate | reflexivity].
    + apply Harg. rewrite N.eqb_refl in Hna. destruct a; [discriminate | reflexivity].
Qed.

(* the two events of a node: its enter reports the types inside it and leaves TypeInfo inside
   (outside again if the sub-visitor skips the node); its leave reports the same and leaves *)
Lemma good_events st c key n (stop : bool) :
  let st1 := ti_enter sch attr st (g_id n) (g_kind n) in
  tops st1 = types_at sch attr (chainK c ++ [(g_id n, g_kind n)]) -> ti_leave st1 (g_kind n) = st ->
  goodfrom st (match sel (g_kind n) PEnter with
               | Some _ => match pol (g_id n) PEnter with Skip => st | _ => st1 end
               | None => st1 end)
           ([mk_event PEnter c key n FN_ENTER], stop)
  /\ goodfrom st1 st ([mk_event PLeave c key n FN_LEAVE], stop).
Proof.
  intros st1 Htops Hback.
  split; apply good_one; unfold ti_step, spec_one; cbn [e_phase mk_event e_kind e_id]; fold st1;
    rewrite chain_event, <- Htops, Hback; [|reflexivity].
  destruct (sel (g_kind n) PEnter); [destruct (pol (g_id n) PEnter)|]; reflexivity.
Qed.

Theorem ti_node_good : forall n d a,
  ti_ok d a n = true ->
  (forall i k, In (i, k) (kinds_of n) -> kind_of i = k) ->
  forall st c key, inv st c d a -> goodfrom st st (OW c key n).
Proof.
  induction n as [id kind slots IH] using gnode_child_ind. intros d a Hok Hkinds st c key Hinv.
  cbn [ti_ok] in Hok. apply andb_prop in Hok. destruct Hok as [Hok Hkids].
  apply andb_prop in Hok. destruct Hok as [Hnd Hna].
  assert (Hkind : kind_of id = kind) by (apply Hkinds; left; reflexivity).
  destruct (inv_enter st c key d a id kind Hinv Hkind Hnd Hna) as (Htops1 & Hinv1 & Hback).
  set (st1 := ti_enter sch attr st id kind) in *. set (cin := w_inner c key (Some id)) in *.
  set (d' := d || N.eqb kind K_DIRECTIVE) in *. set (a' := a || N.eqb kind K_ARGUMENT) in *.
  assert (HK : forall ks, goodfrom st1 st1 (OWkeys cin slots ks)).
  { intros ks. rewrite wkeys_kids. apply folds_all; [apply good_nil | intros p q; apply good_seq|].
    intros x Hx. destruct (kids_inv _ _ _ _ Hx) as [Hc Hctx].
    apply (IH _ Hc d' a' (slot_all_child _ _ _ Hkids Hc)).
    - intros i k Hi. apply Hkinds, (kinds_of_child _ _ _ _ _ _ Hc Hi).
    - destruct Hctx as [->|[k ->]]; [exact Hinv1|].
      destruct Hinv1 as (H1 & H2). split; [rewrite chainK_inner, app_nil_r; exact H1 | exact H2]. }
  pose proof (fun stop => good_events st c key (GNode id kind slots) stop Htops1 Hback) as HE.
  cbn [g_id g_kind] in HE. fold st1 in HE.
  rewrite walk_unfold. unfold act, emit, par_sel, leave_tr. cbn [g_kind g_id g_slots]. unfold twi_pol at 1. rewrite Hkind.
  destruct (sel kind PEnter) as [fe|] eqn:Es; [destruct (pol id PEnter) eqn:Ep|].
  - eapply good_seq; [apply HE|]. eapply good_seq; [apply HK | apply HE].
  - apply HE.
  - destruct (HE true) as [[H1 _] _]. split; [exact H1 | discriminate].
  - eapply good_seq; [apply HE|]. eapply good_seq; [apply HK | apply HE].
Qed.

Lemma chainK_root : chainK w_root = [].
Proof. reflexivity. Qed.

Theorem typeinfo_reports_types_at t :
  ti_ok false false t = true ->
  (forall i k, In (i, k) (kinds_of t) -> kind_of i = k) ->
  ti_run sch attr sel pol ti_init (walk_events keys_of par_sel opol t)
  = spec_obs (walk_events keys_of par_sel opol t).
Proof.
  intros Hok Hk. unfold walk_events, walk_root.
  apply (ti_node_good t false false Hok Hk ti_init w_root None).
  split; [reflexivity | split; reflexivity].
Qed.

End TIP.

Lemma memb_in l x : memb N.eqb x l = true -> In x l.
Proof.
  unfold memb. intros H. apply existsb_exists in H. destruct H as (y & Hy & E).
  apply N.eqb_eq in E. subst. exact Hy.
Qed.

Lemma kinds_fun_tbl : forall tbl,
  nodupb N.eqb (map fst tbl) = true ->
  forall i k, In (i, k) tbl -> kind_of_tbl tbl i = k.
Proof.
  induction tbl as [|[i0 k0] r IH]; intros Hn i k Hin; [destruct Hin|].
  cbn [map fst nodupb] in Hn. apply andb_prop in Hn. destruct Hn as [Hm Hr].
  unfold kind_of_tbl. cbn [assoc]. destruct Hin as [E|Hin].
  - inversion E; subst. rewrite N.eqb_refl. reflexivity.
  - destruct (N.eqb_spec i i0) as [->|Hne].
    + exfalso. apply negb_true_iff, not_true_iff_false in Hm. apply Hm, existsb_exists.
      exists i0. split; [exact (in_map fst _ _ Hin) | apply N.eqb_refl].
    + exact (IH Hr i k Hin).
Qed.

Theorem typeinfo_checked sch attr sel pol keys_of t :
  ti_ok false false t = true -> kinds_fun t = true ->
  ti_run sch attr sel pol ti_init (walk_events keys_of par_sel (twi_pol sel pol (kind_of_tree t)) t)
  = spec_obs sch attr sel (kind_of_tree t) (walk_events keys_of par_sel (twi_pol sel pol (kind_of_tree t)) t).
Proof.
  intros Hok Hk. apply typeinfo_reports_types_at; [exact Hok|].
  intros i k Hin. apply kinds_fun_tbl; assumption.
Qed.

Section StackedProof.
Variable sch : tschema.
Variable attr : N -> nattr.
Variable sel : N -> phase -> option N.
Variable pol : N -> phase -> action.
Variable keys_of : N -> list N.
Variable kind_of : N -> N.

Notation obs := (phase * N * tenv)%type.
Definition g_obs (e : event) : obs := (e_phase e, e_id e, types_at sch attr (chain_of kind_of e)).

Fixpoint pick (sk : option skipmark) (evs : list event) (os : list obs) : list obs :=
  match evs, os with
  | e :: r, o :: os' =>
    let '(sk', seen) := par_step sel pol sk e in (if is_nil seen then [] else [o]) ++ pick sk' r os'
  | _, _ => []
  end.

Lemma stack_is_pick : forall evs st sk,
  stack_run sch attr sel pol st sk evs = pick sk evs (ti_run sch attr par_sel par_pol st evs).
Proof.
  induction evs as [|e r IH]; intros st sk; [reflexivity|].
  cbn [stack_run ti_run]. unfold ti_step. destruct (par_step sel pol sk e) as [sk' seen] eqn:Ep.
  destruct (e_phase e) eqn:Eph; cbn [par_sel par_pol app pick]; rewrite Ep, IH; reflexivity.
Qed.

Lemma par_step_seen sk e :
  snd (par_step sel pol sk e) = []
  \/ exists fn, snd (par_step sel pol sk e)
                = [mkEvent (e_phase e) fn (e_id e) (e_kind e) (e_key e) (e_parent e) (e_path e) (e_ancs e)].
Proof.
  unfold par_step.
  destruct (e_phase e), sk as [[x|]|]; try (left; reflexivity);
    try (destruct (N.eqb x (e_id e)); left; reflexivity);
    (destruct (sel (e_kind e) _); [destruct (pol (e_id e) _)|]; cbn [snd]; eauto).
Qed.

Lemma pick_map : forall evs sk,
  pick sk evs (map g_obs evs) = map g_obs (snd (par_run sel pol sk evs)).
Proof.
  induction evs as [|e r IH]; intros sk; [reflexivity|].
  cbn [map pick par_run]. pose proof (par_step_seen sk e) as Hs.
  destruct (par_step sel pol sk e) as [sk' seen]. cbn [snd] in Hs. rewrite IH.
  destruct (par_run sel pol sk' r) as [sk2 o2]. cbn [snd]. rewrite map_app.
  destruct Hs as [->|[fn ->]]; reflexivity.
Qed.

Theorem stacked_reports_types_at t :
  tree_ok t = true -> ti_ok false false t = true ->
  (forall i k, In (i, k) (kinds_of t) -> kind_of i = k) ->
  stack_run sch attr sel pol ti_init None (walk_events keys_of par_sel par_pol t)
  = map g_obs (walk_events keys_of sel pol t).
Proof.
  intros Htree Hok Hk. rewrite stack_is_pick.
  pose proof (typeinfo_reports_types_at sch attr par_sel par_pol keys_of kind_of t Hok Hk) as Hti.
  change (twi_pol par_sel par_pol kind_of) with par_pol in Hti.
  rewrite Hti.
  assert (Hs : spec_obs sch attr par_sel kind_of (walk_events keys_of par_sel par_pol t)
               = map g_obs (walk_events keys_of par_sel par_pol t)).
  { unfold spec_obs. generalize (walk_events keys_of par_sel par_pol t) as l.
    induction l as [|e r IH]; [reflexivity|].
    cbn [flat_map map]. rewrite IH. reflexivity. }
  rewrite Hs, pick_map.
  pose proof (par_projection keys_of sel pol t Htree) as Hp. unfold par_observed in Hp. rewrite Hp. reflexivity.
Qed.
End StackedProof.
